(* Msg/HeaderRT.v — the header block written by Header.Write is read back by ReadMIMEHeader
   (as modelled) line for line, for every header whose keys are canonical field names and whose
   values are non-empty, printable and not bordered by blanks. *)
From Coq Require Import List NArith ZArith Bool Lia.
From Verif Require Import Base.Bytes Base.BytesP Msg.Message Msg.MessageP.
Import ListNotations.
Open Scope N_scope.

Lemma take_line_other x r acc : x <> 10 -> take_line (x :: r) acc = take_line r (x :: acc).
Proof. intros H. cbn [take_line]. apply match_lit_10, H. Qed.

Lemma take_line_scan l : forall acc r, ~ In 10 l ->
  take_line (l ++ 13 :: 10 :: r) acc = Some (rev' acc ++ l, r).
Proof.
  induction l as [|x l IH]; intros acc r Hn.
  - cbn [app]. rewrite take_line_other by discriminate. cbn [take_line]. rewrite app_nil_r. reflexivity.
  - cbn [app]. rewrite take_line_other by (intros E; apply Hn; left; exact E).
    rewrite IH by (intros Hin; apply Hn; right; exact Hin).
    rewrite !rev'_rev. cbn [rev]. rewrite <- app_assoc. reflexivity.
Qed.

Lemma take_line_crlf l r : ~ In 10 l -> take_line (l ++ 13 :: 10 :: r) [] = Some (l, r).
Proof. intros H. rewrite take_line_scan by exact H. reflexivity. Qed.

Definition first_not (f : N -> bool) (s : bytes) : Prop := match s with a :: _ => f a = false | [] => True end.

Lemma drop_while_first f s : first_not f (drop_while f s).
Proof.
  induction s as [|a s IH]; [exact I|]. cbn [drop_while]. destruct (f a) eqn:E; [exact IH|]. cbn [first_not]. exact E.
Qed.

Lemma drop_while_id f s : first_not f s -> drop_while f s = s.
Proof. destruct s as [|a s]; [reflexivity|]. cbn [first_not drop_while]. intros H. rewrite H. reflexivity. Qed.

Lemma trim_with_id f s : first_not f s -> (forall i z, s = i ++ [z] -> f z = false) -> trim_with f s = s.
Proof.
  intros Hf Hl. unfold trim_with. rewrite (drop_while_id f s Hf), !rev'_rev.
  rewrite drop_while_id; [apply rev_involutive|].
  destruct s as [|z i _] using rev_ind; [exact I|]. rewrite rev_app_distr. exact (Hl i z eq_refl).
Qed.

Record wf_line (k v : bytes) : Prop := {
  wk_ne : k <> [];
  wk_valid : forallb valid_field_byte k = true;
  wk_canon : canon_key k = Some k;
  wv_ne : v <> [];
  wv_valid : forallb valid_value_byte v = true;
  wv_first : first_not is_sp_tab v;
  wv_last : forall i z, v = i ++ [z] -> is_sp_tab z = false }.

Definition enc_line (kv : bytes * bytes) : bytes := fst kv ++ colon_sp ++ snd kv ++ CRLF.

Lemma valid_field_not (c : N) : valid_field_byte c = true -> c <> 10 /\ c <> 58 /\ is_sp_tab c = false.
Proof.
  intros H. assert (D : c = 10 \/ c = 58 \/ c = 32 \/ c = 9 \/ (c <> 10 /\ c <> 58 /\ c <> 32 /\ c <> 9)) by lia.
  destruct D as [E|[E|[E|[E|[E1 [E2 [E3 E4]]]]]]]; try (subst; vm_compute in H; discriminate).
  repeat split; try assumption. unfold is_sp_tab. apply N.eqb_neq in E3. apply N.eqb_neq in E4. rewrite E3, E4. reflexivity.
Qed.

Lemma valid_value_not (c : N) : valid_value_byte c = true -> c <> 10 /\ c <> 13.
Proof. intros H. split; intros E; subst; vm_compute in H; discriminate. Qed.

Lemma continuation_none fuel s acc : first_not is_sp_tab s -> continuation fuel s acc = (acc, s).
Proof. intros H. destruct fuel; [reflexivity|]. destruct s as [|x r]; [reflexivity|]. cbn [continuation]. cbn in H. rewrite H. reflexivity. Qed.

Lemma key_first k rest : k <> [] -> forallb valid_field_byte k = true -> first_not is_sp_tab (k ++ rest).
Proof.
  intros Hne Hv. destruct k as [|k0 kr]; [congruence|]. cbn [forallb] in Hv. apply andb_true_iff in Hv.
  apply (valid_field_not k0), Hv.
Qed.

Lemma read_one_line k v rest h f : wf_line k v -> first_not is_sp_tab rest ->
  read_mime_header (S f) (enc_line (k, v) ++ rest) h = read_mime_header f rest (hadd h k v).
Proof.
  intros [Hkne Hkv Hkc Hvne Hvv Hvf Hvl] Hr.
  assert (Hk : forall c, In c k -> c <> 10 /\ c <> 58 /\ is_sp_tab c = false)
    by (intros c Hc; apply valid_field_not, (proj1 (forallb_forall _ _) Hkv c Hc)).
  set (line := k ++ 58 :: 32 :: v).
  assert (Es : enc_line (k, v) ++ rest = line ++ 13 :: 10 :: rest).
  { unfold enc_line, line, colon_sp, CRLF. cbn [fst snd]. rewrite <- !app_assoc. reflexivity. }
  rewrite Es. cbn [read_mime_header]. rewrite take_line_crlf.
  2:{ intros Hin. apply in_app_or in Hin. destruct Hin as [Hin|[E|[E|Hin]]]; try discriminate.
      - exact (proj1 (Hk 10 Hin) eq_refl).
      - exact (proj1 (valid_value_not _ (proj1 (forallb_forall _ _) Hvv 10 Hin)) eq_refl). }
  (* the line is not blank, has a colon, and trimming leaves it alone *)
  destruct line as [|l0 lr] eqn:El; [destruct k; [congruence|discriminate]|]. rewrite <- El. unfold line.
  rewrite (proj2 (existsb_exists _ _)) by (exists 58; split; [apply in_or_app; right; left; reflexivity|reflexivity]).
  cbn [negb]. unfold trim_sp_tab. rewrite trim_with_id; [|apply key_first; assumption|].
  - rewrite continuation_none by exact Hr.
    rewrite split_at_app by (intros Hin; exact (proj1 (proj2 (Hk 58 Hin)) eq_refl)). rewrite Hkc.
    cbn [forallb valid_value_byte]. rewrite Hvv. cbn [andb drop_while is_sp_tab N.eqb Pos.eqb orb].
    rewrite drop_while_id by exact Hvf. reflexivity.
  - intros i z E. destruct (exists_last Hvne) as [vi [vz Ev]]. rewrite Ev in E.
    change (k ++ 58 :: 32 :: vi ++ [vz]) with (k ++ (58 :: 32 :: vi) ++ [vz]) in E. rewrite app_assoc in E.
    apply app_inj_tail in E. destruct E as [_ <-]. exact (Hvl vi vz Ev).
Qed.

Definition add_line (h : header) (kv : bytes * bytes) : header := hadd h (fst kv) (snd kv).

Lemma lines_first ls rest : Forall (fun kv => wf_line (fst kv) (snd kv)) ls ->
  first_not is_sp_tab (concat (map enc_line ls) ++ CRLF ++ rest).
Proof.
  intros W. destruct W as [|kv r W _]; [reflexivity|]. cbn [map concat]. unfold enc_line at 1.
  rewrite <- !app_assoc. apply key_first; apply W.
Qed.

Theorem read_lines ls : Forall (fun kv => wf_line (fst kv) (snd kv)) ls ->
  forall fuel h rest, (length ls < fuel)%nat ->
  read_mime_header fuel (concat (map enc_line ls) ++ CRLF ++ rest) h = (fold_left add_line ls h, HErrNone, rest).
Proof.
  induction 1 as [|[k v] r W1 W2 IH]; intros [|f] h rest Hf; try (cbn in Hf; lia).
  - cbn [map concat app fold_left read_mime_header CRLF].
    rewrite take_line_other by discriminate. reflexivity.
  - cbn [map concat fold_left]. rewrite <- app_assoc.
    rewrite read_one_line; [|exact W1|apply lines_first, W2]. apply IH. cbn [length] in Hf. lia.
Qed.

Definition lines_of (h : header) : list (bytes * bytes) :=
  (str_Mid, hget h str_Mid) ::
  flat_map (fun kv => map (fun v => (fst kv, trim_string v)) (snd kv))
           (sort_header (filter (fun kv => negb (equal_fold (fst kv) str_Mid)) h)).

Lemma flat_map_lines (hs : header) :
  flat_map (fun kv => flat_map (fun v => fst kv ++ colon_sp ++ trim_string v ++ CRLF) (snd kv)) hs =
  concat (map enc_line (flat_map (fun kv => map (fun v => (fst kv, trim_string v)) (snd kv)) hs)).
Proof.
  induction hs as [|[k vs] r IH]; [reflexivity|]. cbn [flat_map fst snd]. rewrite map_app, concat_app, <- IH. f_equal.
  induction vs as [|v vr IHv]; [reflexivity|]. cbn [flat_map map concat]. rewrite IHv. reflexivity.
Qed.

Lemma header_write_eq h :
  header_write h = match hget h str_Mid with [] => None | _ => Some (concat (map enc_line (lines_of h))) end.
Proof.
  unfold header_write, lines_of. destruct (hget h str_Mid) as [|m0 mr]; [reflexivity|]. f_equal.
  cbn [map concat]. rewrite flat_map_lines. unfold enc_line at 2. cbn [fst snd]. rewrite <- !app_assoc. reflexivity.
Qed.

Theorem header_write_lines h hb : header_write h = Some hb -> hb = concat (map enc_line (lines_of h)).
Proof. rewrite header_write_eq. destruct (hget h str_Mid); [discriminate|]. intros [= <-]. reflexivity. Qed.

(* lines_of h: Mid first, the other fields in sorted order, repeated fields in their order;
   rest is the body, where the reader stops *)
Theorem header_roundtrip h hb rest :
  header_write h = Some hb -> Forall (fun kv => wf_line (fst kv) (snd kv)) (lines_of h) ->
  read_mime_header (S (length (lines_of h))) (hb ++ CRLF ++ rest) [] = (fold_left add_line (lines_of h) [], HErrNone, rest).
Proof.
  intros Hw Hl. rewrite (header_write_lines h hb Hw). apply read_lines; [exact Hl|lia].
Qed.

(* a decidable form of the well-formedness of a line, for the examples here and in ReserP *)
Definition wf_lineb (k v : bytes) : bool :=
  negb (beq_bytes k []) && forallb valid_field_byte k
  && match canon_key k with Some k' => beq_bytes k' k | None => false end
  && negb (beq_bytes v []) && forallb valid_value_byte v
  && negb (is_sp_tab (hd 0 v)) && negb (is_sp_tab (last v 0)).

Lemma wf_lineb_sound k v : wf_lineb k v = true -> wf_line k v.
Proof.
  unfold wf_lineb. rewrite !andb_true_iff. intros [[[[[[H1 H2] H3] H4] H5] H6] H7].
  constructor.
  - intros E. subst. discriminate.
  - exact H2.
  - destruct (canon_key k) as [k'|]; [|discriminate]. apply beq_bytes_true in H3. subst. reflexivity.
  - intros E. subst. discriminate.
  - exact H5.
  - destruct v as [|a r]; [exact I|]. cbn [first_not hd] in *. apply negb_true_iff in H6. exact H6.
  - intros i z E. subst v. rewrite last_last in H7. apply negb_true_iff in H7. exact H7.
Qed.

Example header_roundtrip_instance :
  let h := [([77;105;100], [[65;66;67]]); ([83;117;98;106;101;99;116], [[104;105;32;116;104;101;114;101]]);
            ([66;111;100;121], [[53]]); ([84;111], [[76;65;49;66]; [78;48;67]])] in
  forallb (fun kv => wf_lineb (fst kv) (snd kv)) (lines_of h) = true /\
  match header_write h with
  | Some hb => read_mime_header 10 (hb ++ CRLF ++ [104;105]) [] =
               ([([77;105;100], [[65;66;67]]); ([66;111;100;121], [[53]]);
                 ([83;117;98;106;101;99;116], [[104;105;32;116;104;101;114;101]]); ([84;111], [[76;65;49;66]; [78;48;67]])],
                HErrNone, [104;105])
  | None => False
  end.
Proof. vm_compute. split; reflexivity. Qed.

Lemma lines_length ls : (length ls <= length (concat (map enc_line ls)))%nat.
Proof.
  induction ls as [|kv r IH]; [cbn; lia|]. cbn [map concat length]. rewrite app_length.
  unfold enc_line at 1. unfold CRLF. rewrite !app_length. cbn [length]. lia.
Qed.

Theorem message_roundtrip (m : message) (files : list (bytes * bytes)) hb :
  let norm := fold_left add_line (lines_of (mhdr m)) [] in
  header_write (mhdr m) = Some hb ->
  Forall (fun kv => wf_line (fst kv) (snd kv)) (lines_of (mhdr m)) ->
  parse_date_ok (hget (mhdr m) str_Date) = Some true ->
  parse_date_ok (hget norm str_Date) = Some true ->
  atoi_ignore_err (hget norm str_Body) = Z.of_nat (length (mbody m)) ->
  mfiles m = map snd files ->
  hvalues norm str_File = map (fun nd => file_value (fst nd) (snd nd)) files ->
  sizes_ok (map snd files) ->
  exists b, message_write m = WOk b /\
    read_from b = {| p_hdr := norm; p_body := mbody m;
                     p_files := map (fun nd => {| pf_data := snd nd; pf_name := fst nd; pf_err := false |}) files;
                     p_status := RfOk |}.
Proof.
  intros norm Hw Hl Hd Hdn Hb Hf Hfv Hs.
  rewrite (message_write_layout m hb Hd Hw). eexists. split; [reflexivity|].
  pose proof (header_write_lines _ _ Hw) as Ehb.
  set (tail := mbody m ++ (match mfiles m with [] => [] | _ => CRLF end) ++ flat_map (fun f => f ++ CRLF) (mfiles m)).
  unfold read_from.
  assert (Hdrop : drop_while asc_space_tab (hb ++ CRLF ++ tail) = hb ++ CRLF ++ tail).
  { rewrite Ehb. unfold lines_of. cbn [map concat]. unfold enc_line at 1. cbn [fst str_Mid app drop_while].
    reflexivity. }
  rewrite Hdrop.
  assert (Hread : read_mime_header (S (length (hb ++ CRLF ++ tail))) (hb ++ CRLF ++ tail) [] = (norm, HErrNone, tail)).
  { rewrite Ehb at 2. apply read_lines; [exact Hl|].
    rewrite app_length, Ehb. pose proof (lines_length (lines_of (mhdr m))). lia. }
  rewrite Hread. rewrite Hb.
  pose proof (sections_roundtrip (mbody m) files Hs) as Hsec. cbv zeta in Hsec.
  assert (Et : tail = mbody m ++ (match files with [] => [] | _ => CRLF end) ++ flat_map (fun nd => snd nd ++ CRLF) files).
  { unfold tail. rewrite Hf. f_equal. f_equal; [destruct files; reflexivity|]. clear. induction files as [|f r IH]; [reflexivity|].
    cbn [map flat_map]. rewrite IH. reflexivity. }
  rewrite Et. destruct (read_section _ _) as [[b se] rest]. destruct Hsec as [H1 [H2 H3]]. subst b se.
  rewrite Hfv, H3, Hdn. reflexivity.
Qed.
