(* Msg/ReserP.v — re-serialising a parsed message gives back the very same bytes.

   The reader groups the header lines by field name (hadd: values appended to the first entry
   with exactly that key, new keys at the end).  Header.Write prints Mid first and then the
   other fields in sorted order (a stable insertion sort), each value trimmed.  Hence the lines
   it prints are weakly sorted by key, equal keys are adjacent, grouping them yields a header
   with strictly increasing keys whose flattening is the very list of lines, sorting that header
   changes nothing, and trimming a trimmed value changes nothing (trim_with_idem).

   normal_form_idempotent therefore needs no hypothesis on the header: the same key in several
   separate entries (the sort is stable and the entries become adjacent), keys that differ only
   in letter case (different keys for hadd and for the sort alike; keys that fold to "mid" are
   dropped by Header.Write and never reach the lines), empty value lists, empty keys and blank
   values are all covered (idempotent_instance computes such a header).  message_reserialise
   has exactly the hypotheses of HeaderRT.message_roundtrip: writing the message that read_from
   returns gives the bytes that were read. *)
From Coq Require Import List NArith ZArith Bool Lia Sorted Permutation.
From Verif Require Import Base.Bytes Base.BytesP Msg.Message Msg.MessageP Msg.HeaderRT.
Import ListNotations.
Open Scope N_scope.

Definition kle (x y : bytes * list bytes) : Prop := bytes_leb (fst x) (fst y) = true.
Definition klt (x y : bytes * list bytes) : Prop := bytes_leb (fst x) (fst y) = true /\ fst x <> fst y.

(* sort_header is the insertion sort by key: insert_sorted is insert_by at this order *)
Lemma sort_header_by h : sort_header h = isort_by (fun x y => bytes_leb (fst x) (fst y)) h.
Proof. reflexivity. Qed.

Lemma sort_header_In x h : In x (sort_header h) -> In x h.
Proof. rewrite sort_header_by. apply Permutation_in, Permutation_sym, isort_by_perm. Qed.

Lemma sort_header_ss h : StronglySorted kle (sort_header h).
Proof.
  apply Sorted_StronglySorted; [intros a b c; apply bytes_leb_trans|].
  apply Sorted_LocallySorted_iff. rewrite sort_header_by. apply isort_by_sorted.
  intros a b. apply bytes_leb_total.
Qed.

Lemma sort_header_fixed h : StronglySorted klt h -> sort_header h = h.
Proof.
  induction h as [|a h IH]; intros Hs; [reflexivity|]. inversion Hs as [|? ? Hs' Hf]; subst.
  unfold sort_header. cbn [fold_right]. fold (sort_header h). rewrite (IH Hs').
  destruct h as [|b h]; [reflexivity|]. cbn [insert_sorted].
  inversion Hf as [|? ? [Hab _] _]; subst. rewrite Hab. reflexivity.
Qed.

Definition flat (h : header) : list (bytes * bytes) :=
  flat_map (fun kv => map (fun v => (fst kv, v)) (snd kv)) h.
Definition trl (kv : bytes * bytes) : bytes * bytes := (fst kv, trim_string (snd kv)).
Definition lle (x y : bytes * bytes) : Prop := bytes_leb (fst x) (fst y) = true.

Lemma lines_flat (hs : header) :
  flat_map (fun kv => map (fun v => (fst kv, trim_string v)) (snd kv)) hs = map trl (flat hs).
Proof.
  induction hs as [|[k vs] r IH]; [reflexivity|]. unfold flat in *. cbn [flat_map fst snd].
  rewrite map_app, IH, map_map. reflexivity.
Qed.

Lemma flat_keys (P : bytes -> Prop) hs : Forall (fun kv => P (fst kv)) hs -> Forall (fun x => P (fst x)) (flat hs).
Proof.
  induction 1 as [|[k vs] r Hk Hr IH]; [constructor|]. unfold flat. cbn [flat_map fst snd].
  apply Forall_app. split; [|exact IH]. apply Forall_map, Forall_forall. intros v _. exact Hk.
Qed.

Lemma flat_sorted hs : StronglySorted kle hs -> StronglySorted lle (flat hs).
Proof.
  induction 1 as [|[k vs] r Hs IH Hf]; [constructor|]. unfold flat. cbn [flat_map fst snd]. fold (flat r).
  apply (flat_keys (fun key => bytes_leb k key = true)) in Hf.
  induction vs as [|v vs IHv]; [exact IH|]. cbn [map app]. constructor; [exact IHv|].
  apply Forall_app. split; [|exact Hf]. apply Forall_map, Forall_forall. intros w _. apply bytes_leb_refl.
Qed.

Lemma ss_map_trl ls : StronglySorted lle ls -> StronglySorted lle (map trl ls).
Proof.
  induction 1 as [|a l Hs IH Hf]; [constructor|]. cbn [map]. constructor; [exact IH|]. apply Forall_map. exact Hf.
Qed.

(* every key of the grouped header is a key of one of the lines *)
Lemma hadd_keys (P : bytes -> Prop) k v acc :
  P k -> Forall (fun x => P (fst x)) acc -> Forall (fun x => P (fst x)) (hadd acc k v).
Proof.
  intros Hk. induction 1 as [|[k' vs] t Hx Ht IH]; cbn [hadd]; [repeat constructor; exact Hk|].
  destruct (beq_bytes k' k); constructor; assumption.
Qed.

Lemma group_keys (P : bytes -> Prop) ls : Forall (fun y => P (fst y)) ls ->
  forall acc, Forall (fun x => P (fst x)) acc -> Forall (fun x => P (fst x)) (fold_left add_line ls acc).
Proof. apply fold_left_inv_on. intros acc y. apply hadd_keys. Qed.

(* a line whose key is not below any key of a strictly sorted header joins the last entry or
   becomes the last entry *)
Lemma hadd_step acc : forall k v, StronglySorted klt acc -> Forall (fun x => bytes_leb (fst x) k = true) acc ->
  StronglySorted klt (hadd acc k v) /\ flat (hadd acc k v) = flat acc ++ [(k, v)].
Proof.
  induction acc as [|[k' vs] t IH]; intros k v Hs Hle; [split; [repeat constructor|reflexivity]|].
  inversion Hs as [|? ? Hs' Hf]; subst. inversion Hle as [|? ? Hk' Ht]; subst. cbn [fst] in Hk'.
  cbn [hadd]. destruct (beq_bytes_spec k' k) as [->|E].
  - assert (Et : t = []).
    { destruct t as [|y t']; [reflexivity|]. exfalso.
      inversion Hf as [|? ? [Hky Hne] _]; subst. inversion Ht as [|? ? Hyk _]; subst. cbn [fst] in Hky, Hne.
      apply Hne, bytes_leb_antisym; assumption. }
    subst t. split; [repeat constructor|].
    unfold flat. cbn [flat_map fst snd]. rewrite map_app, !app_nil_r. reflexivity.
  - destruct (IH k v Hs' Ht) as [I1 I2]. split.
    + constructor; [exact I1|]. apply (hadd_keys (fun key => bytes_leb k' key = true /\ k' <> key)); [|exact Hf].
      split; assumption.
    + unfold flat in *. cbn [flat_map fst snd]. rewrite I2, app_assoc. reflexivity.
Qed.

Lemma group_sorted ls : forall acc, StronglySorted klt acc -> StronglySorted lle ls ->
  Forall (fun x => Forall (lle (fst x, [])) ls) acc ->
  StronglySorted klt (fold_left add_line ls acc) /\ flat (fold_left add_line ls acc) = flat acc ++ ls.
Proof.
  induction ls as [|[k v] r IH]; intros acc Ha Hl Hc; [split; [exact Ha|symmetry; apply app_nil_r]|].
  inversion Hl as [|? ? Hl' Hf]; subst. cbn [fold_left]. change (add_line acc (k, v)) with (hadd acc k v).
  destruct (hadd_step acc k v Ha) as [S1 S2].
  { eapply Forall_impl; [|exact Hc]. intros x Hx. inversion Hx; assumption. }
  destruct (IH (hadd acc k v) S1 Hl') as [I1 I2].
  { apply (hadd_keys (fun key => Forall (lle (key, [])) r)); [exact Hf|].
    eapply Forall_impl; [|exact Hc]. intros x Hx. inversion Hx; assumption. }
  split; [exact I1|]. rewrite I2, S2, <- app_assoc. reflexivity.
Qed.

Lemma drop_while_snoc f a l : f a = false -> exists u, drop_while f (l ++ [a]) = u ++ [a].
Proof.
  intros Ha. induction l as [|x l IH]; cbn [app drop_while].
  - rewrite Ha. exists []. reflexivity.
  - destruct (f x); [exact IH|]. exists (x :: l). reflexivity.
Qed.

Theorem trim_with_idem f s : trim_with f (trim_with f s) = trim_with f s.
Proof.
  unfold trim_with. rewrite !rev'_rev. pose proof (drop_while_first f s) as Hd.
  destruct (drop_while f s) as [|a r]; [reflexivity|]. cbn [first_not] in Hd.
  cbn [rev]. destruct (drop_while_snoc f a (rev r) Hd) as [u Eu]. rewrite Eu.
  rewrite rev_app_distr. cbn [rev app drop_while]. rewrite Hd. cbn [rev]. rewrite rev_involutive.
  rewrite <- Eu. rewrite (drop_while_id f (drop_while f _)) by apply drop_while_first.
  rewrite Eu, rev_app_distr. reflexivity.
Qed.

Lemma trl_idem ls : map trl (map trl ls) = map trl ls.
Proof.
  rewrite map_map. apply map_ext. intros [k v]. unfold trl. cbn [fst snd]. f_equal. apply trim_with_idem.
Qed.

Lemma fold_add_mid ls mid : Forall (fun y => fst y <> str_Mid) ls -> forall acc,
  fold_left add_line ls ((str_Mid, mid) :: acc) = (str_Mid, mid) :: fold_left add_line ls acc.
Proof.
  induction 1 as [|[k v] r Hk Hr IH]; intros acc; [reflexivity|]. cbn [fold_left]. rewrite <- IH.
  unfold add_line at 2 4. cbn [fst snd hadd]. rewrite beq_bytes_neq by (intros E; apply Hk; symmetry; exact E).
  reflexivity.
Qed.

Theorem normal_form_idempotent : forall h : header,
  lines_of (fold_left add_line (lines_of h) []) = lines_of h.
Proof.
  intros h. unfold lines_of at 2 3.
  set (nm := fun kv : bytes * list bytes => negb (equal_fold (fst kv) str_Mid)).
  set (S := sort_header (filter nm h)). rewrite lines_flat.
  set (ls := map trl (flat S)). set (mid := hget h str_Mid).
  set (P := fun key : bytes => negb (equal_fold key str_Mid) = true).
  assert (Hkeys : Forall (fun y => P (fst y)) ls).
  { apply Forall_map. cbn [trl fst]. apply (flat_keys P), Forall_forall. intros kv Hkv.
    apply sort_header_In, filter_In in Hkv. apply Hkv. }
  cbn [fold_left]. change (add_line [] (str_Mid, mid)) with [(str_Mid, [mid])].
  rewrite fold_add_mid by (eapply Forall_impl; [|exact Hkeys]; intros y Hy E; unfold P in Hy; rewrite E in Hy; discriminate Hy).
  set (G := fold_left add_line ls []).
  assert (Hls : StronglySorted lle ls) by apply ss_map_trl, flat_sorted, sort_header_ss.
  destruct (group_sorted ls [] (SSorted_nil _) Hls (Forall_nil _)) as [G1 G2]. fold G in G1, G2. cbn [flat flat_map app] in G2.
  unfold lines_of. change (hget ((str_Mid, [mid]) :: G) str_Mid) with mid. f_equal.
  change (filter _ ((str_Mid, [mid]) :: G)) with (filter nm G). rewrite filter_all.
  - rewrite (sort_header_fixed G G1), lines_flat, G2. apply trl_idem.
  - apply Forall_forall, (group_keys P ls Hkeys []), Forall_nil.
Qed.

Lemma header_write_some h : hget h str_Mid <> [] -> header_write h = Some (concat (map enc_line (lines_of h))).
Proof. intros H. rewrite header_write_eq. destruct (hget h str_Mid); [contradiction|reflexivity]. Qed.

Theorem header_write_normal_form h hb :
  header_write h = Some hb -> header_write (fold_left add_line (lines_of h) []) = Some hb.
Proof.
  intros Hw. pose proof (normal_form_idempotent h) as Hi.
  assert (Hm : hget (fold_left add_line (lines_of h) []) str_Mid = hget h str_Mid).
  { apply (f_equal (fun l => snd (hd (@nil N, @nil N) l))) in Hi. exact Hi. }
  rewrite header_write_some.
  - rewrite Hi. rewrite (header_write_lines h hb Hw). reflexivity.
  - rewrite Hm. intros E. unfold header_write in Hw. rewrite E in Hw. discriminate.
Qed.

Theorem message_reserialise : forall (m : message) (files : list (bytes * bytes)) hb,
  let norm := fold_left add_line (lines_of (mhdr m)) [] in
  header_write (mhdr m) = Some hb ->
  Forall (fun kv => wf_line (fst kv) (snd kv)) (lines_of (mhdr m)) ->
  parse_date_ok (hget (mhdr m) str_Date) = Some true ->
  parse_date_ok (hget norm str_Date) = Some true ->
  atoi_ignore_err (hget norm str_Body) = Z.of_nat (length (mbody m)) ->
  mfiles m = map snd files ->
  hvalues norm str_File = map (fun nd => file_value (fst nd) (snd nd)) files ->
  sizes_ok (map snd files) ->
  exists b, message_write m = WOk b /\
    let p := read_from b in
    message_write {| mhdr := p_hdr p; mbody := p_body p; mfiles := map pf_data (p_files p) |} = WOk b.
Proof.
  intros m files hb norm Hw Hl Hd Hdn Hb Hf Hfv Hs.
  pose proof (message_roundtrip m files hb) as R. cbv zeta in R.
  destruct (R Hw Hl Hd Hdn Hb Hf Hfv Hs) as [b [Eb Er]].
  exists b. split; [exact Eb|]. cbv zeta. rewrite Er. cbn [p_hdr p_body p_files].
  rewrite map_map. cbn [pf_data].
  change (map (fun x : bytes * bytes => snd x) files) with (map snd files). rewrite <- Hf.
  rewrite (message_write_layout m hb Hd Hw) in Eb.
  rewrite (message_write_layout _ hb); cbn [mhdr mbody mfiles].
  - exact Eb.
  - exact Hdn.
  - apply header_write_normal_form. exact Hw.
Qed.

(* a header with unsorted fields, To in three separate entries, a second Mid value, keys that
   differ only in case (TO, MID), an empty key, an empty value list, blank and empty values *)
Example idempotent_instance :
  let date := [50;48;49;54;47;49;50;47;51;48;32;48;49;58;48;48] in
  let h : header :=
    [([84;111], [[76;65]]); (str_File, [[50;32;97;46;98]]); (str_Mid, [[65;66;67]; [88]]); (str_Body, [[53]]);
     ([84;111], [[78;48]; [32;81;32]]); (str_Date, [date]); ([67;99], []); ([77;73;68], [[90]]);
     ([84;79], [[89]]); ([], [[1]]); ([84;111], [[]; [32]])] in
  lines_of h =
    [(str_Mid, [65;66;67]); ([], [1]); (str_Body, [53]); (str_Date, date); (str_File, [50;32;97;46;98]);
     ([84;79], [89]); ([84;111], [76;65]); ([84;111], [78;48]); ([84;111], [81]); ([84;111], []); ([84;111], [])] /\
  fold_left add_line (lines_of h) [] =
    [(str_Mid, [[65;66;67]]); ([], [[1]]); (str_Body, [[53]]); (str_Date, [date]); (str_File, [[50;32;97;46;98]]);
     ([84;79], [[89]]); ([84;111], [[76;65]; [78;48]; [81]; []; []])] /\
  lines_of (fold_left add_line (lines_of h) []) = lines_of h.
Proof. vm_compute. repeat split; reflexivity. Qed.

(* a well-formed message (To in two separate entries, unsorted fields, one attachment): every
   hypothesis of message_reserialise holds, and the conclusion is also checked by computation *)
Example reserialise_instance :
  let date := [50;48;49;54;47;49;50;47;51;48;32;48;49;58;48;48] in
  let m := {| mhdr := [([84;111], [[76;65]]); (str_File, [[50;32;97;46;98]]); (str_Mid, [[65;66;67]]);
                       (str_Body, [[53]]); ([84;111], [[78;48]; [81]]); (str_Date, [date])];
              mbody := [104;105;33;13;10]; mfiles := [[13;10]] |} in
  let files := [([97;46;98], [13;10])] in
  let norm := fold_left add_line (lines_of (mhdr m)) [] in
  forallb (fun kv => wf_lineb (fst kv) (snd kv)) (lines_of (mhdr m)) = true /\
  parse_date_ok (hget (mhdr m) str_Date) = Some true /\
  parse_date_ok (hget norm str_Date) = Some true /\
  atoi_ignore_err (hget norm str_Body) = Z.of_nat (length (mbody m)) /\
  mfiles m = map snd files /\
  hvalues norm str_File = map (fun nd => file_value (fst nd) (snd nd)) files /\
  match message_write m with
  | WOk b => let p := read_from b in
             message_write {| mhdr := p_hdr p; mbody := p_body p; mfiles := map pf_data (p_files p) |} = WOk b
  | _ => False
  end.
Proof. vm_compute. repeat split; reflexivity. Qed.

Print Assumptions normal_form_idempotent.
Print Assumptions header_write_normal_form.
Print Assumptions message_reserialise.
