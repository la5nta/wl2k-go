(* Msg/BodyP.v — C18: string_to_body keeps the text (the same bytes remain once every CR and LF is
   removed, strip_crlf) and produces crlf_lines: lines of at most 998 bytes (message_body.go's
   1000-2: 1000 with the CR LF), each ended by CR LF. *)
From Coq Require Import Lia.
From Verif Require Import Base.Bytes Base.BytesP Msg.Body.
Open Scope N_scope.

Lemma strip_app a b : strip_crlf (a ++ b) = strip_crlf a ++ strip_crlf b.
Proof. apply filter_app. Qed.

Lemma drop_cr_cases l : drop_cr l = l \/ l = drop_cr l ++ [13].
Proof.
  unfold drop_cr. rewrite rev'_rev. destruct (rev l) as [|x r] eqn:E; [left; reflexivity|].
  destruct (N.eq_dec x 13) as [->|Hx]; [|left; apply match_lit_13, Hx].
  right. rewrite rev'_rev, <- (rev_involutive l), E. reflexivity.
Qed.

Lemma strip_drop_cr l : strip_crlf (drop_cr l) = strip_crlf l.
Proof.
  destruct (drop_cr_cases l) as [->|E]; [reflexivity|].
  rewrite E at 2. rewrite strip_app. symmetry. apply app_nil_r.
Qed.

Lemma firstn_skipn_strip n l : strip_crlf (firstn n l) ++ strip_crlf (skipn n l) = strip_crlf l.
Proof. rewrite <- strip_app, firstn_skipn. reflexivity. Qed.

Lemma wrap_rest_shorter (line : bytes) f : (length line < S f)%nat ->
  skipn (Nat.min (length line) 998) line <> [] -> (length (skipn (Nat.min (length line) 998) line) < f)%nat.
Proof.
  intros H Hne. destruct line as [|z line']; [rewrite skipn_nil in Hne; congruence|].
  rewrite skipn_length. cbn [length] in *. lia.
Qed.

Lemma wrap_aux_strip fuel line :
  (length line < fuel)%nat -> strip_crlf (wrap_aux fuel line) = strip_crlf line.
Proof.
  revert line. induction fuel as [|f IH]; intros line H; [lia|].
  cbn [wrap_aux]. set (n := Nat.min (length line) 998).
  rewrite !strip_app. change (strip_crlf CRLF) with (@nil N). cbn [app].
  destruct (skipn n line) as [|y rest] eqn:E.
  - rewrite app_nil_r. rewrite <- (firstn_skipn_strip n line), E. cbn. rewrite app_nil_r. reflexivity.
  - rewrite <- E. rewrite IH by (apply wrap_rest_shorter; [exact H|fold n; rewrite E; discriminate]).
    apply firstn_skipn_strip.
Qed.

Lemma wrap_strip line : strip_crlf (wrap line) = strip_crlf line.
Proof. apply wrap_aux_strip. lia. Qed.

Lemma strip_concat_map_wrap ls :
  strip_crlf (concat (map wrap ls)) = strip_crlf (concat ls).
Proof.
  induction ls as [|l ls IH]; [reflexivity|].
  cbn [map concat]. rewrite !strip_app, wrap_strip, IH. reflexivity.
Qed.

Lemma scan_lines_strip cur s :
  strip_crlf (concat (scan_lines cur s)) = strip_crlf (rev cur ++ s).
Proof.
  revert cur. induction s as [|x r IH]; intros cur.
  - cbn [scan_lines]. rewrite app_nil_r. destruct cur as [|c cur']; [reflexivity|].
    cbn [concat]. rewrite app_nil_r, rev'_rev. apply strip_drop_cr.
  - cbn [scan_lines]. destruct (x =? LF) eqn:E.
    + apply N.eqb_eq in E. subst x. cbn [concat]. rewrite rev'_rev, strip_app, strip_drop_cr, IH.
      rewrite !strip_app. cbn. reflexivity.
    + rewrite IH. cbn [rev]. rewrite <- app_assoc. reflexivity.
Qed.

Theorem string_to_body_strip t : strip_crlf (string_to_body t) = strip_crlf t.
Proof. unfold string_to_body. rewrite strip_concat_map_wrap. apply scan_lines_strip. Qed.

Lemma crlf_lines_app a b : crlf_lines a -> crlf_lines b -> crlf_lines (a ++ b).
Proof.
  intros Ha Hb. induction Ha as [|c rest Hc Hl Hr IH]; [exact Hb|].
  rewrite <- !app_assoc. apply cl_cons; assumption.
Qed.

Lemma wrap_aux_lines fuel line :
  (length line < fuel)%nat -> Forall (fun b => b <> LF) line -> crlf_lines (wrap_aux fuel line).
Proof.
  revert line. induction fuel as [|f IH]; intros line H Hnl; [lia|].
  cbn [wrap_aux]. set (n := Nat.min (length line) 998).
  apply cl_cons.
  - apply Forall_firstn. exact Hnl.
  - rewrite firstn_length. lia.
  - destruct (skipn n line) as [|y rest] eqn:E; [constructor|].
    rewrite <- E. apply IH.
    + apply wrap_rest_shorter; [exact H|fold n; rewrite E; discriminate].
    + apply Forall_skipn. exact Hnl.
Qed.

Lemma drop_cr_nolf l : Forall (fun b => b <> LF) l -> Forall (fun b => b <> LF) (drop_cr l).
Proof.
  intros H. destruct (drop_cr_cases l) as [->|E]; [exact H|].
  rewrite E in H. apply Forall_app in H. apply H.
Qed.

Lemma scan_lines_nolf cur s :
  Forall (fun b => b <> LF) cur ->
  Forall (fun l => Forall (fun b => b <> LF) l) (scan_lines cur s).
Proof.
  revert cur. induction s as [|x r IH]; intros cur Hc.
  - cbn [scan_lines]. destruct cur; [constructor|]. constructor; [|constructor].
    apply drop_cr_nolf. rewrite rev'_rev. apply Forall_rev. exact Hc.
  - cbn [scan_lines]. destruct (x =? LF) eqn:E.
    + constructor; [apply drop_cr_nolf; rewrite rev'_rev; apply Forall_rev; exact Hc|]. apply IH. constructor.
    + apply IH. constructor; [|exact Hc]. apply N.eqb_neq in E. exact E.
Qed.

Theorem string_to_body_lines t : crlf_lines (string_to_body t).
Proof.
  unfold string_to_body.
  pose proof (scan_lines_nolf [] t ltac:(constructor)) as H.
  induction (scan_lines [] t) as [|l ls IH]; [constructor|].
  inversion H as [|? ? Hl Hls]; subst. cbn [map concat].
  apply crlf_lines_app; [|apply IH; exact Hls].
  apply wrap_aux_lines; [lia|exact Hl].
Qed.

Theorem set_body_header t :
  snd (set_body t) = dec_of_N (N.of_nat (length (fst (set_body t)))).
Proof. reflexivity. Qed.
