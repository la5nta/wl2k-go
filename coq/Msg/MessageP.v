(* Msg/MessageP.v — proofs about Msg/Message.v: bytes_leb is a total order; section framing
   (body and attachments of any content, including content that itself ends in CR LF, NUL bytes
   and empty sections) is read back exactly; the serialised form has the documented layout. *)
From Coq Require Import Lia ZifyBool.
From Verif Require Import Base.Bytes Base.BytesP Msg.Message.
Open Scope N_scope.

Lemma bytes_leb_refl a : bytes_leb a a = true.
Proof. induction a as [|x a IH]; [reflexivity|]. cbn [bytes_leb]. rewrite N.ltb_irrefl. exact IH. Qed.

Lemma bytes_leb_total a : forall b, bytes_leb a b = true \/ bytes_leb b a = true.
Proof.
  induction a as [|x a IH]; intros [|y b]; cbn [bytes_leb]; auto.
  destruct (N.ltb_spec x y); auto. destruct (N.ltb_spec y x); auto.
Qed.

Lemma bytes_leb_antisym a : forall b, bytes_leb a b = true -> bytes_leb b a = true -> a = b.
Proof.
  induction a as [|x a IH]; intros [|y b]; cbn [bytes_leb]; try discriminate; auto.
  destruct (N.ltb_spec x y); destruct (N.ltb_spec y x); try discriminate; try lia.
  intros H1 H2. assert (x = y) by lia. subst. f_equal. apply IH; assumption.
Qed.

Lemma bytes_leb_trans a : forall b c, bytes_leb a b = true -> bytes_leb b c = true -> bytes_leb a c = true.
Proof.
  induction a as [|x a IH]; intros [|y b] [|z c]; cbn [bytes_leb]; try discriminate; auto.
  destruct (N.ltb_spec x y); destruct (N.ltb_spec y x); destruct (N.ltb_spec y z); destruct (N.ltb_spec z y);
    destruct (N.ltb_spec x z); destruct (N.ltb_spec z x); try discriminate; try lia; auto.
  apply IH.
Qed.

Lemma split_at_cons_hit c r : split_at c (c :: r) = ([], Some r).
Proof. cbn. rewrite N.eqb_refl. reflexivity. Qed.

Theorem read_section_crlf d rest :
  read_section (d ++ CRLF ++ rest) (Z.of_nat (length d)) = (d, SOk, rest).
Proof.
  unfold read_section.
  destruct (Z.of_nat (length d) <? 0)%Z eqn:E; [lia|].
  rewrite app_length. rewrite Z.min_l by lia. rewrite Nat2Z.id.
  rewrite firstn_app_exact, skipn_app_exact by reflexivity. cbn [app CRLF].
  change (split_at 10 (13 :: 10 :: rest)) with ([13], Some rest).
  cbn iota beta. rewrite Z.eqb_refl. reflexivity.
Qed.

Theorem read_section_eof d :
  read_section d (Z.of_nat (length d)) = (d, SOk, []).
Proof.
  unfold read_section.
  destruct (Z.of_nat (length d) <? 0)%Z eqn:E; [lia|].
  rewrite Z.min_id, Nat2Z.id, firstn_all, skipn_all. cbn [split_at].
  rewrite Z.eqb_refl. reflexivity.
Qed.

Theorem read_section_short s n :
  (Z.of_nat (length s) < n)%Z -> snd (fst (read_section s n)) = SUnexpectedEOF.
Proof.
  intros H. unfold read_section. destruct (n <? 0)%Z eqn:E; [lia|].
  rewrite Z.min_r by lia. rewrite Nat2Z.id, firstn_all, skipn_all. cbn [split_at].
  destruct (Z.of_nat (length s) =? n)%Z eqn:E2; [lia|]. reflexivity.
Qed.

Theorem read_section_negative s n : (n < 0)%Z -> read_section s n = ([], SNegative, s).
Proof. intros H. unfold read_section. destruct (n <? 0)%Z eqn:E; [reflexivity|lia]. Qed.

(* File header values "size name" for the given attachments *)
Definition file_value (name data : bytes) : bytes := dec_of_N (N.of_nat (length data)) ++ 32 :: name.

(* decimal size round trip through Atoi *)
Definition sizes_ok (datas : list bytes) : Prop :=
  Forall (fun d => atoi_ignore_err (dec_of_N (N.of_nat (length d))) = Z.of_nat (length d)
                   /\ fst (split_at 32 (dec_of_N (N.of_nat (length d)))) = dec_of_N (N.of_nat (length d))
                   /\ snd (split_at 32 (dec_of_N (N.of_nat (length d)))) = None) datas.

Lemma split_at_app_nosep c a b :
  snd (split_at c a) = None -> split_at c (a ++ c :: b) = (fst (split_at c a), Some b).
Proof.
  intros H. pose proof (split_at_spec c a) as Hs.
  destruct (split_at c a) as [p [q|]]; [discriminate|]. destruct Hs as [-> Hn].
  apply split_at_app. exact Hn.
Qed.

Theorem read_files_roundtrip : forall (files : list (bytes * bytes)) (e : serr),
  sizes_ok (map snd files) ->
  read_files (map (fun nd => file_value (fst nd) (snd nd)) files)
             (flat_map (fun nd => snd nd ++ CRLF) files) e
  = (map (fun nd => {| pf_data := snd nd; pf_name := fst nd; pf_err := false |}) files,
     match files with [] => e | _ => SOk end, []).
Proof.
  induction files as [|[name data] r IH]; intros e Hs; [reflexivity|].
  cbn [map fst snd flat_map] in *. inversion Hs as [|? ? [H1 [H2 H3]] Hr]; subst.
  cbn [read_files]. unfold file_value at 1.
  rewrite split_at_app_nosep by exact H3. rewrite H2, H1.
  rewrite <- app_assoc. rewrite read_section_crlf.
  rewrite (IH SOk Hr). destruct r; reflexivity.
Qed.

Theorem message_write_layout m hb :
  parse_date_ok (hget (mhdr m) str_Date) = Some true -> header_write (mhdr m) = Some hb ->
  message_write m =
  WOk (hb ++ CRLF ++ mbody m ++ (match mfiles m with [] => [] | _ => CRLF end)
       ++ flat_map (fun f => f ++ CRLF) (mfiles m)).
Proof. intros Hd Hh. unfold message_write. rewrite Hd, Hh. reflexivity. Qed.

Theorem message_write_bad_date m :
  parse_date_ok (hget (mhdr m) str_Date) = Some false -> message_write m = WDateError.
Proof. intros H. unfold message_write. rewrite H. reflexivity. Qed.

Theorem sections_roundtrip body (files : list (bytes * bytes)) :
  sizes_ok (map snd files) ->
  let tail := body ++ (match files with [] => [] | _ => CRLF end)
              ++ flat_map (fun nd => snd nd ++ CRLF) files in
  let '(b, se, rest) := read_section tail (Z.of_nat (length body)) in
  b = body /\ se = SOk /\
  read_files (map (fun nd => file_value (fst nd) (snd nd)) files) rest SOk
  = (map (fun nd => {| pf_data := snd nd; pf_name := fst nd; pf_err := false |}) files, SOk, []).
Proof.
  intros Hs tail. unfold tail. destruct files as [|f r].
  - cbn [flat_map app]. rewrite app_nil_r, read_section_eof. repeat split; reflexivity.
  - rewrite read_section_crlf. repeat split; try reflexivity.
    rewrite (read_files_roundtrip (f :: r) SOk Hs). reflexivity.
Qed.

(* Non-vacuity of sizes_ok on an example; sizes_ok_all (Msg/SizesP.v) shows it for every length below 2^63 *)
Example sizes_ok_example : sizes_ok [[]; [1;2;3]; repeatN 7 1234].
Proof. repeat constructor. Qed.

(* the Winlink date layout of a real minute parses; impossible dates are refused *)
Example date_examples :
  parse_date_ok [50;48;49;54;47;49;50;47;51;48;32;48;49;58;48;48] = Some true /\      (* 2016/12/30 01:00 *)
  parse_date_ok [50;48;49;54;47;48;50;47;51;48;32;48;49;58;48;48] = Some false /\     (* 2016/02/30 01:00 *)
  parse_date_ok [] = Some true.
Proof. vm_compute. repeat split; reflexivity. Qed.
