(* Msg/SizesP.v — the decimal size fields (Body:, File:) are read back exactly for every section
   length below 2^63: sizes_ok holds for all realistic attachments. *)
From Coq Require Import List NArith ZArith Bool Lia.
From Verif Require Import Base.Bytes Base.BytesP B2F.Grammar B2F.GrammarP Msg.Message Msg.MessageP.
Import ListNotations.
Open Scope N_scope.

Theorem size_field_roundtrip n : n < 9223372036854775808 ->
  atoi_ignore_err (dec_of_N n) = Z.of_N n /\
  fst (split_at 32 (dec_of_N n)) = dec_of_N n /\ snd (split_at 32 (dec_of_N n)) = None.
Proof.
  intros Hn. split; [apply atoi_dec_of_N; lia|].
  rewrite split_at_none by (apply dec_notin; reflexivity). split; reflexivity.
Qed.

Theorem sizes_ok_all (datas : list bytes) :
  Forall (fun d => N.of_nat (length d) < 9223372036854775808) datas -> sizes_ok datas.
Proof.
  unfold sizes_ok. intros H. eapply Forall_impl; [|exact H]. intros d Hd. cbn beta.
  destruct (size_field_roundtrip _ Hd) as [H1 [H2 H3]]. rewrite nat_N_Z in H1. repeat split; assumption.
Qed.
