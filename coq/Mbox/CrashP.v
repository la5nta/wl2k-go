(* Mbox/CrashP.v — crash safety of the temporary-file-and-rename discipline: at every crash
   point of a store or of SetSent, every file the loader looks at holds either its previous
   content or the complete new content (never a truncated message); all other visible files
   are untouched; a message being marked sent is visible in exactly one of outbox and sent. *)
From Coq Require Import Lia.
From Verif Require Import Base.Bytes Base.BytesP Mbox.Confine Mbox.Crash gen.Tables.
Open Scope N_scope.

Lemma path_eqb_refl p : path_eqb p p = true.
Proof. unfold path_eqb. rewrite N.eqb_refl, beq_bytes_refl. reflexivity. Qed.
Lemma path_eqb_true a b : path_eqb a b = true -> a = b.
Proof.
  unfold path_eqb. intros H. apply andb_true_iff in H. destruct H as [H1 H2].
  apply N.eqb_eq in H1. apply beq_bytes_true in H2. destruct a, b. cbn in *. subst. reflexivity.
Qed.
Lemma path_eqb_false a b : path_eqb a b = false -> a <> b.
Proof. intros H E. subst. rewrite path_eqb_refl in H. discriminate. Qed.

Lemma get_del_same fs p : fs_get (fs_del fs p) p = None.
Proof.
  induction fs as [|[q c] r IH]; [reflexivity|]. cbn [fs_del]. destruct (path_eqb q p) eqn:E; [exact IH|].
  cbn [fs_get]. rewrite E. exact IH.
Qed.
Lemma get_del_other fs p q : p <> q -> fs_get (fs_del fs p) q = fs_get fs q.
Proof.
  intros H. induction fs as [|[x c] r IH]; [reflexivity|]. cbn [fs_del]. destruct (path_eqb x p) eqn:E.
  - apply path_eqb_true in E. subst x. cbn [fs_get]. destruct (path_eqb p q) eqn:E2; [apply path_eqb_true in E2; contradiction|exact IH].
  - cbn [fs_get]. destruct (path_eqb x q); [reflexivity|exact IH].
Qed.
Lemma get_set_same fs p c : fs_get (fs_set fs p c) p = Some c.
Proof. unfold fs_set. cbn [fs_get]. rewrite path_eqb_refl. reflexivity. Qed.
Lemma get_set_other fs p q c : p <> q -> fs_get (fs_set fs p c) q = fs_get fs q.
Proof.
  intros H. unfold fs_set. cbn [fs_get]. destruct (path_eqb p q) eqn:E; [apply path_eqb_true in E; contradiction|].
  apply get_del_other. exact H.
Qed.

Lemma tmp_hidden n : visible_name (tmp_name n) = false.
Proof. reflexivity. Qed.
Lemma tmp_not_visible p q : visible_name (snd q) = true -> tmp_of p <> q.
Proof. intros Hq E. subst q. cbn [tmp_of snd] in Hq. rewrite tmp_hidden in Hq. discriminate. Qed.
Lemma tmp_neq p : visible_name (snd p) = true -> tmp_of p <> p.
Proof. apply tmp_not_visible. Qed.

Definition touches (c : syscall) : list path :=
  match c with SOpenTrunc p | SWrite p _ | SClose p => [p] | SRename a b => [a; b] end.

Lemma exec_frame fs c q : ~ In q (touches c) -> fs_get (exec fs c) q = fs_get fs q.
Proof.
  destruct c as [p|p d|p|a b]; cbn [touches exec In]; intros H; try reflexivity;
    try (apply get_set_other; intros E; apply H; left; exact E).
  destruct (fs_get fs a); [|reflexivity].
  rewrite get_set_other, get_del_other; [reflexivity| |]; intros E; apply H; [left|right; left]; exact E.
Qed.

Lemma crash_state_done fs calls k j : (length calls <= k)%nat -> crash_state fs calls k j = fold_left exec calls fs.
Proof.
  intros H. unfold crash_state. rewrite firstn_all2 by exact H.
  apply nth_error_None in H. rewrite H. reflexivity.
Qed.

(* the stored file appears atomically: before the rename, the fourth and last call of a store
   (hence k <= 3 complete calls), nothing visible changed at all *)
Theorem store_before_rename fs f name data k j q :
  visible_name (snd q) = true -> (k <= 3)%nat ->
  fs_get (crash_state fs (calls_of (FStore f name data)) k j) q = fs_get fs q.
Proof.
  intros Hq Hk. unfold crash_state, calls_of. pose proof (tmp_not_visible (f, name) q Hq) as Ht.
  destruct k as [|[|[|[|k]]]]; cbn [firstn fold_left nth_error exec]; try lia;
    rewrite ?get_set_other by exact Ht; reflexivity.
Qed.

Theorem store_crash_safe fs f name data k j q :
  visible_name name = true -> visible_name (snd q) = true ->
  let p := (f, name) in
  let fs' := crash_state fs (calls_of (FStore f name data)) k j in
  fs_get fs' q = fs_get fs q \/ (q = p /\ fs_get fs' q = Some data).
Proof.
  intros Hv Hq p fs'. unfold fs'. pose proof (tmp_not_visible p q Hq) as Ht.
  destruct (Nat.le_gt_cases k 3) as [Hk|Hk]; [left; apply store_before_rename; assumption|].
  rewrite crash_state_done by (cbn [calls_of length]; lia). cbn [calls_of fold_left]. fold p.
  set (fs3 := exec (exec (exec fs (SOpenTrunc (tmp_of p))) (SWrite (tmp_of p) data)) (SClose (tmp_of p))).
  assert (H3 : fs_get fs3 (tmp_of p) = Some data) by (unfold fs3; cbn [exec]; rewrite !get_set_same; reflexivity).
  cbn [exec]. rewrite H3.
  destruct (path_eqb p q) eqn:Epq.
  - apply path_eqb_true in Epq. subst q. right. split; [reflexivity|apply get_set_same].
  - apply path_eqb_false in Epq. left. rewrite get_set_other, get_del_other by assumption.
    unfold fs3. rewrite !exec_frame; [reflexivity| | |]; cbn [touches In]; intros [E|[]]; exact (Ht E).
Qed.

Theorem setsent_crash_safe fs name k j c :
  fs_get fs (F_OUT, name) = Some c -> fs_get fs (F_SENT, name) = None ->
  let fs' := crash_state fs (calls_of (FSetSent name)) k j in
  (fs_get fs' (F_OUT, name) = Some c /\ fs_get fs' (F_SENT, name) = None) \/
  (fs_get fs' (F_OUT, name) = None /\ fs_get fs' (F_SENT, name) = Some c).
Proof.
  intros Ho Hs fs'. unfold fs'.
  assert (Hne : (F_SENT, name) <> (F_OUT, name)) by (intros E; injection E; discriminate).
  destruct k as [|k]; [left; split; assumption|].
  rewrite crash_state_done by (cbn [calls_of length]; lia). cbn [calls_of fold_left exec]. rewrite Ho.
  right. split; [rewrite get_set_other by exact Hne; apply get_del_same|apply get_set_same].
Qed.

Theorem setsent_others fs name k j q :
  q <> (F_OUT, name) -> q <> (F_SENT, name) ->
  fs_get (crash_state fs (calls_of (FSetSent name)) k j) q = fs_get fs q.
Proof.
  intros H1 H2. destruct k as [|k]; [reflexivity|].
  rewrite crash_state_done by (cbn [calls_of length]; lia). cbn [calls_of fold_left].
  apply exec_frame. cbn [touches In]. intros [E|[E|[]]]; [apply H1|apply H2]; symmetry; exact E.
Qed.
