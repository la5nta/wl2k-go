(* Mbox/ConfineP.v — C12: path.Clean is idempotent on its own output, joining a plain segment
   pushes it, and every path touched for any MID lies under the mailbox directory. *)
From Coq Require Import Lia ZifyN ZifyNat ZifyBool.
From Verif Require Import Base.Bytes Base.BytesP Mbox.Confine gen.Tables.
Open Scope N_scope.

Definition noslash (s : bytes) : Prop := Forall (fun b => b <> SEP) s.
(* a segment path.Clean keeps and that is not ".." *)
Definition plain (s : bytes) : Prop := s <> [] /\ s <> str_dot /\ s <> str_dotdot /\ noslash s.

Lemma clean_step_plain r st s : plain s -> clean_step r st s = s :: st.
Proof.
  intros [H1 [H2 [H3 _]]]. unfold clean_step.
  rewrite (beq_bytes_neq s []), (beq_bytes_neq s str_dot), (beq_bytes_neq s str_dotdot) by assumption. reflexivity.
Qed.

(* normal form of a cleaned segment list (outermost first): some ".." (only when not rooted)
   followed by plain segments *)
Definition normal (rooted : bool) (segs : list bytes) : Prop :=
  exists dd pl, segs = dd ++ pl /\ Forall (fun s => s = str_dotdot) dd /\ Forall plain pl
                /\ (rooted = true -> dd = []).

(* the same read off the stack, innermost first: plain segments above the ".." *)
Definition snormal (rooted : bool) (st : list bytes) : Prop :=
  exists pl dd, st = pl ++ dd /\ Forall plain pl /\ Forall (fun s => s = str_dotdot) dd
                /\ (rooted = true -> dd = []).

Lemma snormal_rev r st : snormal r st -> normal r (rev st).
Proof.
  intros [pl [dd [-> [Hpl [Hdd Hr]]]]]. exists (rev dd), (rev pl). rewrite rev_app_distr.
  repeat split; try (apply Forall_rev; assumption). intros H. rewrite (Hr H). reflexivity.
Qed.

Lemma clean_step_snormal r st s : noslash s -> snormal r st -> snormal r (clean_step r st s).
Proof.
  intros Hs [pl [dd [-> [Hpl [Hdd Hr]]]]]. unfold clean_step.
  destruct (beq_bytes_spec s []) as [->|E1]; [exists pl, dd; auto|].
  destruct (beq_bytes_spec s str_dot) as [->|E2]; [exists pl, dd; auto|]. cbn [orb].
  destruct (beq_bytes_spec s str_dotdot) as [->|E3].
  - destruct pl as [|p pl']; cbn [app].
    + (* only ".." below: one more, except at the root *)
      destruct dd as [|d dd'].
      * destruct r; [exists [], []|exists [], [str_dotdot]]; repeat split; auto; discriminate.
      * inversion Hdd; subst. rewrite beq_bytes_refl. exists [], (str_dotdot :: str_dotdot :: dd').
        repeat split; auto. intros H. discriminate (Hr H).
    + (* a plain segment on top is popped *)
      inversion Hpl as [|? ? Hp Hpl']; subst. rewrite (beq_bytes_neq p str_dotdot) by apply Hp.
      exists pl', dd. auto.
  - exists (s :: pl), dd. repeat split; auto. constructor; [repeat split; assumption|exact Hpl].
Qed.

Theorem clean_segs_normal p : normal (is_rooted p) (clean_segs p).
Proof.
  apply snormal_rev, (fold_left_inv_on (snormal _) noslash); [apply clean_step_snormal|apply split_on_parts|].
  exists [], []. repeat split; auto.
Qed.

Lemma fold_dotdots dd st :
  Forall (fun s => s = str_dotdot) dd -> Forall (fun s => s = str_dotdot) st ->
  fold_left (clean_step false) dd st = rev dd ++ st.
Proof.
  revert st. induction dd as [|d dd IH]; intros st Hd Hst; [reflexivity|].
  inversion Hd as [|? ? Hd1 Hd2]; subst. cbn [fold_left].
  assert (Hstep : clean_step false st str_dotdot = str_dotdot :: st).
  { unfold clean_step. cbn [beq_bytes orb]. rewrite beq_bytes_refl.
    destruct st as [|t st']; [reflexivity|]. inversion Hst; subst. rewrite beq_bytes_refl. reflexivity. }
  rewrite Hstep, IH; [|assumption|constructor; [reflexivity|assumption]].
  cbn [rev]. rewrite <- app_assoc. reflexivity.
Qed.

Lemma fold_plain r pl st : Forall plain pl -> fold_left (clean_step r) pl st = rev pl ++ st.
Proof.
  revert st. induction pl as [|p pl IH]; intros st H; [reflexivity|].
  inversion H; subst. cbn [fold_left]. rewrite clean_step_plain by assumption.
  rewrite IH by assumption. cbn [rev]. rewrite <- app_assoc. reflexivity.
Qed.

Lemma fold_normal r segs :
  normal r segs -> fold_left (clean_step r) segs [] = rev segs.
Proof.
  intros [dd [pl [E [Hdd [Hpl Hr]]]]]. subst segs. rewrite fold_left_app.
  destruct r.
  - rewrite (Hr eq_refl). cbn [fold_left app]. rewrite fold_plain by assumption. apply app_nil_r.
  - rewrite (fold_dotdots dd []) by (assumption || constructor). rewrite app_nil_r.
    rewrite fold_plain by assumption. rewrite rev_app_distr. reflexivity.
Qed.

(* the text of a cleaned path *)
Definition render (rooted : bool) (segs : list bytes) : bytes :=
  if rooted then SEP :: join_with SEP segs
  else match segs with [] => str_dot | _ => join_with SEP segs end.

Lemma normal_noslash r segs : normal r segs -> Forall (fun d => Forall (fun x => x <> SEP) d) segs.
Proof.
  intros [dd [pl [E [Hdd [Hpl _]]]]]. subst. apply Forall_app. split.
  - eapply Forall_impl; [|exact Hdd]. intros a ->. repeat constructor; discriminate.
  - eapply Forall_impl; [|exact Hpl]. intros a [_ [_ [_ H]]]. exact H.
Qed.

Lemma normal_hd_nonempty r s segs : normal r (s :: segs) -> s <> [].
Proof.
  intros [dd [pl [E [Hdd [Hpl _]]]]]. destruct dd as [|d dd']; cbn in E.
  - subst pl. inversion Hpl as [|? ? [H1 _] _]. exact H1.
  - injection E as -> _. inversion Hdd; subst. discriminate.
Qed.

Lemma is_rooted_render r segs : normal r segs -> is_rooted (render r segs) = r.
Proof.
  intros Hn. destruct r; [reflexivity|]. unfold render.
  destruct segs as [|s segs']; [reflexivity|].
  pose proof (normal_noslash _ _ Hn) as Hns. inversion Hns as [|? ? Hs _]; subst.
  pose proof (normal_hd_nonempty _ _ _ Hn) as Hs0.
  destruct s as [|x s']; [congruence|]. inversion Hs as [|? ? Hx _]; subst.
  destruct segs'; exact (match_lit_47 x true false Hx).
Qed.

Theorem clean_segs_render r segs : normal r segs -> clean_segs (render r segs) = segs.
Proof.
  intros Hn. unfold clean_segs. rewrite (is_rooted_render r segs Hn).
  pose proof (normal_noslash _ _ Hn) as Hns.
  destruct segs as [|s segs']; [destruct r; reflexivity|].
  (* the text splits into the segments again; the empty segment before a leading "/" is skipped *)
  assert (E : fold_left (clean_step r) (split_on SEP (render r (s :: segs'))) []
              = fold_left (clean_step r) (s :: segs') []).
  { destruct r; unfold render; [rewrite split_on_cons_sep|]; rewrite split_join by (discriminate || assumption);
      reflexivity. }
  rewrite E, fold_normal by exact Hn. apply rev_involutive.
Qed.

Lemma path_clean_render p : p <> [] -> path_clean p = render (is_rooted p) (clean_segs p).
Proof. intros H. destruct p; [congruence|]. reflexivity. Qed.

Lemma is_rooted_app a b : a <> [] -> is_rooted (a ++ b) = is_rooted a.
Proof. destruct a; [congruence|reflexivity]. Qed.

(* cleaning  a "/" b  continues the cleaning of a with b's segments *)
Lemma clean_segs_app_sep a b :
  a <> [] ->
  clean_segs (a ++ SEP :: b) =
  rev (fold_left (clean_step (is_rooted a)) (split_on SEP b) (rev (clean_segs a))).
Proof.
  intros Ha. unfold clean_segs. rewrite is_rooted_app by exact Ha.
  rewrite split_on_sep_app, fold_left_app, rev_involutive. reflexivity.
Qed.

Lemma normal_snoc r segs s : normal r segs -> plain s -> normal r (segs ++ [s]).
Proof.
  intros [dd [pl [E [Hdd [Hpl Hr]]]]] Hs. exists dd, (pl ++ [s]). subst segs.
  rewrite app_assoc. repeat split; auto. apply Forall_app. split; [exact Hpl|repeat constructor; apply Hs].
Qed.

Lemma clean_segs_path_clean q : q <> [] -> clean_segs (path_clean q) = clean_segs q.
Proof.
  intros Hq. rewrite path_clean_render by exact Hq. apply clean_segs_render. apply clean_segs_normal.
Qed.

Lemma is_rooted_path_clean q : q <> [] -> is_rooted (path_clean q) = is_rooted q.
Proof.
  intros Hq. rewrite path_clean_render by exact Hq. apply is_rooted_render. apply clean_segs_normal.
Qed.

Lemma path_clean_nonempty q : path_clean q <> [].
Proof.
  destruct q as [|x q]; [discriminate|]. unfold path_clean.
  destruct (is_rooted (x :: q)); [discriminate|].
  destruct (clean_segs (x :: q)) as [|s segs] eqn:E; [discriminate|].
  pose proof (clean_segs_normal (x :: q)) as Hn. rewrite E in Hn. apply normal_hd_nonempty in Hn.
  destruct s; [congruence|]. destruct segs; discriminate.
Qed.

(* a directory constant such as "/in/": one plain segment between separators *)
Definition dir_const (D d : bytes) : Prop := split_on SEP D = [[]; d; []] /\ plain d /\ D <> [].

Lemma plain_split s : plain s -> split_on SEP s = [s].
Proof. intros [_ [_ [_ H]]]. apply split_on_nosep. exact H. Qed.

Lemma clean_step_empty r st : clean_step r st [] = st.
Proof. reflexivity. Qed.

Lemma fold_dir r d st : plain d -> fold_left (clean_step r) [[]; d; []] st = d :: st.
Proof.
  intros Hd. cbn [fold_left]. rewrite !clean_step_empty. apply clean_step_plain. exact Hd.
Qed.

(* path.Join(base, e1, ..., en) with no empty element continues the cleaning of base with the
   segments of e1, ..., en *)
Lemma join_segs base es : base <> [] -> Forall (fun e => e <> []) es ->
  let p := path_join (base :: es) in
  p <> [] /\ is_rooted p = is_rooted base /\
  clean_segs p = rev (fold_left (clean_step (is_rooted base)) (flat_map (split_on SEP) es) (rev (clean_segs base))).
Proof.
  intros Hb He p. unfold p, path_join. rewrite filter_all.
  2:{ intros e [<-|Hin]; [|rewrite Forall_forall in He; apply He in Hin];
      rewrite beq_bytes_neq by assumption; reflexivity. }
  split; [apply path_clean_nonempty|]. destruct es as [|e es'].
  - cbn [join_with flat_map fold_left]. rewrite is_rooted_path_clean, clean_segs_path_clean by exact Hb.
    rewrite rev_involutive. split; reflexivity.
  - change (join_with SEP (base :: e :: es')) with (base ++ SEP :: join_with SEP (e :: es')).
    assert (Hq : base ++ SEP :: join_with SEP (e :: es') <> []) by (destruct base; [congruence|discriminate]).
    rewrite is_rooted_path_clean, clean_segs_path_clean by exact Hq.
    split; [apply is_rooted_app; exact Hb|].
    rewrite clean_segs_app_sep by exact Hb. rewrite split_on_join by discriminate. reflexivity.
Qed.

Lemma ext_noslash : noslash MboxExt /\ (3 <= length MboxExt)%nat.
Proof. split; [repeat constructor; discriminate|cbn; lia]. Qed.

Lemma plain_long s : noslash s -> (3 <= length s)%nat -> plain s.
Proof.
  intros Hs Hl. repeat split; try exact Hs; intros ->; cbn in Hl; lia.
Qed.

Lemma file_name_plain mid name : file_name mid = Some name -> plain name /\ plain (tmp_name name).
Proof.
  unfold file_name. destruct (mid_ok mid) eqn:E; [|discriminate]. intros [= <-].
  unfold mid_ok in E. apply negb_true_iff in E. apply orb_false_iff in E. destruct E as [_ E].
  assert (Hm : noslash mid).
  { apply Forall_forall. intros b Hin ->.
    rewrite (proj2 (existsb_exists _ _)) in E by (exists SEP; split; [exact Hin|reflexivity]). discriminate. }
  destruct ext_noslash as [He Hl].
  assert (Hn : noslash (mid ++ MboxExt)) by (apply Forall_app; split; assumption).
  split.
  - apply plain_long; [exact Hn|rewrite app_length; lia].
  - apply plain_long.
    + unfold tmp_name. apply Forall_app. split; [repeat constructor; discriminate|].
      apply Forall_app. split; [exact Hn|repeat constructor; discriminate].
    + unfold tmp_name. rewrite !app_length. cbn. lia.
Qed.

Lemma dir_consts :
  dir_const DIR_INBOX [105; 110] /\ dir_const DIR_OUTBOX [111; 117; 116] /\ dir_const DIR_SENT [115; 101; 110; 116].
Proof. repeat split; try discriminate; repeat constructor; discriminate. Qed.

Definition under_strong (base p : bytes) : Prop :=
  is_rooted p = is_rooted base /\
  exists extra, extra <> [] /\ clean_segs p = clean_segs base ++ extra /\ Forall plain extra.

Lemma under_strong_under base p : under_strong base p -> under base p.
Proof.
  intros [H1 [extra [H2 [H3 H4]]]]. split; [exact H1|]. exists extra. repeat split; auto.
  eapply Forall_impl; [|exact H4]. intros a [_ [_ [Ha _]]]. exact Ha.
Qed.

Lemma under_pushed base p d nm : plain d -> plain nm -> is_rooted p = is_rooted base ->
  clean_segs p = rev (nm :: d :: rev (clean_segs base)) -> under_strong base p.
Proof.
  intros Hd Hnm R S. split; [exact R|]. exists [d; nm]. split; [discriminate|]. split; [|repeat (constructor; [assumption|]); constructor].
  rewrite S. cbn [rev]. rewrite rev_involutive, <- app_assoc. reflexivity.
Qed.

(* path.Join(base, D, name) *)
Lemma under_join3 base D d nm : base <> [] -> dir_const D d -> plain nm ->
  under_strong base (path_join [base; D; nm]).
Proof.
  intros Hb [HD [Hd HD0]] Hnm.
  destruct (join_segs base [D; nm] Hb) as [_ [R S]]; [repeat constructor; [exact HD0|apply Hnm]|].
  apply (under_pushed _ _ d nm Hd Hnm R). rewrite S. cbn [flat_map].
  rewrite HD, plain_split, app_nil_r, fold_left_app, fold_dir by assumption.
  cbn [fold_left]. rewrite clean_step_plain by exact Hnm. reflexivity.
Qed.

(* path.Join(path.Join(base, D), name) *)
Lemma under_join2 base D d nm : base <> [] -> dir_const D d -> plain nm ->
  under_strong base (path_join [path_join [base; D]; nm]).
Proof.
  intros Hb [HD [Hd HD0]] Hnm.
  destruct (join_segs base [D] Hb) as [N1 [R1 S1]]; [repeat constructor; exact HD0|].
  destruct (join_segs (path_join [base; D]) [nm] N1) as [_ [R2 S2]]; [repeat constructor; apply Hnm|].
  apply (under_pushed _ _ d nm Hd Hnm (eq_trans R2 R1)). rewrite S2, S1. cbn [flat_map].
  rewrite HD, plain_split, !app_nil_r, rev_involutive, fold_dir by assumption.
  cbn [fold_left]. rewrite clean_step_plain by exact Hnm. reflexivity.
Qed.

Theorem touched_confined base op mid p :
  base <> [] -> In p (touched base op mid) -> under_strong base p.
Proof.
  intros Hb Hin. unfold touched in Hin.
  destruct (file_name mid) as [name|] eqn:E; [|contradiction].
  destruct (file_name_plain mid name E) as [Hn Ht].
  destruct dir_consts as [Din [Dout Dsent]].
  destruct op; cbn [In] in Hin.
  - destruct Hin as [<-|[<-|[]]]; apply (under_join2 _ _ _ _ Hb Din); assumption.
  - destruct Hin as [<-|[]]. apply (under_join3 _ _ _ _ Hb Din Hn).
  - destruct Hin as [<-|[<-|[]]]; [apply (under_join3 _ _ _ _ Hb Dout Hn)|apply (under_join3 _ _ _ _ Hb Dsent Hn)].
  - contradiction.
  - destruct Hin as [<-|[<-|[]]]; apply (under_join3 _ _ _ _ Hb Dout); assumption.
Qed.

Theorem touched_invalid base op mid : mid_ok mid = false -> touched base op mid = [].
Proof. intros H. unfold touched, file_name. rewrite H. reflexivity. Qed.
