(* Mbox/DirP.v — invariants of the directory mailbox model (Mbox.Dir) over every well-formed
   history: folders never hold two messages with one MID, an outbound
   message is in exactly one of outbox and sent, an inbound proposal is rejected iff that MID
   is in the inbox (always deferred in send-only mode), a deferral lasts one session, an
   outbound query returns exactly the eligible messages without private headers. *)
From Coq Require Import Lia Sorting.Permutation.
From Verif Require Import Base.Bytes Base.BytesP Msg.Message Mbox.Dir gen.Tables.
Open Scope N_scope.

(* ins is the insertion of BytesP, with the arguments in the other order *)
Lemma ins_perm f r : Permutation (r :: f) (ins f r).
Proof.
  replace (ins f r) with (insert_by (fun a b => bytes_leb (fname (m_mid a)) (fname (m_mid b))) r f);
    [apply insert_by_perm|].
  induction f as [|y f IH]; [reflexivity|]. cbn [ins insert_by]. rewrite IH. reflexivity.
Qed.

Lemma mids_ins f r x : In x (mids (ins f r)) <-> x = m_mid r \/ In x (mids f).
Proof.
  pose proof (Permutation_map m_mid (ins_perm f r)) as Hp. cbn [map] in Hp.
  split; intros H.
  - apply (Permutation_in _ (Permutation_sym Hp)) in H. destruct H as [H|H]; [left; symmetry; exact H|right; exact H].
  - apply (Permutation_in _ Hp). destruct H as [H|H]; [left; symmetry; exact H|right; exact H].
Qed.

Lemma nodup_ins f r : NoDup (mids f) -> ~ In (m_mid r) (mids f) -> NoDup (mids (ins f r)).
Proof.
  intros H Hn. apply (Permutation_NoDup (Permutation_map m_mid (ins_perm f r))). constructor; assumption.
Qed.

Lemma mids_del f mid x : NoDup (mids f) -> (In x (mids (del f mid)) <-> In x (mids f) /\ x <> mid).
Proof.
  induction f as [|y f IH]; intros H; cbn [del mids map In]; [tauto|].
  inversion H as [|? ? Hy Hf]; subst. destruct (beq_bytes (m_mid y) mid) eqn:E.
  - apply beq_bytes_true in E. subst mid. fold (mids f). split.
    + intros Hx. split; [right; exact Hx|]. intros ->. contradiction.
    + intros [[X|X] Hne]; [congruence|exact X].
  - apply beq_bytes_false in E. cbn [map In]. fold (mids (del f mid)). fold (mids f). rewrite (IH Hf).
    split; [intros [X|[X1 X2]]; [subst; split; [left; reflexivity|exact E]|split; [right; exact X1|exact X2]]|].
    intros [[X|X] Hne]; [left; exact X|right; split; assumption].
Qed.

Lemma nodup_del f mid : NoDup (mids f) -> NoDup (mids (del f mid)).
Proof.
  induction f as [|y f IH]; intros H; cbn [del]; [constructor|].
  inversion H as [|? ? Hy Hf]; subst. destruct (beq_bytes (m_mid y) mid); [exact Hf|].
  cbn [mids map]. fold (mids (del f mid)). constructor; [|apply IH; exact Hf].
  rewrite (mids_del f mid (m_mid y) Hf). intros [X _]. contradiction.
Qed.

Lemma nodup_put f r : NoDup (mids f) -> NoDup (mids (put f r)).
Proof.
  intros H. unfold put. apply nodup_ins; [apply nodup_del; exact H|].
  rewrite (mids_del f (m_mid r) (m_mid r) H). intros [_ X]. congruence.
Qed.

Lemma mids_put f r x : NoDup (mids f) -> (In x (mids (put f r)) <-> x = m_mid r \/ In x (mids f)).
Proof.
  intros H. unfold put. rewrite mids_ins, (mids_del f (m_mid r) x H).
  split; [intros [X|[X _]]; auto|]. intros [X|X]; [left; exact X|].
  destruct (list_eq_dec N.eq_dec x (m_mid r)) as [E|E]; [left; exact E|right; split; assumption].
Qed.

Lemma find_some f mid r : find f mid = Some r -> In mid (mids f) /\ m_mid r = mid.
Proof.
  induction f as [|y f IH]; intros H; [discriminate|]. cbn [find] in H.
  destruct (beq_bytes (m_mid y) mid) eqn:E.
  - injection H as <-. apply beq_bytes_true in E. split; [left; exact E|exact E].
  - destruct (IH H) as [H1 H2]. split; [right; exact H1|exact H2].
Qed.

Lemma find_none f mid : find f mid = None <-> ~ In mid (mids f).
Proof.
  induction f as [|y f IH]; cbn [find mids map In]; [tauto|].
  destruct (beq_bytes (m_mid y) mid) eqn:E.
  - apply beq_bytes_true in E. split; [discriminate|]. intros X. exfalso. apply X. left. exact E.
  - apply beq_bytes_false in E. fold (mids f). rewrite IH. tauto.
Qed.

Definition Inv (d : mbox) : Prop :=
  NoDup (mids (d_in d)) /\ NoDup (mids (d_out d)) /\ NoDup (mids (d_sent d)) /\
  (forall x, In x (mids (d_out d)) -> ~ In x (mids (d_sent d))).

(* well-formed operation: a message is not queued again under the MID of one already sent *)
Definition wf_op (d : mbox) (o : op) : Prop :=
  match o with
  | DAddOut r => ~ In (m_mid r) (mids (d_sent d))
  | _ => True
  end.

Lemma inv_empty : Inv mbox_empty.
Proof. repeat split; try constructor. intros x []. Qed.

Theorem inv_step d o : Inv d -> wf_op d o -> Inv (fst (step d o)).
Proof.
  intros [Hi [Ho [Hs Hd]]] Hwf. unfold Inv. destruct o; cbn [step fst]; try (repeat split; assumption).
  - (* AddOut *) unfold set_folder; cbn [d_in d_out d_sent]. repeat split; try assumption.
    + apply nodup_put. exact Ho.
    + intros x Hx. rewrite (mids_put _ _ _ Ho) in Hx. destruct Hx as [->|Hx]; [exact Hwf|apply Hd; exact Hx].
  - (* SetSent *) destruct (find (d_out d) mid) as [r|] eqn:E; cbn [fst]; [|repeat split; assumption].
    destruct (find_some _ _ _ E) as [Hin Hm]. cbn [d_in d_out d_sent]. repeat split; try assumption.
    + apply nodup_del. exact Ho.
    + apply nodup_put. exact Hs.
    + intros x Hx. rewrite (mids_del _ _ _ Ho) in Hx. destruct Hx as [Hx Hne].
      rewrite (mids_put _ _ _ Hs). intros [X|X]; [congruence|exact (Hd x Hx X)].
  - (* ProcessInbound *) unfold set_folder; cbn [d_in d_out d_sent]. repeat split; try assumption.
    apply nodup_put. exact Hi.
  - (* SetUnread *) destruct (find (get_folder d f) mid) as [r|] eqn:E; cbn [fst]; [|repeat split; assumption].
    destruct (find_some _ _ _ E) as [Hin Hm].
    destruct f; unfold set_folder, get_folder in *; cbn [d_in d_out d_sent] in *; repeat split; try assumption;
      try (apply nodup_put; assumption).
    + intros x Hx. rewrite (mids_put _ _ _ Ho) in Hx. cbn [with_unread m_mid] in Hx.
      destruct Hx as [->|Hx]; [rewrite Hm; apply Hd; exact Hin|apply Hd; exact Hx].
    + intros x Hx. rewrite (mids_put _ _ _ Hs). cbn [with_unread m_mid].
      intros [X|X]; [subst x; rewrite Hm in Hx; exact (Hd mid Hx Hin)|exact (Hd x Hx X)].
Qed.

Fixpoint wf_history (d : mbox) (ops : list op) : Prop :=
  match ops with
  | [] => True
  | o :: r => wf_op d o /\ wf_history (fst (step d o)) r
  end.

Lemma history_inv (P : mbox -> Prop) :
  (forall d o, Inv d -> wf_op d o -> P d -> P (fst (step d o))) ->
  forall ops d, Inv d -> wf_history d ops -> P d -> Inv (final d ops) /\ P (final d ops).
Proof.
  intros Hstep. induction ops as [|o r IH]; intros d H Hw Hp; [split; assumption|]. destruct Hw as [H1 H2].
  cbn [final]. apply IH; [apply inv_step; assumption|exact H2|apply Hstep; assumption].
Qed.

Theorem inv_history ops : forall d, Inv d -> wf_history d ops -> Inv (final d ops).
Proof. intros d H Hw. exact (proj1 (history_inv (fun _ => True) (fun _ _ _ _ _ => I) ops d H Hw I)). Qed.

Lemma outbound_kept d o x : Inv d ->
  In x (mids (d_out d)) \/ In x (mids (d_sent d)) ->
  In x (mids (d_out (fst (step d o)))) \/ In x (mids (d_sent (fst (step d o)))).
Proof.
  intros [Hi [Ho [Hs Hd]]] Hx. destruct o; cbn [step fst]; try exact Hx.
  - unfold set_folder; cbn [d_out d_sent]. rewrite (mids_put _ _ _ Ho). tauto.
  - destruct (find (d_out d) mid) as [r|] eqn:E; cbn [fst]; [|exact Hx].
    destruct (find_some _ _ _ E) as [Hin Hm]. cbn [d_out d_sent].
    rewrite (mids_del _ _ _ Ho), (mids_put _ _ _ Hs). rewrite Hm.
    destruct Hx as [Hx|Hx]; [|tauto].
    destruct (list_eq_dec N.eq_dec x mid) as [->|Hne]; [right; left; reflexivity|left; split; assumption].
  - destruct (find (get_folder d f) mid) as [r|] eqn:E; cbn [fst]; [|exact Hx].
    destruct (find_some _ _ _ E) as [Hin Hm].
    destruct f; unfold set_folder, get_folder in *; cbn [d_out d_sent] in *; try exact Hx.
    + rewrite (mids_put _ _ _ Ho). tauto.
    + rewrite (mids_put _ _ _ Hs). tauto.
Qed.

Theorem partition ops : forall d x, Inv d -> wf_history d ops ->
  In x (mids (d_out d)) \/ In x (mids (d_sent d)) ->
  let d' := final d ops in
  (In x (mids (d_out d')) /\ ~ In x (mids (d_sent d'))) \/ (~ In x (mids (d_out d')) /\ In x (mids (d_sent d'))).
Proof.
  intros d x H Hw Hx.
  destruct (history_inv _ (fun d o Hd _ => outbound_kept d o x Hd) ops d H Hw Hx) as [[_ [_ [_ Hd]]] [Hx'|Hx']].
  - left. split; [exact Hx'|apply Hd; exact Hx'].
  - right. split; [intros X; exact (Hd x X Hx')|exact Hx'].
Qed.

Theorem answer_spec d mid :
  snd (step d (DGetInboundAnswer mid)) =
  ObAnswer (if d_sendonly d then AnsDefer else if mem_b mid (mids (d_in d)) then AnsReject else AnsAccept).
Proof.
  cbn [step snd]. f_equal. destruct (d_sendonly d); [reflexivity|]. unfold mem_b.
  destruct (find (d_in d) mid) as [r|] eqn:E.
  - rewrite (proj2 (existsb_beq_In _ _) (proj1 (find_some _ _ _ E))). reflexivity.
  - destruct (existsb _ _) eqn:X; [|reflexivity].
    apply existsb_beq_In in X. apply find_none in E. contradiction.
Qed.

(* a deferral lasts one session *)
Theorem deferral_one_session d so :
  d_deferred (fst (step d DPrepare)) = [] /\ d_deferred (fst (step d (DRestart so))) = [].
Proof. split; reflexivity. Qed.

(* the outbound query: exactly the eligible messages of the outbox, in listing order. The flag
   beside each MID (a private header is left on the message) is the literal false of Dir.step:
   that GetOutbound's messages carry none is what each run compares with it. *)
Theorem outbound_spec d fws :
  snd (step d (DGetOutbound fws)) = ObMids (map (fun r => (m_mid r, false)) (filter (eligible d fws) (d_out d))).
Proof. reflexivity. Qed.

Theorem inbound_unread d r : NoDup (mids (d_in d)) ->
  exists r', find (d_in (fst (step d (DProcessInbound r)))) (m_mid r) = Some r' /\ m_unread r' = true /\ m_tag r' = m_tag r.
Proof.
  intros H. cbn [step fst]. unfold set_folder; cbn [d_in]. unfold put. cbn [with_unread m_mid].
  set (f := del (d_in d) (m_mid r)).
  assert (Hn : ~ In (m_mid r) (mids f)).
  { unfold f. rewrite (mids_del _ _ _ H). intros [_ X]. congruence. }
  clearbody f. induction f as [|y f IH].
  - cbn. rewrite beq_bytes_refl. eexists. split; [reflexivity|split; reflexivity].
  - cbn [ins]. destruct (bytes_leb _ _).
    + cbn [find m_mid]. rewrite beq_bytes_refl. eexists. split; [reflexivity|split; reflexivity].
    + cbn [find]. destruct (beq_bytes (m_mid y) (m_mid r)) eqn:E.
      * apply beq_bytes_true in E. exfalso. apply Hn. left. exact E.
      * apply IH. intros X. apply Hn. right. exact X.
Qed.
