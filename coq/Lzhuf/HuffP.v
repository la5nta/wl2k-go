(* Lzhuf/HuffP.v — the adaptive Huffman tree keeps its invariant: assembly of the loop
   proofs (HuffUpdateP, HuffReconstP, HuffBuildP), and what follows for every tree the
   writer or the reader can reach. *)
From Coq Require Import NArith Lia ZifyN ZifyNat.
From Verif Require Import Base.Bytes Base.Arr Lzhuf.Huff Lzhuf.HuffInv Lzhuf.HuffInvP
  Lzhuf.HuffReconstDefs Lzhuf.HuffUpdateP Lzhuf.HuffReconstP Lzhuf.HuffBuildP Lzhuf.HuffWalkP
  Lzhuf.HuffDepthP gen.Tables.
Open Scope N_scope.

Theorem reconst_inv : forall h,
  Inv h -> Inv (reconst h) /\ aget (freq (reconst h)) lz_R < lz_MaxFreq.
Proof.
  intros h I.
  pose proof (collect_spec h I) as C. pose proof (build_spec _ _ C) as B.
  change (reconst h) with
    (reconst_parents natT 0 (reconst_build natT 0 lz_NumChar (reconst_collect natT 0 0 h))).
  apply (parents_spec _ _ B).
  - rewrite (bu_prnt _ _ B), (co_prnt _ _ C). apply (sh_root _ (inv_shape _ I)).
  - rewrite (bu_max _ _ B).
    pose proof (co_total _ _ C). pose proof (fq_max _ _ (inv_freqs _ I)). lia.
Qed.

(* update(c) starts its loop at the leaf of c, after the rebuild if one is due: then the root
   is below MaxFreq *)
Lemma update_start h c : Inv h -> c < lz_NumChar ->
  let h1 := if aget (freq h) lz_R =? lz_MaxFreq then reconst h else h in
  LoopInv h1 (aget (prnt h1) (c + lz_T)).
Proof.
  intros I Hc h1.
  assert (H1 : Inv h1 /\ aget (freq h1) lz_R < lz_MaxFreq).
  { unfold h1. destruct (N.eqb_spec (aget (freq h) lz_R) lz_MaxFreq).
    - apply reconst_inv. assumption.
    - split; [assumption|]. pose proof (fq_max _ _ (inv_freqs _ I)). lia. }
  destruct H1 as [I1 M1]. apply leaf_loopinv; assumption.
Qed.

Theorem update_inv : forall h c, Inv h -> c < lz_NumChar -> Inv (update h c).
Proof.
  intros h c I Hc. apply update_loop_inv; [apply update_start; assumption|].
  pose proof natT_N. tlia.
Qed.

Fixpoint updates (h : huff) (cs : list N) : huff :=
  match cs with [] => h | c :: r => updates (update h c) r end.

Theorem reachable_inv : forall cs, Forall (fun c => c < lz_NumChar) cs -> Inv (updates huff_init cs).
Proof.
  intros cs. generalize huff_init huff_init_inv. induction cs as [|c cs IH]; intros h Hh Hcs.
  - exact Hh.
  - inversion Hcs as [|? ? Hc Hr]; subst. cbn [updates]. apply IH; [|exact Hr].
    apply update_inv; assumption.
Qed.

(* codes are at most 21 bits long; the writer's accumulator has 64 *)
Theorem reachable_codes : forall cs c rest,
  Forall (fun c => c < lz_NumChar) cs -> c < lz_NumChar ->
  let h := updates huff_init cs in
  decode_walk (S natT) h (aget (son h) lz_R) (code_of h c ++ rest) = (c + lz_T, rest)
  /\ (1 <= length (code_of h c) <= 21)%nat.
Proof.
  intros cs c rest Hcs Hc h. pose proof (reachable_inv cs Hcs) as Hi. fold h in Hi.
  split; [apply code_decodes; [apply Hi|exact Hc]|].
  split; [apply (code_length h c (inv_shape h Hi) Hc)|apply code_length_bound; assumption].
Qed.
