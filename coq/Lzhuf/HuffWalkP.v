(* Lzhuf/HuffWalkP.v — the two walks over the adaptive Huffman tree agree.  From the structural
   invariant Shape h (Lzhuf/HuffInv.v): the code of a symbol is the path from the root to its
   leaf, and a path to a leaf is the code of its symbol; the decoder's downward walk follows a
   path, and over ANY bits it ends on a symbol slot within the fuel S natT. *)
From Coq Require Import NArith ZArith List Bool Arith Lia ZifyN ZifyNat.
From Verif Require Import Base.Bytes Base.Arr Lzhuf.Huff Lzhuf.HuffInv Lzhuf.Enc Lzhuf.Dec gen.Tables.
From Verif Require Export Lzhuf.HuffInvP.
Import ListNotations.
Open Scope N_scope.

Lemma T_val : lz_T = 627. Proof. exact HuffInvP.T_val. Qed.

Lemma code_walk_0 h k acc : code_walk 0 h k acc = acc.
Proof. reflexivity. Qed.

Lemma code_walk_S f h k acc :
  code_walk (S f) h k acc =
  if aget (prnt h) k =? lz_R then N.odd k :: acc
  else code_walk f h (aget (prnt h) k) (N.odd k :: acc).
Proof. reflexivity. Qed.

Lemma decode_walk_0 h c bits : decode_walk 0 h c bits = (c, bits).
Proof. reflexivity. Qed.

Lemma decode_walk_S f h c bits :
  decode_walk (S f) h c bits =
  if c <? lz_T then
    match bits with
    | b :: r => decode_walk f h (aget (son h) (c + (if b then 1 else 0))) r
    | [] => decode_walk f h (aget (son h) c) []
    end
  else (c, bits).
Proof. reflexivity. Qed.

Lemma dec_walk_0 h c b : dec_walk 0 h c b = (c, b).
Proof. reflexivity. Qed.

Lemma dec_walk_S f h c b :
  dec_walk (S f) h c b =
  if c <? lz_T then
    dec_walk f h (aget (son h) (c + fst (read_bits b 1))) (snd (read_bits b 1))
  else (c, b).
Proof.
  cbn [dec_walk]. destruct (c <? lz_T); [|reflexivity].
  destruct (read_bits b 1); reflexivity.
Qed.

Lemma enc_walk_0 h k i j : enc_walk 0 h k i j = (i, j).
Proof. reflexivity. Qed.

Lemma enc_walk_S f h k i j :
  enc_walk (S f) h k i j =
  let i2 := if N.odd k then N.lor (N.shiftr i 1) 9223372036854775808 else N.shiftr i 1 in
  if aget (prnt h) k =? lz_R then (i2, j + 1)
  else enc_walk f h (aget (prnt h) k) i2 (j + 1).
Proof. reflexivity. Qed.

Lemma decode_walk_int f h c bits : c < lz_T ->
  decode_walk (S f) h c bits =
  match bits with
  | b :: r => decode_walk f h (aget (son h) (c + (if b then 1 else 0))) r
  | [] => decode_walk f h (aget (son h) c) []
  end.
Proof. intros Hc. rewrite decode_walk_S. destruct (N.ltb_spec c lz_T); [reflexivity|lia]. Qed.

Lemma dec_walk_int f h c b : c < lz_T ->
  dec_walk (S f) h c b =
  dec_walk f h (aget (son h) (c + fst (read_bits b 1))) (snd (read_bits b 1)).
Proof. intros Hc. rewrite dec_walk_S. destruct (N.ltb_spec c lz_T); [reflexivity|lia]. Qed.

Lemma decode_walk_stop f h c bits : lz_T <= c -> decode_walk f h c bits = (c, bits).
Proof.
  intros Hc. destruct f; [reflexivity|]. rewrite decode_walk_S.
  destruct (N.ltb_spec c lz_T); [lia|reflexivity].
Qed.

Lemma dec_walk_stop f h c b : lz_T <= c -> dec_walk f h c b = (c, b).
Proof.
  intros Hc. destruct f; [reflexivity|]. rewrite dec_walk_S.
  destruct (N.ltb_spec c lz_T); [lia|reflexivity].
Qed.

Lemma read_bits_1_le b : fst (read_bits b 1) <= 1.
Proof.
  assert (L : forall x, N.land x (N.ones 1) <= 1).
  { intros x. rewrite N.land_ones. change (2 ^ 1) with 2.
    pose proof (N.mod_upper_bound x 2). lia. }
  unfold read_bits. destruct (bbits b <? 1).
  - destruct (read_byte b) as [[x|] b1]; cbn [fst]; [apply L|lia].
  - cbn [fst]. apply L.
Qed.

Section WithShape.
Variable h : huff.
Hypothesis SH : Shape h.

(* down p w is the node reached from node p along the bits w, allInt p w says every node left
   on the way is internal.  The upward walk from the end of a path gives back its bits
   (code_walk_down: prnt inverts son, the bit of node k is N.odd k since son values are even). *)
Fixpoint down (p : N) (w : list bool) : N :=
  match w with [] => p | b :: w' => down (aget (son h) p + N.b2n b) w' end.
Fixpoint allInt (p : N) (w : list bool) : Prop :=
  match w with [] => True | b :: w' => aget (son h) p < lz_T /\ allInt (aget (son h) p + N.b2n b) w' end.

Lemma child_facts p b : p <= lz_R -> aget (son h) p < lz_T ->
  let k := aget (son h) p + N.b2n b in
  aget (prnt h) k = p /\ N.odd k = b /\ k < p.
Proof.
  intros Hp Hs k. destruct (internal_son h SH p Hp Hs) as [He Hlt].
  destruct (sh_down h SH p Hp Hs) as [D0 D1].
  unfold k. destruct b; cbn [N.b2n].
  - split; [exact D1|]. split; [|lia]. rewrite N.add_1_r, N.odd_succ. exact He.
  - rewrite N.add_0_r. split; [exact D0|]. split; [|lia]. rewrite <- N.negb_even, He. reflexivity.
Qed.

Lemma down_le : forall w p, p <= lz_R -> allInt p w -> down p w + N.of_nat (length w) <= p.
Proof.
  induction w as [|b w IH]; intros p Hp HA; cbn [down length]; [lia|].
  destruct HA as [Hs HA]. destruct (child_facts p b Hp Hs) as [_ [_ Hk]].
  specialize (IH (aget (son h) p + N.b2n b) ltac:(lia) HA). cbn [length]. lia.
Qed.

Lemma code_walk_down : forall w b p g acc, p <= lz_R -> allInt p (b :: w) ->
  code_walk (length (b :: w) + g) h (down p (b :: w)) acc =
  if p =? lz_R then (b :: w) ++ acc else code_walk g h p ((b :: w) ++ acc).
Proof.
  induction w as [|b2 w IH]; intros b p g acc Hp [Hs HA];
    destruct (child_facts p b Hp Hs) as [E1 [E2 Hk]].
  - cbn [length plus down app]. rewrite code_walk_S, E1, E2. reflexivity.
  - change (down p (b :: b2 :: w)) with (down (aget (son h) p + N.b2n b) (b2 :: w)).
    replace (length (b :: b2 :: w) + g)%nat with (length (b2 :: w) + S g)%nat by (cbn [length]; lia).
    rewrite IH by (lia || exact HA).
    destruct (N.eqb_spec (aget (son h) p + N.b2n b) lz_R) as [E|_]; [lia|].
    rewrite code_walk_S, E1, E2. reflexivity.
Qed.

Lemma decode_down : forall w p g rest, allInt p w ->
  decode_walk (length w + g) h (aget (son h) p) (w ++ rest)
  = decode_walk g h (aget (son h) (down p w)) rest.
Proof.
  induction w as [|b w IH]; intros p g rest HA; [reflexivity|]. destruct HA as [Hs HA].
  cbn [length app plus down]. rewrite decode_walk_int by exact Hs. apply IH, HA.
Qed.

Lemma path_snoc b : forall w p, allInt p w -> aget (son h) (down p w) < lz_T ->
  allInt p (w ++ [b]) /\ down p (w ++ [b]) = aget (son h) (down p w) + N.b2n b.
Proof.
  induction w as [|b' w IH]; intros p HA Hs; cbn [app allInt down] in *; [auto|].
  destruct HA as [Hs' HA]. destruct (IH _ HA Hs) as [A D]. auto.
Qed.

(* every node is reached by a path from the root *)
Lemma path_to : forall n k, k <= lz_R -> (N.to_nat (lz_R - k) <= n)%nat ->
  exists w, allInt lz_R w /\ down lz_R w = k.
Proof.
  induction n as [|n IH]; intros k Hk Hn;
    (destruct (N.eq_dec k lz_R) as [->|NR]; [exists []; split; [exact I|reflexivity]|]); [lia|].
  destruct (up_step h SH k ltac:(lia)) as (Hp & Hlt & Hs & E).
  destruct (IH (aget (prnt h) k) Hp ltac:(lia)) as (w & A & D).
  exists (w ++ [N.odd k]). rewrite <- D in Hs, E. destruct (path_snoc (N.odd k) w lz_R A Hs) as [A' D'].
  split; [exact A'|]. rewrite D'. exact E.
Qed.

(* a path from the root to the leaf of c is the code of c *)
Lemma path_code c b w : allInt lz_R (b :: w) ->
  aget (son h) (down lz_R (b :: w)) = c + lz_T -> code_of h c = b :: w.
Proof.
  intros A Hs. pose proof (down_le _ _ (N.le_refl _) A) as L.
  unfold code_of. rewrite <- Hs, (sh_leaf h SH) by lia.
  replace natT with (length (b :: w) + (natT - length (b :: w)))%nat
    by (pose proof natT_val; rewrite R_val in L; lia).
  rewrite code_walk_down, N.eqb_refl by (lia || exact A). apply app_nil_r.
Qed.

Lemma code_of_path c : c < lz_NumChar ->
  exists b w, code_of h c = b :: w /\ allInt lz_R (b :: w) /\
    aget (son h) (down lz_R (b :: w)) = c + lz_T.
Proof.
  intros Hc. destruct (leaf_node h SH c Hc) as (Hk & Hs).
  destruct (path_to (N.to_nat lz_R) (aget (prnt h) (c + lz_T))) as ([|b w] & A & D); [lia|lia| |].
  { cbn [down] in D. lia. }
  rewrite <- D in Hs. exists b, w. split; [apply path_code|]; auto.
Qed.

(* Any walk that steps from the son value c of an internal node to son[c + bit], bit <= 1, and
   stands still on a symbol slot: started below node p with fuel p it ends on a symbol slot.
   The decoder's walk over a bit list and the real one over a bit reader are the instances. *)
Section Down.
  Variable St : Type.
  Variable walk : nat -> N -> St -> N * St.
  Variable bit : St -> N.
  Variable next : St -> St.
  Hypothesis walk_int : forall f c s, c < lz_T ->
    walk (S f) c s = walk f (aget (son h) (c + bit s)) (next s).
  Hypothesis walk_stop : forall f c s, lz_T <= c -> walk f c s = (c, s).
  Hypothesis bit_le : forall s, bit s <= 1.

  Lemma walk_down : forall f p s,
    p <= lz_R -> aget (son h) p < lz_T -> (N.to_nat p <= f)%nat ->
    lz_T <= fst (walk f (aget (son h) p) s) /\ fst (walk f (aget (son h) p) s) < lz_T + lz_NumChar.
  Proof.
    induction f as [|f IH]; intros p s Hp Hs Hf.
    - destruct (internal_son h SH p Hp Hs). lia.
    - rewrite walk_int by exact Hs.
      destruct (down_step h SH p (bit s) Hp Hs (bit_le s)) as (Hk & HkR & [Hi|Hl]).
      + apply IH; [exact HkR|exact Hi|lia].
      + rewrite walk_stop by lia. cbn [fst]. exact Hl.
  Qed.
  Lemma walk_root s :
    lz_T <= fst (walk (S natT) (aget (son h) lz_R) s) /\
    fst (walk (S natT) (aget (son h) lz_R) s) < lz_T + lz_NumChar.
  Proof.
    apply walk_down; [lia|apply (sh_rootint h SH)|]. pose proof natT_val. rewrite R_val. lia.
  Qed.
End Down.

Lemma decode_walk_symbol_fst bits :
  lz_T <= fst (decode_walk (S natT) h (aget (son h) lz_R) bits) /\
  fst (decode_walk (S natT) h (aget (son h) lz_R) bits) < lz_T + lz_NumChar.
Proof.
  apply (walk_root (list bool) (fun f => decode_walk f h)
           (fun bits => match bits with b :: _ => if b then 1 else 0 | [] => 0 end) (@tl bool)).
  - intros f c bs Hc. rewrite decode_walk_int by exact Hc.
    destruct bs; [rewrite N.add_0_r|]; reflexivity.
  - intros f c bs. apply decode_walk_stop.
  - intros [|[|] r]; lia.
Qed.

Lemma dec_walk_symbol_fst b :
  lz_T <= fst (dec_walk (S natT) h (aget (son h) lz_R) b) /\
  fst (dec_walk (S natT) h (aget (son h) lz_R) b) < lz_T + lz_NumChar.
Proof.
  apply (walk_root bitrd (fun f => dec_walk f h) (fun b => fst (read_bits b 1))
           (fun b => snd (read_bits b 1))).
  - intros g c b0. apply dec_walk_int.
  - intros g c b0. apply dec_walk_stop.
  - exact read_bits_1_le.
Qed.

End WithShape.

Lemma enc_walk_code_walk : forall f h k i j acc,
  snd (enc_walk f h k i j) + N.of_nat (length acc) = j + N.of_nat (length (code_walk f h k acc)).
Proof.
  induction f as [|f IH]; intros h k i j acc.
  - rewrite enc_walk_0, code_walk_0. cbn [snd]. lia.
  - rewrite enc_walk_S, code_walk_S. cbv zeta.
    destruct (aget (prnt h) k =? lz_R).
    + cbn [snd length]. lia.
    + specialize (IH h (aget (prnt h) k)
        (if N.odd k then N.lor (N.shiftr i 1) 9223372036854775808 else N.shiftr i 1)
        (j + 1) (N.odd k :: acc)).
      cbn [length] in IH. lia.
Qed.

Theorem code_decodes : forall h c rest,
  Shape h -> c < lz_NumChar ->
  decode_walk (S natT) h (aget (son h) lz_R) (code_of h c ++ rest) = (c + lz_T, rest).
Proof.
  intros h c rest SH Hc. destruct (code_of_path h SH c Hc) as (b & w & -> & A & Hs).
  pose proof (down_le h SH _ _ (N.le_refl _) A) as L.
  replace (S natT) with (length (b :: w) + (S natT - length (b :: w)))%nat
    by (pose proof natT_val; rewrite R_val in L; lia).
  rewrite (decode_down h _ _ _ _ A), Hs. apply decode_walk_stop. lia.
Qed.

Theorem code_length : forall h c, Shape h -> c < lz_NumChar ->
  (1 <= length (code_of h c) <= N.to_nat lz_R)%nat.
Proof.
  intros h c SH Hc. destruct (code_of_path h SH c Hc) as (b & w & -> & A & _).
  pose proof (down_le h SH _ _ (N.le_refl _) A) as L. cbn [length] in *. lia.
Qed.

Theorem code_prefix_free : forall h c1 c2 r1 r2,
  Shape h -> c1 < lz_NumChar -> c2 < lz_NumChar ->
  code_of h c1 ++ r1 = code_of h c2 ++ r2 -> c1 = c2.
Proof.
  intros h c1 c2 r1 r2 SH H1 H2 E.
  pose proof (code_decodes h c1 r1 SH H1) as D1.
  pose proof (code_decodes h c2 r2 SH H2) as D2.
  rewrite E, D2 in D1. injection D1 as D1 _. lia.
Qed.

Theorem decode_walk_symbol : forall h bits,
  Shape h ->
  let '(c, _) := decode_walk (S natT) h (aget (son h) lz_R) bits in
  lz_T <= c /\ c < lz_T + lz_NumChar.
Proof.
  intros h bits SH. pose proof (decode_walk_symbol_fst h SH bits) as H.
  destruct (decode_walk (S natT) h (aget (son h) lz_R) bits) as [c r]. exact H.
Qed.

Theorem dec_walk_symbol : forall h b,
  Shape h ->
  let '(c, _) := dec_walk (S natT) h (aget (son h) lz_R) b in
  lz_T <= c /\ c < lz_T + lz_NumChar.
Proof.
  intros h b SH. pose proof (dec_walk_symbol_fst h SH b) as H.
  destruct (dec_walk (S natT) h (aget (son h) lz_R) b) as [c r]. exact H.
Qed.

(* hence decode_char returns a symbol below NumChar: the index prnt[c+T] used by update is the
   leaf slot of a symbol *)
Corollary decode_char_symbol : forall h b,
  Shape h -> fst (fst (decode_char h b)) < lz_NumChar.
Proof.
  intros h b SH. pose proof (dec_walk_symbol_fst h SH b) as H. unfold decode_char.
  destruct (dec_walk (S natT) h (aget (son h) lz_R) b) as [c r]. cbn [fst] in *. lia.
Qed.

(* the two hypotheses are not used: enc_walk and code_walk test the same condition at every step *)
Theorem enc_walk_count : forall h c,
  Shape h -> c < lz_NumChar ->
  snd (enc_walk natT h (aget (prnt h) (c + lz_T)) 0 0) = N.of_nat (length (code_of h c)).
Proof.
  intros h c _ _. unfold code_of.
  pose proof (enc_walk_code_walk natT h (aget (prnt h) (c + lz_T)) 0 0 []) as H.
  cbn [length] in H. lia.
Qed.

Print Assumptions code_decodes.
Print Assumptions code_length.
Print Assumptions code_prefix_free.
Print Assumptions decode_walk_symbol.
Print Assumptions dec_walk_symbol.
Print Assumptions decode_char_symbol.
Print Assumptions enc_walk_count.
