(* Lzhuf/TokensP.v — token lists (Lzhuf/Tokens.v): the tree and the window after a token list,
   bits and expansion of an appended list; the copy of a match without accumulator (crun), so
   that expand unfolds one token at a time; well-formed tokens expand to at least one byte. *)
From Coq Require Import Lia ZifyN ZifyNat.
From Verif Require Import Base.Bytes Base.Arr Lzhuf.Huff Lzhuf.Enc Lzhuf.Dec Lzhuf.Bits Lzhuf.Tokens gen.Tables.
Open Scope N_scope.

Lemma tok_sym_lt t : tok_ok t -> tok_sym t < lz_NumChar.
Proof.
  destruct t as [b|pos len]; unfold tok_ok, tok_sym, lz_NumChar, lz_Threshold, lz_F; lia.
Qed.

Definition tree_after (h : huff) (toks : list token) : huff :=
  fold_left (fun h t => update h (tok_sym t)) toks h.
Definition win_after (w : window) (toks : list token) : window :=
  fold_left (fun w t => fst (tok_step w t)) toks w.

Definition tok_bits (h : huff) (t : token) : list bool :=
  code_of h (tok_sym t) ++ match t with TMatch pos _ => pos_code pos | TLit _ => [] end.

Lemma toks_bits_cons h t rest :
  toks_bits h (t :: rest) = tok_bits h t ++ toks_bits (update h (tok_sym t)) rest.
Proof. unfold tok_bits. cbn [toks_bits]. rewrite <- app_assoc. reflexivity. Qed.

Lemma expand_cons w t rest :
  expand w (t :: rest) = snd (tok_step w t) ++ expand (fst (tok_step w t)) rest.
Proof. cbn [expand]. destruct (tok_step w t). reflexivity. Qed.

Lemma toks_bits_app : forall a b h,
  toks_bits h (a ++ b) = toks_bits h a ++ toks_bits (tree_after h a) b.
Proof.
  induction a as [|t a IH]; intros b h; [reflexivity|].
  cbn [app toks_bits tree_after fold_left]. rewrite IH, <- !app_assoc. reflexivity.
Qed.

Lemma expand_app : forall a b w,
  expand w (a ++ b) = expand w a ++ expand (win_after w a) b.
Proof.
  induction a as [|t a IH]; intros b w; [reflexivity|].
  cbn [app expand win_after fold_left]. destruct (tok_step w t) as [w' o]. cbn [fst].
  rewrite IH, <- app_assoc. reflexivity.
Qed.

Lemma tree_after_app a b h : tree_after h (a ++ b) = tree_after (tree_after h a) b.
Proof. apply fold_left_app. Qed.

Lemma win_after_app a b w : win_after w (a ++ b) = win_after (win_after w a) b.
Proof. apply fold_left_app. Qed.

Fixpoint crun (k : nat) (text : arr) (r i : N) : arr * N * bytes :=
  match k with
  | O => (text, r, [])
  | S k' =>
      let c := aget text (i mod lz_N) in
      let '(t', r', l) := crun k' (aset text r c) ((r + 1) mod lz_N) (i + 1) in (t', r', c :: l)
  end.

Lemma copy_run_crun k : forall text r i acc,
  copy_run k text r i acc = let '(t', r', l) := crun k text r i in (t', r', rev l ++ acc).
Proof.
  induction k as [|k IH]; intros text r i acc; cbn [copy_run crun]; [reflexivity|].
  rewrite IH. destruct (crun k _ _ _) as [[t' r'] l]. cbn [rev]. rewrite <- app_assoc. reflexivity.
Qed.

Lemma crun_length k : forall text r i t' r' l, crun k text r i = (t', r', l) -> length l = k.
Proof.
  induction k as [|k IH]; intros text r i t' r' l H; cbn [crun] in H.
  - injection H as <- <- <-. reflexivity.
  - destruct (crun k _ _ _) as [[t1 r1] l1] eqn:E. injection H as <- <- <-.
    cbn [length]. f_equal. eapply IH. exact E.
Qed.

Lemma tok_step_match text r pos len :
  tok_step (text, r) (TMatch pos len) =
  let '(t', r', l) := crun (N.to_nat len) text r (maskN (Z.of_N r - Z.of_N pos - 1)) in ((t', r'), l).
Proof.
  unfold tok_step. rewrite copy_run_crun. destruct (crun _ _ _ _) as [[t' r'] l].
  rewrite app_nil_r, rev_involutive. reflexivity.
Qed.

Lemma expand_lit text r b rest :
  expand (text, r) (TLit b :: rest) = b :: expand (aset text r b, (r + 1) mod lz_N) rest.
Proof. reflexivity. Qed.

Lemma expand_match text r pos len rest :
  expand (text, r) (TMatch pos len :: rest) =
  let '(t', r', l) := crun (N.to_nat len) text r (maskN (Z.of_N r - Z.of_N pos - 1)) in
  l ++ expand (t', r') rest.
Proof.
  cbn [expand]. rewrite tok_step_match. destruct (crun _ _ _ _) as [[t' r'] l]. reflexivity.
Qed.

Lemma expand_cons_length w t rest : tok_ok t -> (1 <= length (expand w (t :: rest)))%nat.
Proof.
  destruct w as [text r]. destruct t as [b|pos len]; intros H.
  - rewrite expand_lit. cbn [length]. lia.
  - rewrite expand_match. destruct (crun _ _ _ _) as [[t' r'] l] eqn:E.
    apply crun_length in E. rewrite app_length. unfold tok_ok, lz_Threshold in H. lia.
Qed.

Lemma expand_nil w toks : Forall tok_ok toks -> expand w toks = [] -> toks = [].
Proof.
  intros H E. destruct toks as [|t rest]; [reflexivity|].
  inversion H as [|? ? Ht Hr]; subst.
  pose proof (expand_cons_length w t rest Ht) as L. rewrite E in L. cbn in L. lia.
Qed.
