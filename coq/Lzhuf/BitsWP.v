(* Lzhuf/BitsWP.v — the bit output of the LZHUF writer (Enc.v: put_code, put_groups, enc_walk,
   encode_char, encode_position, encode_end) in the bit-list view of Bits.v.

   Bit lists are written bw n x (BitListP.v); an equality of bit lists is reduced to pointwise
   equalities of N.testbit (bw_ext, bw_join), and each of those is settled by rewriting with the
   bit specifications of lor, shiftl, shiftr and mod 2^n, the side conditions going to lia. *)
From Coq Require Import NArith List Lia Bool ZifyN ZifyNat ZifyBool.
From Verif Require Import Base.Bytes Base.Arr Lzhuf.Huff Lzhuf.HuffInv Lzhuf.HuffWalkP Lzhuf.Enc Lzhuf.Crc Lzhuf.CrcP
  Lzhuf.Dec Lzhuf.LzP Lzhuf.Bits gen.Tables.
From Verif Require Export Lzhuf.BitListP.
Import ListNotations.
Open Scope N_scope.

Lemma obits_eq o : putlen o <= 16 ->
  obits o = bytes_bits (rev (obuf o)) ++ bw (putlen o) (N.shiftr (putbuf o) (16 - putlen o)).
Proof. intros H. unfold obits. f_equal. exact (firstn_bw 16 _ _ H). Qed.

Theorem put_code_bits : forall o l c, ObOK o -> code16 l c ->
  ObOK (put_code o l c) /\
  obits (put_code o l c) = obits o ++ firstn (N.to_nat l) (bits_msb 16 c).
Proof.
  intros [ob pb p] l c [Hp Hb] (Hl & Hc & Hcm). cbn [putlen putbuf obuf] in *.
  pose proof (proj1 (mod0_bits _ _) Hb) as Zb. pose proof (proj1 (mod0_bits _ _) Hcm) as Zc.
  pose proof (lt_pow2_bits c 16 Hc) as Zc'. clear Hb Hcm Hc.
  rewrite (obits_eq {| obuf := ob; putbuf := pb; putlen := p |}) by (cbn [putlen]; lia).
  change (bits_msb 16 c) with (bw 16 c). rewrite firstn_bw by exact Hl. cbn [putlen putbuf obuf].
  unfold put_code. cbn [putlen putbuf obuf].
  remember (N.lor pb (N.shiftr c p)) as pb' eqn:Epb.
  assert (B : forall k, N.testbit pb' k = N.testbit pb k || N.testbit c (k + p)).
  { intros k. rewrite Epb, N.lor_spec, N.shiftr_spec'. reflexivity. }
  clear Epb.
  (* while no bit of c is shifted out of pb', it holds the pending bits, then those of c *)
  assert (F : forall n s, n + s = 16 -> p <= s ->
            bw p (N.shiftr pb (16 - p)) ++ bw n (N.shiftr c s) = bw (p + n) (N.shiftr pb' (s - p))).
  { intros n s Hn Hs. apply bw_join; intros k Hk; rewrite !N.shiftr_spec', B.
    - rewrite Zb by lia. cbn [orb]. f_equal. lia.
    - rewrite (Zc' (k + n + (s - p) + p)) by lia. rewrite orb_false_r. f_equal. lia. }
  rewrite (N.mod_small (p + l) 256) by lia.
  destruct (N.ltb_spec (p + l) 8) as [H1|H1]; [|destruct (N.leb_spec 8 (p + l - 8)) as [H2|H2]].
  - split; [split; [exact H1|]|]; cbn [putlen putbuf obuf].
    + apply mod0_bits. intros k Hk. rewrite B, Zb, Zc by lia. reflexivity.
    + rewrite obits_eq by (cbn [putlen]; lia). cbn [putlen putbuf obuf]. rewrite <- app_assoc. f_equal.
      rewrite (F l (16 - l)) by lia. do 2 f_equal. lia.
  - (* two bytes leave; what c has left starts a fresh buffer *)
    remember (p + l - 8 - 8) as n eqn:En.
    split; [split|]; cbn [putlen putbuf obuf]; [lia| |].
    + apply mod0_bits. intros k Hk. rewrite w64_testbit, tb_shiftl by lia.
      destruct (N.ltb_spec k (l - n)); [reflexivity|]. apply Zc. lia.
    + rewrite obits_eq by (cbn [putlen]; lia). cbn [putlen putbuf obuf rev].
      rewrite !bytes_bits_snoc, <- !app_assoc. f_equal.
      replace l with (16 - p + n) at 2 by lia. rewrite (bw_split (16 - p) n), !app_assoc. f_equal.
      * replace (N.shiftr (N.shiftr c (16 - l)) n) with (N.shiftr c p)
          by (rewrite N.shiftr_shiftr; f_equal; lia).
        rewrite (F (16 - p) p), N.sub_diag, N.shiftr_0_r by lia.
        replace (p + (16 - p)) with (8 + 8) by lia. change 256 with (2 ^ 8).
        apply bw_join; intros k Hk; symmetry.
        -- apply N.mod_pow2_bits_low, Hk.
        -- apply tb_window, Hk.
      * apply bw_ext. intros k Hk. rewrite !N.shiftr_spec', w64_testbit, N.shiftl_spec_high' by lia.
        f_equal. lia.
  - (* one byte leaves *)
    remember (p + l - 8) as n eqn:En.
    split; [split|]; cbn [putlen putbuf obuf]; [lia| |].
    + apply mod0_bits. intros k Hk. rewrite w64_testbit, tb_shiftl by lia.
      destruct (N.ltb_spec k 8); [reflexivity|]. rewrite B, Zb, Zc by lia. reflexivity.
    + rewrite obits_eq by (cbn [putlen]; lia). cbn [putlen putbuf obuf rev].
      rewrite bytes_bits_snoc, <- !app_assoc. f_equal.
      rewrite (F l (16 - l)) by lia. replace (p + l) with (8 + n) by lia.
      apply bw_join; intros k Hk.
      * rewrite !N.shiftr_spec', w64_testbit, N.shiftl_spec_high' by lia. f_equal. lia.
      * rewrite N.shiftr_spec'. change 256 with (2 ^ 8). rewrite tb_window by exact Hk. f_equal. lia.
Qed.

(* every round takes 16 bits: this is why the fuel 5 of encode_char suffices for j <= 64 *)
Lemma put_groups_gen : forall fuel o i j, ObOK o -> 1 <= j -> j <= 16 * N.of_nat fuel -> j <= 64 ->
  i < 2 ^ 64 -> i mod 2 ^ (64 - j) = 0 ->
  ObOK (put_groups fuel o i j) /\
  obits (put_groups fuel o i j) = obits o ++ firstn (N.to_nat j) (bits_msb 64 i).
Proof.
  induction fuel as [|f IH]; intros o i j Ho H1 Hf H64 Hi Hm; [lia|].
  pose proof (proj1 (mod0_bits _ _) Hm) as Zm.
  assert (Hc : N.shiftr i 48 < 65536) by exact (shiftr_lt i 48 16 Hi). clear Hi Hm.
  change (bits_msb 64 i) with (bw 64 i). rewrite firstn_bw by exact H64.
  cbn [put_groups]. destruct (N.ltb_spec 16 j) as [Hj|Hj].
  - destruct (put_code_bits o 16 (N.shiftr i 48) Ho) as [Ho1 E1].
    { split; [reflexivity|split; [exact Hc|apply N.mod_1_r]]. }
    destruct (IH (put_code o 16 (N.shiftr i 48)) (w64 (N.shiftl i 16)) (j - 16) Ho1) as [Ho2 E2].
    { lia. } { lia. } { lia. }
    { apply N.mod_upper_bound. discriminate. }
    { apply mod0_bits. intros k Hk. rewrite w64_testbit, tb_shiftl by lia.
      destruct (N.ltb_spec k 16); [reflexivity|]. apply Zm. lia. }
    split; [exact Ho2|]. rewrite E2, E1, <- app_assoc. f_equal.
    change (bits_msb 16) with (bw 16). change (bits_msb 64) with (bw 64).
    rewrite (firstn_bw 16 16), (firstn_bw 64) by lia.
    remember (j - 16) as n eqn:En. replace j with (16 + n) by lia.
    apply bw_join; intros k Hk.
    + rewrite !N.shiftr_spec', w64_testbit, N.shiftl_spec_high' by lia. f_equal. lia.
    + rewrite !N.shiftr_spec'. f_equal. lia.
  - destruct (put_code_bits o j (N.shiftr i 48) Ho) as [Ho1 E1].
    { split; [exact Hj|split; [exact Hc|]].
      apply mod0_bits. intros k Hk. rewrite N.shiftr_spec'. apply Zm. lia. }
    split; [exact Ho1|]. rewrite E1. f_equal.
    change (bits_msb 16) with (bw 16). rewrite firstn_bw by exact Hj.
    apply bw_ext. intros k Hk. rewrite !N.shiftr_spec'. f_equal. lia.
Qed.

Theorem put_groups_bits : forall o i j, ObOK o -> 1 <= j -> j <= 64 -> i < 2 ^ 64 ->
  i mod 2 ^ (64 - j) = 0 ->
  ObOK (put_groups 5 o i j) /\
  obits (put_groups 5 o i j) = obits o ++ firstn (N.to_nat j) (bits_msb 64 i).
Proof. intros o i j Ho H1 H64 Hi Hm. apply put_groups_gen; try assumption. lia. Qed.

Theorem encode_position_bits : forall o pos, ObOK o -> pos < 4096 ->
  ObOK (encode_position o pos) /\ obits (encode_position o pos) = obits o ++ pos_code pos.
Proof.
  intros o pos Ho Hpos. unfold encode_position, pos_code. cbv zeta.
  destruct (ptab _ (shiftr_lt pos 6 6 Hpos)) as (Hpl & Hpc & Hpm).
  set (pl := nth (N.to_nat (N.shiftr pos 6)) lz_pLen 0) in *.
  set (pc := nth (N.to_nat (N.shiftr pos 6)) lz_pCode 0) in *. clearbody pl pc.
  pose proof (proj1 (mod0_bits _ _) Hpm) as Zm. clear Hpm.
  destruct (put_code_bits o pl (N.shiftl pc 8) Ho) as [Ho1 E1].
  { split; [lia|split].
    - apply (N.mul_lt_mono_pos_r (2 ^ 8)) in Hpc; [|reflexivity]. rewrite N.shiftl_mul_pow2. exact Hpc.
    - apply mod0_bits. intros k Hk. rewrite tb_shiftl.
      destruct (N.ltb_spec k 8); [reflexivity|]. apply Zm. lia. }
  destruct (put_code_bits _ 6 (N.shiftl (N.land pos 63) 10) Ho1) as [Ho2 E2].
  { split; [discriminate|split].
    - change 65536 with (2 ^ 6 * 2 ^ 10). rewrite N.shiftl_mul_pow2.
      apply N.mul_lt_mono_pos_r; [reflexivity|]. change 63 with (N.ones 6). rewrite N.land_ones.
      apply N.mod_upper_bound. discriminate.
    - apply mod0_bits. intros k Hk. apply N.shiftl_spec_low, Hk. }
  split; [exact Ho2|]. rewrite E2, E1, <- app_assoc. do 2 f_equal.
  - change (bits_msb 16) with (bw 16). change (bits_msb 8) with (bw 8). rewrite !firstn_bw by lia.
    apply bw_ext. intros k Hk. rewrite !N.shiftr_spec', N.shiftl_spec_high' by lia. f_equal. lia.
  - change (bits_msb 16) with (bw 16). change (bits_msb 6 pos) with (bw 6 pos).
    rewrite firstn_bw by discriminate. apply bw_ext. intros k Hk.
    rewrite N.shiftr_spec', N.shiftl_spec_high' by lia. change 63 with (N.ones 6).
    rewrite N.land_ones, N.mod_pow2_bits_low by lia. f_equal. lia.
Qed.

Lemma code_walk_len h : forall fuel k acc, (length acc <= length (code_walk fuel h k acc))%nat.
Proof.
  induction fuel as [|f IH]; intros k acc; cbn [code_walk]; [lia|].
  destruct (aget (prnt h) k =? lz_R); [cbn [length]; lia|].
  etransitivity; [|apply IH]. cbn [length]. lia.
Qed.

(* one step of the walk: the code so far moves down by one bit and b enters at the top *)
Lemma walk_step i j (b : bool) acc :
  j = N.of_nat (length acc) -> j < 64 -> i < 2 ^ 64 -> i mod 2 ^ (64 - j) = 0 ->
  firstn (N.to_nat j) (bits_msb 64 i) = acc ->
  let i2 := if b then N.lor (N.shiftr i 1) 9223372036854775808 else N.shiftr i 1 in
  j + 1 = N.of_nat (length (b :: acc)) /\ i2 < 2 ^ 64 /\ i2 mod 2 ^ (64 - (j + 1)) = 0 /\
  firstn (N.to_nat (j + 1)) (bits_msb 64 i2) = b :: acc.
Proof.
  intros Hj Hj64 Hi Hm Hacc i2.
  pose proof (lt_pow2_bits _ _ Hi) as Zi. pose proof (proj1 (mod0_bits _ _) Hm) as Zm.
  assert (B : forall k, N.testbit i2 k = N.testbit i (k + 1) || (b && (63 =? k))).
  { intros k. subst i2. destruct b.
    - rewrite N.lor_spec, N.shiftr_spec'. f_equal. exact (N.pow2_bits_eqb 63 k).
    - rewrite N.shiftr_spec', orb_false_r. reflexivity. }
  clearbody i2. clear Hi Hm. change (bits_msb 64) with (bw 64) in *. rewrite firstn_bw in * by lia.
  split; [cbn [length]; lia|]. split; [|split].
  - apply bits_lt_pow2. intros k Hk. rewrite B, Zi by lia.
    rewrite (proj2 (N.eqb_neq 63 k)) by lia. apply andb_false_r.
  - apply mod0_bits. intros k Hk. rewrite B, Zm by lia.
    rewrite (proj2 (N.eqb_neq 63 k)) by lia. apply andb_false_r.
  - rewrite <- Hacc. clear Hacc. rewrite (N.add_comm j 1), bw_split. change (bw 1 ?y) with [N.testbit y 0].
    cbn [app]. f_equal.
    + rewrite !N.shiftr_spec', B. replace (0 + j + (64 - (1 + j))) with 63 by lia.
      rewrite Zi by lia. destruct b; reflexivity.
    + apply bw_ext. intros k Hk. rewrite !N.shiftr_spec', B.
      rewrite (proj2 (N.eqb_neq 63 _)), andb_false_r, orb_false_r by lia. f_equal. lia.
Qed.

Lemma enc_walk_gen h : forall fuel k i j acc,
  j = N.of_nat (length acc) -> i < 2 ^ 64 -> i mod 2 ^ (64 - j) = 0 ->
  firstn (N.to_nat j) (bits_msb 64 i) = acc ->
  (length (code_walk fuel h k acc) <= 64)%nat ->
  let '(i', j') := enc_walk fuel h k i j in
  j' = N.of_nat (length (code_walk fuel h k acc)) /\ i' < 2 ^ 64 /\ i' mod 2 ^ (64 - j') = 0 /\
  firstn (N.to_nat j') (bits_msb 64 i') = code_walk fuel h k acc.
Proof.
  induction fuel as [|f IH]; intros k i j acc Hj Hi Hm Hacc Hlen; cbn [enc_walk code_walk] in *.
  - auto.
  - assert (Hj64 : j < 64).
    { destruct (aget (prnt h) k =? lz_R).
      - cbn [length] in Hlen. lia.
      - pose proof (code_walk_len h f (aget (prnt h) k) (N.odd k :: acc)) as L.
        cbn [length] in L. lia. }
    destruct (walk_step i j (N.odd k) acc Hj Hj64 Hi Hm Hacc) as (S1 & S2 & S3 & S4).
    destruct (aget (prnt h) k =? lz_R).
    + auto.
    + apply IH; assumption.
Qed.

Theorem enc_walk_bits : forall h c,
  (length (code_of h c) <= 64)%nat ->
  let '(i, j) := enc_walk natT h (aget (prnt h) (c + lz_T)) 0 0 in
  j = N.of_nat (length (code_of h c)) /\ i < 2 ^ 64 /\ i mod 2 ^ (64 - j) = 0 /\
  firstn (N.to_nat j) (bits_msb 64 i) = code_of h c.
Proof.
  intros h c Hlen. unfold code_of in *.
  apply (enc_walk_gen h natT (aget (prnt h) (c + lz_T)) 0 0 []).
  - reflexivity.
  - reflexivity.
  - apply N.mod_0_l. discriminate.
  - reflexivity.
  - exact Hlen.
Qed.

Theorem encode_char_bits : forall h o c, Shape h -> ObOK o -> c < lz_NumChar ->
  (length (code_of h c) <= 64)%nat ->
  fst (encode_char h o c) = update h c /\
  ObOK (snd (encode_char h o c)) /\
  obits (snd (encode_char h o c)) = obits o ++ code_of h c.
Proof.
  intros h o c Hs Ho Hc Hlen. unfold encode_char.
  pose proof (enc_walk_bits h c Hlen) as W. pose proof (proj1 (code_length h c Hs Hc)) as L1.
  destruct (enc_walk natT h (aget (prnt h) (c + lz_T)) 0 0) as [i j].
  destruct W as (Wj & Wi & Wm & Wb). cbn [fst snd]. split; [reflexivity|].
  rewrite <- Wb. apply put_groups_bits; try assumption; lia.
Qed.

Theorem encode_end_bits : forall o, ObOK o ->
  bytes_bits (rev (obuf (encode_end o))) =
  obits o ++ repeat false (N.to_nat ((8 - putlen o) mod 8)).
Proof.
  intros o [Hp Hb]. pose proof (proj1 (mod0_bits _ _) Hb) as Zb.
  rewrite obits_eq by lia. unfold encode_end.
  destruct (N.eqb_spec (putlen o) 0) as [E|E]; cbn [obuf rev].
  - rewrite E. cbn. rewrite !app_nil_r. reflexivity.
  - rewrite (N.mod_small (8 - putlen o) 8) by lia. rewrite bytes_bits_snoc, <- app_assoc, <- bw_zero.
    f_equal. replace 8 with (putlen o + (8 - putlen o)) at 1 by lia. symmetry. change 256 with (2 ^ 8).
    apply bw_join; intros k Hk.
    + rewrite tb_window, Zb, N.bits_0 by lia. reflexivity.
    + rewrite tb_window, N.shiftr_spec' by lia. f_equal. lia.
Qed.

Lemma ObOK_init : ObOK {| obuf := []; putbuf := 0; putlen := 0 |}.
Proof. split; reflexivity. Qed.

Print Assumptions put_code_bits.
Print Assumptions put_groups_bits.
Print Assumptions encode_position_bits.
Print Assumptions enc_walk_bits.
Print Assumptions encode_char_bits.
Print Assumptions encode_end_bits.
Print Assumptions ObOK_init.
