(* Lzhuf/HuffDepthP.v — no Huffman code is longer than 21 bits (the encoder accumulates a code in
   a 64-bit word, so it is only correct when no code is longer than 64 bits).  In a tree
   satisfying Inv (Lzhuf/HuffInv.v) a node from which a path (HuffWalkP.down) of d bits leads
   down weighs at least fib (d + 2) (down_fib: sum rule, and the order of the frequencies
   applied to the two children, which are adjacent).  A code of d bits is such a path from the
   root, so fib (d + 2) <= MaxFreq = 32768 < fib 24 = 46368 and d <= 21.  The sentinel and the
   total of Inv are not used. *)
From Coq Require Import NArith ZArith List Bool Arith Lia ZifyN ZifyNat.
From Verif Require Import Base.Bytes Base.Arr Lzhuf.Huff Lzhuf.HuffInv Lzhuf.HuffWalkP gen.Tables.
Import ListNotations.
Open Scope N_scope.

(* fibp n = (fib n, fib (n+1)) *)
Fixpoint fibp (n : nat) : N * N :=
  match n with
  | O => (0, 1)
  | S m => let p := fibp m in (snd p, fst p + snd p)
  end.

Definition fib (n : nat) : N := fst (fibp n).

Lemma fibp_snd n : snd (fibp n) = fib (S n).
Proof. reflexivity. Qed.

Lemma fib_SS n : fib (S (S n)) = fib n + fib (S n).
Proof. reflexivity. Qed.

Lemma fib_1 : fib 1 = 1. Proof. reflexivity. Qed.
Lemma fib_2 : fib 2 = 1. Proof. reflexivity. Qed.
Lemma fib_24 : fib 24 = 46368. Proof. vm_compute. reflexivity. Qed.
Lemma fib_25 : fib 25 = 75025. Proof. vm_compute. reflexivity. Qed.

(* from here on fib is only used through the equations above *)
Global Opaque fib.

Lemma fib_large_aux m : 46368 <= fib (24 + m) /\ 46368 <= fib (25 + m).
Proof.
  induction m as [|m [IH1 IH2]].
  - change (24 + 0)%nat with 24%nat. change (25 + 0)%nat with 25%nat.
    rewrite fib_24, fib_25. lia.
  - split.
    + replace (24 + S m)%nat with (25 + m)%nat by lia. exact IH2.
    + replace (25 + S m)%nat with (S (S (24 + m))) by lia.
      rewrite fib_SS. change (S (24 + m)) with (25 + m)%nat. lia.
Qed.

Lemma fib_large n : (24 <= n)%nat -> 46368 <= fib n.
Proof.
  intros Hn. destruct (fib_large_aux (n - 24)) as [A _].
  replace (24 + (n - 24))%nat with n in A by lia. exact A.
Qed.

Lemma fib_small n : fib n <= 32768 -> (n <= 23)%nat.
Proof.
  intros H. destruct (Nat.le_gt_cases n 23) as [L|G]; [exact L|].
  pose proof (fib_large n G). lia.
Qed.

Section WithInv.
Variable h : huff.
Hypothesis IV : Inv h.

Let SH : Shape h := inv_shape h IV.
Let FQ : Freqs h lz_MaxFreq := inv_freqs h IV.

(* a node from which a path of d bits leads down weighs at least fib (d + 2), and every node
   from its left neighbour on at least fib (d + 1): its child c on the path weighs
   fib (d + 1) and is below it; the other child is c - 1 or c + 1 *)
Lemma down_fib : forall w p, p <= lz_R -> allInt h p w ->
  fib (length w + 2) <= aget (freq h) p /\
  forall x, x <= lz_R -> p <= x + 1 -> fib (length w + 1) <= aget (freq h) x.
Proof.
  induction w as [|b w IH]; intros p Hp HA.
  - cbn [length plus]. rewrite fib_2, fib_1. split; [|intros x Hx _]; apply (fq_pos h _ FQ); assumption.
  - destruct HA as [Hs HA]. destruct (internal_son h SH p Hp Hs) as (_ & Hson).
    pose proof (inv_sum h IV p Hp Hs) as Sum. set (s := aget (son h) p) in *.
    assert (Hc : s + N.b2n b <= lz_R /\ s + N.b2n b < p) by (destruct b; cbn [N.b2n]; lia).
    destruct (IH _ (proj1 Hc) HA) as [F1 F0].
    replace (length (b :: w) + 1)%nat with (length w + 2)%nat by (cbn [length]; lia).
    split.
    + replace (length (b :: w) + 2)%nat with (S (S (length w + 1))) by (cbn [length]; lia).
      rewrite fib_SS. replace (S (length w + 1)) with (length w + 2)%nat by lia.
      pose proof (F0 (s + N.b2n (negb b))).
      destruct b; cbn [N.b2n negb] in *; rewrite ?N.add_0_r in *; lia.
    + intros x Hx Hpx. etransitivity; [exact F1|]. apply (fq_mono h _ FQ); lia.
Qed.

Lemma code_of_fib c : c < lz_NumChar -> (length (code_of h c) <= 21)%nat.
Proof.
  intros Hc. destruct (code_of_path h SH c Hc) as (b & w & -> & A & _).
  destruct (down_fib _ _ (N.le_refl _) A) as [F _].
  pose proof (fq_max h _ FQ) as M. rewrite MaxFreq_val in M.
  assert (Y : fib (length (b :: w) + 2) <= 32768) by lia. apply fib_small in Y. lia.
Qed.

End WithInv.

Theorem code_length_bound : forall h c,
  Inv h -> c < lz_NumChar -> (length (code_of h c) <= 21)%nat.
Proof.
  intros h c IV Hc. exact (code_of_fib h IV c Hc).
Qed.

Corollary code_length_64 : forall h c,
  Inv h -> c < lz_NumChar -> (length (code_of h c) <= 64)%nat.
Proof.
  intros h c IV Hc. pose proof (code_length_bound h c IV Hc). lia.
Qed.

Print Assumptions code_length_bound.
Print Assumptions code_length_64.
