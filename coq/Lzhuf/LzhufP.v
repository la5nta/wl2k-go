(* Lzhuf/LzhufP.v — the theorems of the LZHUF layers under the names the properties use. *)
From Verif Require Import Base.Bytes Base.Arr Lzhuf.Huff Lzhuf.HuffInv Lzhuf.HuffInvP Lzhuf.HuffP
  Lzhuf.HuffDepthP Lzhuf.Enc Lzhuf.Crc Lzhuf.Dec Lzhuf.Bits Lzhuf.BitsRP Lzhuf.BitsWP Lzhuf.Tokens
  Lzhuf.Search Lzhuf.SearchP Lzhuf.TokDecP Lzhuf.DecTermP gen.Tables
  Lzhuf.WriterP Lzhuf.RoundTripP Lzhuf.LzP Lzhuf.CanonDecP Lzhuf.Canon Lzhuf.ReadSeq Lzhuf.ReadSeqP.
Open Scope N_scope.

(* C07_library_decodes_format *)
Theorem reader_decodes_tokens :
  forall (crc : bool) (toks : list token) (body : bytes) (pad : list bool) (bs : nat),
    Forall tok_ok toks -> Forall (fun x => x < 256) body ->
    bytes_bits body = toks_bits huff_init toks ++ pad -> (length pad < 8)%nat ->
    (Z.of_nat (length (expand win_init toks)) < 2147483648)%Z -> (0 < bs)%nat ->
    let x := expand win_init toks in
    let size := le32 (N.of_nat (length x)) in
    let stream := (if crc then le16 (crc_impl (size ++ body)) else []) ++ size ++ body in
    read_all crc stream bs (S (S (length x))) = Some (x, REof, ErrNone).
Proof. exact read_all_tokens. Qed.

(* C08_terminates *)
Theorem reader_terminates : forall (crc : bool) (s : list bytes) (d : reader) (bs : nat),
  new_reader crc s = Some d -> (0 < bs)%nat ->
  exists fuel, (fuel <= 60 * (8 * length (concat s) + 8) + 2)%nat /\
    match read_all_loop fuel d bs [] with (_, st, _) => st <> RNil end.
Proof. exact read_all_terminates. Qed.

(* C08_tree_invariant *)
Theorem reader_keeps_inv : forall d n out st d',
  Inv (rh d) -> read d n = (out, st, d') -> Inv (rh d').
Proof. exact read_keeps_inv. Qed.

(* C06_format *)
Theorem compress_format : forall (crc : bool) x,
  Forall (fun b => b < 256) x -> (Z.of_nat (length x) < 2147483648)%Z ->
  exists toks body pad,
    Forall tok_ok toks /\ expand win_init toks = x /\
    Forall (fun b => b < 256) body /\
    bytes_bits body = toks_bits huff_init toks ++ pad /\ (length pad < 8)%nat /\
    compress crc x =
      (if crc then le16 (crc_impl (le32 (N.of_nat (length x)) ++ body)) else [])
      ++ le32 (N.of_nat (length x)) ++ body.
Proof. exact compress_tokens. Qed.

(* C06_roundtrip *)
Theorem roundtrip : forall (crc : bool) (x : bytes) (bs : nat),
  Forall (fun b => b < 256) x -> (Z.of_nat (length x) < 2147483648)%Z -> (0 < bs)%nat ->
  read_all crc (compress crc x) bs (S (S (length x))) = Some (x, REof, ErrNone).
Proof. exact lzhuf_roundtrip. Qed.

(* C07_lib_to_reference *)
Theorem reference_decodes_compress : forall (crc : bool) (x : bytes),
  Forall (fun b => b < 256) x -> (Z.of_nat (length x) < 2147483648)%Z ->
  Canon.decode crc (compress crc x) = Some x.
Proof.
  intros crc x Hx Hlen.
  destruct (compress_format crc x Hx Hlen) as (toks & body & pad & Htok & Hexp & Hb & Hbits & _ & Hc).
  rewrite Hc. pose proof (canon_decode_tokens crc toks body pad Htok Hb Hbits) as H.
  rewrite Hexp in H. apply H. exact Hlen.
Qed.

(* C06_lossless *)
Theorem lossless : forall (crc : bool) (chunks : list bytes) (sizes : list nat),
  let x := concat chunks in
  Forall (fun b => b < 256) x -> (Z.of_nat (length x) < 2147483648)%Z ->
  Forall (fun n => (0 < n)%nat) sizes -> (length x < length sizes)%nat ->
  exists d d',
    new_reader crc [close_writer crc (fold_left write chunks writer_init)] = Some d /\
    read_seq d sizes [] = (x, REof, d') /\ close_reader d' = ErrNone.
Proof.
  intros crc chunks sizes x Hx Hlen Hs Hn.
  rewrite compress_chunking. fold x.
  destruct (compress_format crc x Hx Hlen) as (toks & body & pad & Htok & Hexp & Hb & Hbits & Hpad & Hc).
  rewrite Hc.
  pose proof (read_seq_tokens crc toks body pad sizes Htok Hb Hbits Hpad) as H.
  rewrite Hexp in H. apply H; assumption.
Qed.

(* C08_verdict *)
Theorem verdict_sound : forall (crc : bool) (s : bytes) (d d' : reader) (sizes : list nat) (out : bytes),
  Forall (fun x => x < 256) s ->
  new_reader crc [s] = Some d ->
  read_seq d sizes [] = (out, REof, d') -> close_reader d' = ErrNone ->
  exists toks pad,
    Forall tok_wf toks /\ out = expand win_init toks /\
    bytes_bits (body_part crc s) = toks_bits huff_init toks ++ pad /\
    Z.of_nat (length out) = hsize d.
Proof. exact read_seq_sound. Qed.
