(* Lzhuf/CanonDecP.v — the reference decoder (Lzhuf/Canon.v, the independent transcription of
   LZHUF.C) decodes every well-formed token stream to its expansion (canon_decode_tokens).  The
   reference's adaptive Huffman tree is the library's (canon_start, canon_bump): Leibniz
   equality of the three arrays, since the two sides perform the same array writes, the update
   loop iteration by iteration along HuffUpdateP.upd_step; the only place where the order of two
   writes differs, rc_parents / reconst_parents, is settled by the commutation of
   PositiveMap.add on distinct keys (aset_comm).  Its bitwise CRC is the library's table driven
   CRC (canon_crc). *)
From Coq Require Import Lia ZifyN ZifyNat ZifyBool FMapPositive.
From Verif Require Import Base.Bytes Base.BytesP Base.Arr Lzhuf.Huff Lzhuf.HuffInv Lzhuf.HuffInvP Lzhuf.HuffP Lzhuf.HuffWalkP
  Lzhuf.Enc Lzhuf.Crc Lzhuf.CrcP Lzhuf.Dec Lzhuf.LzP Lzhuf.Bits Lzhuf.BitsRP Lzhuf.Tokens Lzhuf.TokensP Lzhuf.Canon gen.Tables.
From Verif Require Import Lzhuf.HuffUpdateP Lzhuf.TokDecP.
Open Scope N_scope.

Definition hf_of (h : huff) : Canon.hf := {| Canon.fq := freq h; Canon.pr := prnt h; Canon.sn := son h |}.

Lemma hf_eq f f' p p' s s' : f = f' -> p = p' -> s = s' ->
  {| Canon.fq := f; Canon.pr := p; Canon.sn := s |} = {| Canon.fq := f'; Canon.pr := p'; Canon.sn := s' |}.
Proof. intros -> -> ->. reflexivity. Qed.

Lemma hf_of_mk f p s : {| Canon.fq := f; Canon.pr := p; Canon.sn := s |} = hf_of {| freq := f; prnt := p; son := s |}.
Proof. reflexivity. Qed.

Theorem canon_start : Canon.start_huff = hf_of huff_init.
Proof. vm_compute. reflexivity. Qed.

(* writes at distinct indices commute (the maps are tries without normalisation) *)
Lemma padd_comm {A} : forall i j (m : PositiveMap.t A) v w, i <> j ->
  PositiveMap.add i v (PositiveMap.add j w m) = PositiveMap.add j w (PositiveMap.add i v m).
Proof.
  induction i as [i IH|i IH|]; intros [j|j|] [|l o r] v w H; cbn [PositiveMap.add];
    try congruence; f_equal; try (apply IH; congruence).
Qed.

Lemma aset_comm a i j v w : i <> j -> aset (aset a i v) j w = aset (aset a j w) i v.
Proof.
  intros H. unfold aset. apply padd_comm. intros E. apply H. symmetry. apply succ_pos_inj. exact E.
Qed.

Lemma collect_eq n : forall i j h,
  Canon.rc_collect n i j (hf_of h) = hf_of (reconst_collect n i j h).
Proof.
  induction n as [|n IH]; intros i j h; [reflexivity|].
  cbn [Canon.rc_collect reconst_collect]. cbn [hf_of Canon.fq Canon.pr Canon.sn].
  change Canon.cT with lz_T. destruct (lz_T <=? aget (son h) i).
  - rewrite hf_of_mk. apply IH.
  - apply (IH (i + 1) j h).
Qed.

Lemma find_0 g f v : reconst_find g f v 0 = 0.
Proof. induction g as [|g IH]; cbn [reconst_find]; [reflexivity|]. change (0 - 1) with 0. destruct (v <? aget f 0); [exact IH|reflexivity]. Qed.

(* the reference guards k > 0; the library relies on 0 - 1 = 0 ... both stop at 0 *)
Lemma pos_eq g f v : forall k, Canon.rc_pos g f v k = reconst_find g f v k.
Proof.
  induction g as [|g IH]; intros k; [reflexivity|]. cbn [Canon.rc_pos reconst_find].
  destruct (N.ltb_spec 0 k) as [Hk|Hk].
  - cbn [andb]. rewrite IH. reflexivity.
  - assert (k = 0) by lia. subst k. cbn [andb]. change (0 - 1) with 0.
    destruct (v <? aget f 0); [|reflexivity]. symmetry. apply find_0.
Qed.

Lemma shift_eq cnt : forall a k, Canon.shift_up cnt a k = move_right cnt a k.
Proof. induction cnt as [|c IH]; intros a k; [reflexivity|]. cbn [Canon.shift_up move_right]. apply IH. Qed.

Lemma build_eq n : forall i j h,
  Canon.rc_build n i j (hf_of h) = hf_of (reconst_build n i j h).
Proof.
  induction n as [|n IH]; intros i j h; [reflexivity|].
  cbn [Canon.rc_build reconst_build]. cbn [hf_of Canon.fq Canon.pr Canon.sn].
  change Canon.cT with lz_T. destruct (j <? lz_T); [|reflexivity].
  cbv zeta. rewrite pos_eq, !shift_eq. change Canon.nT with natT.
  rewrite hf_of_mk. apply IH.
Qed.

Lemma parents_eq n : forall i h,
  Canon.rc_parents n i (hf_of h) = hf_of (reconst_parents n i h).
Proof.
  induction n as [|n IH]; intros i h; [reflexivity|].
  cbn [Canon.rc_parents reconst_parents]. cbn [hf_of Canon.fq Canon.pr Canon.sn].
  change Canon.cT with lz_T. cbv zeta.
  rewrite (aset_comm (prnt h) (aget (son h) i) (aget (son h) i + 1)) by lia.
  rewrite hf_of_mk. apply IH.
Qed.

Lemma rebuild_eq h : Canon.rebuild (hf_of h) = hf_of (reconst h).
Proof.
  unfold Canon.rebuild, reconst. change Canon.nT with natT. change Canon.cN_CHAR with lz_NumChar.
  rewrite collect_eq, build_eq, parents_eq. reflexivity.
Qed.

Lemma scan_eq g f k : forall l, Canon.up_scan g f k l = update_scan g f k l.
Proof. induction g as [|g IH]; intros l; [reflexivity|]. cbn [Canon.up_scan update_scan]. rewrite IH. reflexivity. Qed.

(* the reference's exchange test is the negation of the library's no-exchange test: at the
   root the sentinel freq[T] = 65535 decides *)
Lemma cond_eq h c : LoopInv h c ->
  (aget (aset (freq h) c (aget (freq h) c + 1)) (c + 1) <? aget (freq h) c + 1) = negb (noswap_cond h c).
Proof.
  intros HL. pose proof (li_freqs _ _ HL) as F. pose proof (li_c _ _ HL) as Hc.
  unfold noswap_cond, incr. cbn [freq]. rewrite aget_aset_same.
  rewrite aget_aset_other by lia.
  destruct (N.leb_spec (lz_T + 1) (c + 2)) as [H|H].
  - rewrite orb_true_r. cbn [negb].
    assert (c = lz_R) by tlia. subst c. change (lz_R + 1) with lz_T.
    rewrite (fq_sentinel _ _ F). pose proof (fq_max _ _ F). apply N.ltb_ge. tlia.
  - rewrite orb_false_r. rewrite N.ltb_antisym. reflexivity.
Qed.

Lemma up_loop_S g h c : LoopInv h c ->
  Canon.up_loop (S g) (hf_of h) c =
  if snd (upd_step h c) =? 0 then hf_of (fst (upd_step h c))
  else Canon.up_loop g (hf_of (fst (upd_step h c))) (snd (upd_step h c)).
Proof.
  intros HL. cbn [Canon.up_loop]. cbn [hf_of Canon.fq Canon.pr Canon.sn]. cbv zeta.
  unfold upd_step. rewrite (cond_eq h c HL). destruct (noswap_cond h c); cbn [negb fst snd].
  - cbn [Canon.pr]. reflexivity.
  - rewrite scan_eq. change Canon.nT with natT. change Canon.cT with lz_T.
    unfold scan_of, swapst, incr, hf_of. cbn [freq prnt son Canon.pr]. cbv zeta.
    rewrite !aget_aset_same. reflexivity.
Qed.

Lemma up_loop_eq : forall fuel h c, LoopInv h c ->
  Canon.up_loop fuel (hf_of h) c = hf_of (update_loop fuel h c).
Proof.
  induction fuel as [|f IH]; intros h c HL; [reflexivity|].
  rewrite (up_loop_S f h c HL), update_loop_S. pose proof (upd_step_inv h c HL) as U.
  destruct (snd (upd_step h c) =? 0); [reflexivity|]. apply IH, U.
Qed.

Theorem canon_bump : forall h c, Inv h -> c < lz_NumChar -> Canon.bump (hf_of h) c = hf_of (update h c).
Proof.
  intros h c I Hc. unfold Canon.bump, update.
  change Canon.cR with lz_R. change Canon.cMAX_FREQ with lz_MaxFreq. change Canon.cT with lz_T.
  change (S Canon.nT) with (S natT).
  change (Canon.fq (hf_of h)) with (freq h).
  set (h1 := if aget (freq h) lz_R =? lz_MaxFreq then reconst h else h).
  assert (E1 : (if aget (freq h) lz_R =? lz_MaxFreq then Canon.rebuild (hf_of h) else hf_of h) = hf_of h1).
  { unfold h1. destruct (aget (freq h) lz_R =? lz_MaxFreq); [apply rebuild_eq|reflexivity]. }
  rewrite E1. apply up_loop_eq, update_start; assumption.
Qed.

Lemma shift_step_eq c : c < 65536 -> Canon.crc_shift c = xm_shift c /\ xm_shift c < 65536.
Proof.
  intros H. unfold Canon.crc_shift, xm_shift. cbv zeta.
  assert (E1 : N.land (N.shiftl c 1) 65535 = (c * 2) mod 65536).
  { change 65535 with (N.ones 16). rewrite N.land_ones, N.shiftl_mul_pow2. reflexivity. }
  assert (E2 : N.testbit c 15 = (32768 <=? c)).
  { rewrite N.testbit_eqb. change (2 ^ 15) with 32768.
    destruct (N.leb_spec 32768 c) as [L|L].
    - assert (E : c / 32768 = 1) by (symmetry; apply (N.div_unique c 32768 1 (c - 32768)); lia).
      rewrite E. reflexivity.
    - rewrite N.div_small by exact L. reflexivity. }
  rewrite E1, E2.
  assert (L2 : (c * 2) mod 65536 < 65536) by (apply N.mod_lt; discriminate).
  split; [reflexivity|].
  destruct (32768 <=? c); [|exact L2].
  apply (lxor_lt _ _ 16); [exact L2|reflexivity].
Qed.

Lemma shift_iter_eq n : forall c, c < 65536 ->
  iter n Canon.crc_shift c = iter n xm_shift c /\ iter n xm_shift c < 65536.
Proof.
  induction n as [|n IH]; intros c H; cbn [iter]; [auto|].
  destruct (shift_step_eq c H) as [E L]. rewrite E. exact (IH _ L).
Qed.

Lemma crc_byte_eq c b : c < 65536 -> b < 256 -> Canon.crc_byte c b = xm_byte c b /\ xm_byte c b < 65536.
Proof.
  intros Hc Hb. unfold xm_byte. rewrite N.shiftl_mul_pow2. change (2 ^ 8) with 256.
  change (Canon.crc_byte c b) with (iter 8 Canon.crc_shift (N.lxor c (b * 256))).
  apply shift_iter_eq, (lxor_lt _ _ 16); [exact Hc|change (2 ^ 16) with 65536; lia].
Qed.

Lemma crc16_xmodem p : forall c, c < 65536 -> Forall (fun b => b < 256) p ->
  fold_left Canon.crc_byte p c = fold_left xm_byte p c.
Proof.
  induction p as [|b p IH]; intros c Hc Hp; [reflexivity|].
  inversion Hp as [|? ? Hb Hp']; subst. cbn [fold_left].
  destruct (crc_byte_eq c b Hc Hb) as [E L]. rewrite E. apply IH; assumption.
Qed.

Theorem canon_crc : forall p, Forall (fun b => b < 256) p -> Canon.crc16 p = crc_impl p.
Proof.
  intros p Hp. rewrite crc_impl_xmodem by exact Hp. unfold Canon.crc16, xmodem.
  apply crc16_xmodem; [reflexivity|exact Hp].
Qed.

Lemma bits_eq l : Canon.bits_of_bytes l = bytes_bits l.
Proof.
  induction l as [|b r IH]; [reflexivity|]. cbn [Canon.bits_of_bytes]. rewrite IH. reflexivity.
Qed.

Lemma walk_eq f : forall h c bits, Canon.walk_down f (hf_of h) c bits = decode_walk f h c bits.
Proof.
  induction f as [|f IH]; intros h c bits; [reflexivity|].
  cbn [Canon.walk_down decode_walk]. change Canon.cT with lz_T. change (Canon.sn (hf_of h)) with (son h).
  destruct (c <? lz_T); [|reflexivity]. destruct bits as [|b r]; apply IH.
Qed.

Lemma copy_eq k : forall ring i r acc, Canon.copy_from k ring i r acc = copy_run k ring r i acc.
Proof.
  induction k as [|k IH]; intros ring i r acc; [reflexivity|].
  cbn [Canon.copy_from copy_run]. change Canon.cN with lz_N. apply IH.
Qed.

Lemma take_bits_app l X : Canon.take_bits (length l) (l ++ X) = (shift_in l 0, X).
Proof.
  unfold Canon.take_bits.
  rewrite (firstn_app_exact l X _ eq_refl), (firstn_app_exact l _ _ eq_refl), (skipn_app_exact l X _ eq_refl).
  reflexivity.
Qed.

(* get_position computes what decodePosition computes: the table entry of the first byte (the
   prefix lookup is the library's table, LzP.decode_tables_canonical), then dLen - 2 more bits
   shifted in below it; so it inverts the position code because decode_position does *)
Lemma get_position_code pos rest : pos < 4096 ->
  Canon.get_position (pos_code pos ++ rest) = (pos, rest).
Proof.
  intros Hp. destruct (pos_code_split pos Hp) as [v [l2 [Hv [Hc [Hl Hpos]]]]].
  unfold Canon.get_position. rewrite Hc, <- app_assoc.
  rewrite <- (bits_msb_length 8 v) at 1. rewrite take_bits_app, shift_in_bits_msb by exact Hv.
  rewrite (decode_tables_canonical v Hv), <- Hl, take_bits_app.
  rewrite lor_shl6, (shift_in_acc l2 v), Hl, N2Nat.id in Hpos. rewrite Hpos. reflexivity.
Qed.

Lemma mask_eq r pos : pos < 2048 ->
  (r + Canon.cN + Canon.cN - pos - 1) mod Canon.cN = maskN (Z.of_N r - Z.of_N pos - 1).
Proof.
  intros H. unfold maskN. change Canon.cN with 2048. change lz_N with 2048.
  apply N2Z.inj. rewrite N2Z.inj_mod.
  rewrite Z2N.id by (apply Z.mod_pos_bound; reflexivity).
  rewrite <- (Z_mod_plus_full (Z.of_N r - Z.of_N pos - 1) 2 (Z.of_N 2048)).
  f_equal. lia.
Qed.

Lemma decode_loop_spec pad textsize : forall toks fuel h ring r count acc,
  Forall tok_ok toks -> Inv h ->
  count + N.of_nat (length (expand (ring, r) toks)) = textsize ->
  (length (expand (ring, r) toks) < fuel)%nat ->
  Canon.decode_loop fuel (hf_of h) ring r (toks_bits h toks ++ pad) count textsize acc
  = rev (expand (ring, r) toks) ++ acc.
Proof.
  induction toks as [|t rest IH]; intros fuel h ring r count acc Ht HI Hcnt Hfuel.
  - cbn [expand length] in *. destruct fuel as [|g]; [lia|].
    cbn [Canon.decode_loop]. destruct (N.ltb_spec count textsize); [lia|]. reflexivity.
  - inversion Ht as [|? ? Hok Hrest]; subst.
    pose proof (expand_cons_length (ring, r) t rest Hok) as HL.
    destruct fuel as [|g]; [lia|].
    cbn [Canon.decode_loop].
    destruct (N.ltb_spec count (count + N.of_nat (length (expand (ring, r) (t :: rest))))); [|lia].
    pose proof (tok_sym_lt t Hok) as Hsym.
    cbn [toks_bits]. rewrite <- !app_assoc.
    change (Canon.sn (hf_of h)) with (son h). change Canon.cR with lz_R. change (S Canon.nT) with (S natT).
    rewrite walk_eq, (code_decodes h (tok_sym t) _ (inv_shape _ HI) Hsym).
    cbv beta iota zeta.
    replace (tok_sym t + lz_T - Canon.cT) with (tok_sym t) by (change Canon.cT with lz_T; lia).
    rewrite (canon_bump h (tok_sym t) HI Hsym).
    pose proof (update_inv h (tok_sym t) HI Hsym) as HI1.
    destruct t as [b|pos len].
    + (* literal *)
      cbn [tok_sym tok_ok] in *. destruct (N.ltb_spec b 256); [|lia].
      cbn [app]. rewrite expand_lit in *. cbn [length] in *. change Canon.cN with lz_N.
      rewrite (IH g (update h b) (aset ring r b) ((r + 1) mod lz_N) (count + 1) (b :: acc) Hrest HI1);
        [|lia|lia].
      cbn [rev]. rewrite <- app_assoc. reflexivity.
    + (* match *)
      cbn [tok_sym] in *. destruct Hok as [Hpos1 [Hlen1 Hlen2]].
      unfold lz_Threshold, lz_F, lz_N in Hlen1, Hlen2, Hpos1.
      destruct (N.ltb_spec (255 - lz_Threshold + len) 256); [unfold lz_Threshold in *; lia|].
      rewrite get_position_code by lia.
      replace (255 - lz_Threshold + len - 255 + Canon.cTHRESHOLD) with len
        by (unfold lz_Threshold, Canon.cTHRESHOLD; lia).
      rewrite mask_eq by exact Hpos1.
      rewrite copy_eq, copy_run_crun.
      rewrite expand_match in *.
      destruct (crun (N.to_nat len) ring r (maskN (Z.of_N r - Z.of_N pos - 1))) as [[t1 r1] l] eqn:Ecr.
      pose proof (crun_length _ _ _ _ _ _ _ Ecr) as Hl.
      rewrite app_length in *.
      rewrite (IH g (update h (255 - lz_Threshold + len)) t1 r1 (count + len) (rev l ++ acc) Hrest HI1);
        [|lia|lia].
      rewrite rev_app_distr, <- app_assoc. reflexivity.
Qed.

Theorem canon_decode_tokens : forall (crc : bool) (toks : list token) (body : bytes) (pad : list bool),
  Forall tok_ok toks -> Forall (fun x => x < 256) body ->
  bytes_bits body = toks_bits huff_init toks ++ pad ->
  (Z.of_nat (length (expand win_init toks)) < 2147483648)%Z ->
  let x := expand win_init toks in
  let size := le32 (N.of_nat (length x)) in
  let stream := (if crc then le16 (crc_impl (size ++ body)) else []) ++ size ++ body in
  Canon.decode crc stream = Some x.
Proof.
  intros crc toks body pad Htoks Hbody Hbits Hlen x size stream.
  set (n := N.of_nat (length x)) in *.
  assert (Hn : n < 2147483648) by (unfold n, x; lia).
  assert (Hsb : Forall (fun b => b < 256) size) by apply le32_bytes.
  set (cv := crc_impl (size ++ body)) in *.
  assert (Hcv : cv < 65536).
  { apply crc_impl_lt. apply Forall_app. split; assumption. }
  assert (Hbody_dec : Canon.decode_body n body = x).
  { unfold Canon.decode_body. rewrite bits_eq, Hbits, canon_start.
    change (Canon.cN - Canon.cF) with (lz_N - lz_F).
    change Canon.start_ring with (afill aempty 0 (N.to_nat (lz_N - lz_F)) 32).
    rewrite (decode_loop_spec pad n toks (S (N.to_nat n)) huff_init _ _ 0 []
               Htoks huff_init_inv).
    - rewrite rev'_rev, app_nil_r, rev_involutive. reflexivity.
    - change (expand (afill aempty 0 (N.to_nat (lz_N - lz_F)) 32, lz_N - lz_F) toks) with x. unfold n. lia.
    - change (expand (afill aempty 0 (N.to_nat (lz_N - lz_F)) 32, lz_N - lz_F) toks) with x. unfold n. lia. }
  assert (Esize : size = [n mod 256; (n / 256) mod 256; (n / 65536) mod 256; (n / 16777216) mod 256])
    by reflexivity.
  assert (Hsz : le_to_N size = n) by (unfold size; apply le32_roundtrip; lia).
  assert (Hall : Forall (fun b => b < 256) (size ++ body)) by (apply Forall_app; split; assumption).
  unfold Canon.decode, stream. destruct crc.
  - unfold le16. rewrite Esize. cbn [app length Nat.ltb Nat.leb skipn firstn].
    change (n mod 256 :: (n / 256) mod 256 :: (n / 65536) mod 256 :: (n / 16777216) mod 256 :: body)
      with (size ++ body).
    change [n mod 256; (n / 256) mod 256; (n / 65536) mod 256; (n / 16777216) mod 256] with size.
    rewrite Hsz. destruct (N.leb_spec 2147483648 n); [lia|].
    rewrite le_to_N_le16 by exact Hcv.
    rewrite canon_crc by exact Hall.
    fold cv. rewrite N.eqb_refl. cbn [andb negb].
    rewrite Hbody_dec. unfold n. rewrite N.eqb_refl. reflexivity.
  - rewrite Esize. cbn [app length Nat.ltb Nat.leb skipn firstn].
    change [n mod 256; (n / 256) mod 256; (n / 65536) mod 256; (n / 16777216) mod 256] with size.
    rewrite Hsz. destruct (N.leb_spec 2147483648 n); [lia|].
    cbn [andb]. rewrite Hbody_dec. unfold n. rewrite N.eqb_refl. reflexivity.
Qed.

Print Assumptions canon_start.
Print Assumptions canon_bump.
Print Assumptions canon_crc.
Print Assumptions canon_decode_tokens.
