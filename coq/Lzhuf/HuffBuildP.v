(* Lzhuf/HuffBuildP.v — the middle loop of reconst (reconst_build, with reconst_find and
   move_right): from a Collected state it produces a Built state (build_spec).  The array after
   "shift [k, j) right by one and store v at k" is the old one with v inserted at k (Ins);
   Section Step proves that one such insertion preserves the loop invariant BInv, and
   build_step instantiates it with the code. *)
From Coq Require Import ZifyN ZifyNat Lia.
From Verif Require Import Base.Bytes Base.Arr Lzhuf.Huff Lzhuf.HuffInv Lzhuf.HuffReconstDefs
  Lzhuf.HuffInvP gen.Tables.
Open Scope N_scope.

Lemma rsum_S f n : rsum f (S n) = rsum f n + f (N.of_nat n).
Proof. reflexivity. Qed.

Lemma rsum_extN f g n :
  (forall q, q < n -> f q = g q) -> rsum f (N.to_nat n) = rsum g (N.to_nat n).
Proof. intros H. apply rsum_ext. intros q Hq. apply H. lia. Qed.

Lemma rsum_ins_nat a b (k : nat) v : forall j, (k <= j)%nat ->
  (forall q, (q < k)%nat -> b (N.of_nat q) = a (N.of_nat q)) ->
  b (N.of_nat k) = v ->
  (forall q, (k <= q)%nat -> (q < j)%nat -> b (N.of_nat (S q)) = a (N.of_nat q)) ->
  rsum b (S j) = rsum a j + v.
Proof.
  induction j as [|j IH]; intros Hk Hlo Hv Hhi.
  - assert (k = 0)%nat by lia. subst k. rewrite rsum_S. cbn [rsum]. rewrite Hv. reflexivity.
  - destruct (Nat.eq_dec k (S j)) as [E|E].
    + subst k. rewrite (rsum_S b (S j)), Hv. f_equal. apply rsum_ext.
      intros x Hx. rewrite <- (N2Nat.id x). apply Hlo. lia.
    + rewrite (rsum_S b (S j)). rewrite IH; [|lia|exact Hlo|exact Hv|intros; apply Hhi; lia].
      rewrite (Hhi j) by lia. rewrite (rsum_S a j). lia.
Qed.

Record Ins (a b : N -> N) (k j v : N) : Prop := {
  ins_low : forall q, q < k -> b q = a q;
  ins_at : b k = v;
  ins_hi : forall q, k < q -> q <= j -> b q = a (q - 1);
  ins_out : forall q, j < q -> b q = a q
}.
Arguments ins_low {a b k j v}.
Arguments ins_at {a b k j v}.
Arguments ins_hi {a b k j v}.
Arguments ins_out {a b k j v}.

Lemma rsum_ins a b k j v : k <= j -> Ins a b k j v ->
  rsum b (N.to_nat (j + 1)) = rsum a (N.to_nat j) + v.
Proof.
  intros Hk [H1 H2 H3 _].
  replace (N.to_nat (j + 1)) with (S (N.to_nat j)) by lia.
  apply rsum_ins_nat with (k := N.to_nat k).
  - lia.
  - intros q Hq. apply H1. lia.
  - rewrite N2Nat.id. exact H2.
  - intros q Hq1 Hq2. rewrite H3 by lia. f_equal. lia.
Qed.

Lemma move_right_S l a k :
  move_right (S l) a k =
  move_right l (aset a (k + N.of_nat (S l)) (aget a (k + N.of_nat l))) k.
Proof. reflexivity. Qed.

Lemma move_right_get : forall l a k q,
  aget (move_right l a k) q =
  if (k <? q) && (q <=? k + N.of_nat l) then aget a (q - 1) else aget a q.
Proof.
  induction l as [|l IH]; intros a k q.
  - cbn [move_right].
    destruct (N.ltb_spec k q), (N.leb_spec q (k + N.of_nat 0)); cbn [andb]; try reflexivity. lia.
  - rewrite move_right_S, IH, !aget_aset.
    destruct (N.ltb_spec k q), (N.leb_spec q (k + N.of_nat l)),
      (N.leb_spec q (k + N.of_nat (S l))), (N.eqb_spec q (k + N.of_nat (S l))),
      (N.eqb_spec (q - 1) (k + N.of_nat (S l))); cbn [andb]; try lia; try reflexivity.
    f_equal. lia.
Qed.

Lemma Ins_shift a k j v : k <= j ->
  Ins (aget a) (aget (aset (move_right (N.to_nat (j - k)) a k) k v)) k j v.
Proof.
  intros Hk.
  assert (H : forall q, aget (aset (move_right (N.to_nat (j - k)) a k) k v) q =
     if q =? k then v else if (k <? q) && (q <=? j) then aget a (q - 1) else aget a q).
  { intros q. rewrite aget_aset, move_right_get, N2Nat.id.
    replace (k + (j - k)) with j by lia. reflexivity. }
  constructor; [intros q Hq|idtac|intros q Hq Hq2|intros q Hq]; rewrite H.
  - destruct (N.eqb_spec q k); [lia|].
    destruct (N.ltb_spec k q), (N.leb_spec q j); cbn [andb]; try lia; reflexivity.
  - rewrite N.eqb_refl. reflexivity.
  - destruct (N.eqb_spec q k); [lia|].
    destruct (N.ltb_spec k q), (N.leb_spec q j); cbn [andb]; try lia; reflexivity.
  - destruct (N.eqb_spec q k); [lia|].
    destruct (N.ltb_spec k q), (N.leb_spec q j); cbn [andb]; try lia; reflexivity.
Qed.

Lemma Ins_freq a k j v : k <= j ->
  Ins (aget a) (aget (aset (move_right (N.to_nat (j - k)) (aset a j v) k) k v)) k j v.
Proof.
  intros Hk. destruct (Ins_shift (aset a j v) k j v Hk) as [H1 H2 H3 H4].
  constructor; intros.
  - rewrite H1 by lia. rewrite aget_aset. destruct (N.eqb_spec q j); [lia|reflexivity].
  - exact H2.
  - rewrite H3 by lia. rewrite aget_aset. destruct (N.eqb_spec (q - 1) j); [lia|reflexivity].
  - rewrite H4 by lia. rewrite aget_aset. destruct (N.eqb_spec q j); [lia|reflexivity].
Qed.

Lemma find_S fuel fr first k :
  reconst_find (S fuel) fr first k =
  if first <? aget fr (k - 1) then reconst_find fuel fr first (k - 1) else k.
Proof. reflexivity. Qed.

Lemma find_spec : forall fuel fr f lo j k0,
  1 <= lo -> lo <= k0 -> k0 <= j -> aget fr (lo - 1) <= f ->
  (N.to_nat (k0 - lo) <= fuel)%nat ->
  (forall q, k0 <= q -> q < j -> f < aget fr q) ->
  lo <= reconst_find fuel fr f k0 /\ reconst_find fuel fr f k0 <= j /\
  aget fr (reconst_find fuel fr f k0 - 1) <= f /\
  (forall q, reconst_find fuel fr f k0 <= q -> q < j -> f < aget fr q).
Proof.
  induction fuel as [|fuel IH]; intros fr f lo j k0 H1 Hlo Hj Hb Hfuel Hgt.
  - cbn [reconst_find]. assert (k0 = lo) by lia. subst k0. repeat split; try lia; assumption.
  - rewrite find_S. destruct (N.ltb_spec f (aget fr (k0 - 1))) as [Hlt|Hge].
    + assert (k0 <> lo) by (intros ->; lia).
      apply IH; try lia; try assumption.
      intros q Hq1 Hq2. destruct (N.eq_dec q (k0 - 1)) as [->|Hne]; [exact Hlt|].
      apply Hgt; lia.
    + repeat split; try lia; assumption.
Qed.

Local Notation tot h1 := (rsum (fun p => aget (freq h1) p) natC).

(* nodes 0 .. j-1 stand, those below i have a parent, i and i+1 are joined next.  The two sums give,
   at i = R and j = T, that the root's frequency is the total of the leaves (built_of_inv). *)
Record BInv (h1 h : huff) (i j : N) : Prop := {
  bi_ij : i + 2 * lz_NumChar = 2 * j;
  bi_jT : j <= lz_T;
  bi_prnt : prnt h = prnt h1;
  bi_sent : aget (freq h) lz_T = 65535;
  bi_sorted : forall p, p + 1 < j -> aget (freq h) p <= aget (freq h) (p + 1);
  bi_pos : forall p, p < j -> 1 <= aget (freq h) p;
  bi_node : forall p, p < j ->
     (aget (son h) p < i /\ N.even (aget (son h) p) = true /\ aget (son h) p + 1 < p /\
      aget (freq h) p = aget (freq h) (aget (son h) p) + aget (freq h) (aget (son h) p + 1))
     \/ (lz_T <= aget (son h) p /\ aget (son h) p < lz_T + lz_NumChar);
  bi_int_all : forall s, s < i -> N.even s = true -> exists p, p < j /\ aget (son h) p = s;
  bi_sym_all : forall c, c < lz_NumChar -> exists p, p < j /\ aget (son h) p = c + lz_T;
  bi_inj : forall p q, p < j -> q < j -> aget (son h) p = aget (son h) q -> p = q;
  bi_root : j = lz_T -> aget (son h) lz_R < lz_T;
  bi_rsum : rsum (aget (freq h)) (N.to_nat j) = rsum (aget (freq h)) (N.to_nat i) + tot h1;
  bi_lsum : rsum (leaf_freq h) (N.to_nat j) = tot h1
}.

Lemma even_double_spec i m : i = 2 * m -> N.even i = true.
Proof. intros ->. apply N.even_spec. exists m. reflexivity. Qed.

Section Step.
  Variables (h1 h : huff) (i j k f : N) (fr2 sn2 : arr).
  Hypothesis HI : BInv h1 h i j.
  Hypothesis HjT : j < lz_T.
  Hypothesis Hf : f = aget (freq h) i + aget (freq h) (i + 1).
  Hypothesis Hk1 : i + 2 <= k.
  Hypothesis Hk2 : k <= j.
  Hypothesis Hle : aget (freq h) (k - 1) <= f.
  Hypothesis Hgt : forall q, k <= q -> q < j -> f < aget (freq h) q.
  Hypothesis HF : Ins (aget (freq h)) (aget fr2) k j f.
  Hypothesis HS : Ins (aget (son h)) (aget sn2) k j i.

  Definition hnext : huff := {| freq := fr2; son := sn2; prnt := prnt h |}.

  Lemma st_bounds : i + 2 <= j /\ i < lz_T /\ lz_NumChar <= j.
  Proof. generalize (bi_ij _ _ _ _ HI) HjT. rewrite T_val, NumChar_val. clear. lia. Qed.

  Lemma st_even_i : N.even i = true.
  Proof.
    pose proof (bi_ij _ _ _ _ HI). apply (even_double_spec i (j - lz_NumChar)). lia.
  Qed.

  Lemma st_old p : p < j + 1 -> p <> k ->
    exists p', p' < j /\ aget sn2 p = aget (son h) p' /\ aget fr2 p = aget (freq h) p' /\
               ((p' = p /\ p < k) \/ (p = p' + 1 /\ k <= p')).
  Proof.
    intros Hp Hne. destruct (N.lt_ge_cases p k) as [Hlt|Hge].
    - exists p. rewrite (ins_low HS), (ins_low HF) by assumption. repeat split; try lia.
    - exists (p - 1). rewrite (ins_hi HS), (ins_hi HF) by lia. repeat split; try lia.
  Qed.

  Lemma st_new p' : p' < j ->
    exists p, p < j + 1 /\ p <> k /\ aget sn2 p = aget (son h) p' /\
              aget fr2 p = aget (freq h) p'.
  Proof.
    intros Hp. destruct (N.lt_ge_cases p' k) as [Hlt|Hge].
    - exists p'. rewrite (ins_low HS), (ins_low HF) by assumption. repeat split; lia.
    - exists (p' + 1). rewrite (ins_hi HS), (ins_hi HF) by lia.
      replace (p' + 1 - 1) with p' by lia. repeat split; lia.
  Qed.

  Lemma st_f_pos : 1 <= f /\ aget (freq h) (i + 1) < f.
  Proof.
    pose proof st_bounds. pose proof (bi_pos _ _ _ _ HI i). lia.
  Qed.

  Lemma step_sorted p : p + 1 < j + 1 -> aget fr2 p <= aget fr2 (p + 1).
  Proof.
    intros Hp. destruct (N.lt_trichotomy (p + 1) k) as [H|[H|H]].
    - rewrite !(ins_low HF) by lia. apply (bi_sorted _ _ _ _ HI). lia.
    - rewrite (ins_low HF) by lia. rewrite H, (ins_at HF).
      replace p with (k - 1) by lia. exact Hle.
    - destruct (N.eq_dec p k) as [->|Hne].
      + rewrite (ins_at HF), (ins_hi HF) by lia. replace (k + 1 - 1) with k by lia.
        apply N.lt_le_incl, Hgt; lia.
      + rewrite !(ins_hi HF) by lia. replace (p + 1 - 1) with (p - 1 + 1) by lia.
        apply (bi_sorted _ _ _ _ HI). lia.
  Qed.

  Lemma step_pos p : p < j + 1 -> 1 <= aget fr2 p.
  Proof.
    intros Hp. destruct (N.eq_dec p k) as [->|Hne].
    - rewrite (ins_at HF). apply st_f_pos.
    - destruct (st_old p Hp Hne) as (p' & Hp' & _ & E & _). rewrite E.
      apply (bi_pos _ _ _ _ HI). exact Hp'.
  Qed.

  Lemma step_node p : p < j + 1 ->
    (aget sn2 p < i + 2 /\ N.even (aget sn2 p) = true /\ aget sn2 p + 1 < p /\
     aget fr2 p = aget fr2 (aget sn2 p) + aget fr2 (aget sn2 p + 1))
    \/ (lz_T <= aget sn2 p /\ aget sn2 p < lz_T + lz_NumChar).
  Proof.
    intros Hp. destruct (N.eq_dec p k) as [->|Hne].
    - left. rewrite (ins_at HS), (ins_at HF), !(ins_low HF) by lia.
      repeat split; try lia. apply st_even_i.
    - destruct (st_old p Hp Hne) as (p' & Hp' & Es & Ef & Hcase). rewrite Es, Ef.
      destruct (bi_node _ _ _ _ HI p' Hp') as [(A & B & C & D)|L]; [left|right; exact L].
      rewrite !(ins_low HF) by lia. repeat split; try assumption; lia.
  Qed.

  Lemma step_int_all s : s < i + 2 -> N.even s = true -> exists p, p < j + 1 /\ aget sn2 p = s.
  Proof.
    intros Hs He. destruct (N.lt_ge_cases s i) as [Hlt|Hge].
    - destruct (bi_int_all _ _ _ _ HI s Hlt He) as (p' & Hp' & E).
      destruct (st_new p' Hp') as (p & Hp & _ & Es & _). exists p. split; [exact Hp|congruence].
    - pose proof (even_succ_false i s st_even_i He).
      assert (s = i) by lia. subst s. exists k. split; [lia|apply (ins_at HS)].
  Qed.

  Lemma step_sym_all c : c < lz_NumChar -> exists p, p < j + 1 /\ aget sn2 p = c + lz_T.
  Proof.
    intros Hc. destruct (bi_sym_all _ _ _ _ HI c Hc) as (p' & Hp' & E).
    destruct (st_new p' Hp') as (p & Hp & _ & Es & _). exists p. split; [exact Hp|congruence].
  Qed.

  Lemma st_old_ne_i p' : p' < j -> aget (son h) p' <> i.
  Proof.
    intros Hp. pose proof st_bounds.
    destruct (bi_node _ _ _ _ HI p' Hp) as [(A & _)|(L & _)]; lia.
  Qed.

  Lemma step_inj p q : p < j + 1 -> q < j + 1 -> aget sn2 p = aget sn2 q -> p = q.
  Proof.
    intros Hp Hq E.
    destruct (N.eq_dec p k) as [Ep|Np], (N.eq_dec q k) as [Eq|Nq].
    - congruence.
    - subst p. rewrite (ins_at HS) in E. destruct (st_old q Hq Nq) as (q' & Hq' & Es & _).
      exfalso. apply (st_old_ne_i q' Hq'). congruence.
    - subst q. rewrite (ins_at HS) in E. destruct (st_old p Hp Np) as (p' & Hp' & Es & _).
      exfalso. apply (st_old_ne_i p' Hp'). congruence.
    - destruct (st_old p Hp Np) as (p' & Hp' & Esp & _ & Cp).
      destruct (st_old q Hq Nq) as (q' & Hq' & Esq & _ & Cq).
      assert (p' = q') by (apply (bi_inj _ _ _ _ HI); congruence).
      lia.
  Qed.

  Lemma step_root : j + 1 = lz_T -> aget sn2 lz_R < lz_T.
  Proof.
    intros E. pose proof (bi_ij _ _ _ _ HI) as Hij. pose proof st_bounds as (_ & B & _).
    assert (Ek : lz_R = k).
    { generalize E Hij Hk1 Hk2. rewrite T_val, NumChar_val, R_val. clear. lia. }
    rewrite Ek, (ins_at HS). exact B.
  Qed.

  Lemma step_rsum :
    rsum (aget fr2) (N.to_nat (j + 1)) = rsum (aget fr2) (N.to_nat (i + 2)) + tot h1.
  Proof.
    rewrite (rsum_ins _ _ _ _ _ Hk2 HF).
    rewrite (rsum_extN (aget fr2) (aget (freq h)) (i + 2)) by (intros; apply (ins_low HF); lia).
    rewrite (bi_rsum _ _ _ _ HI).
    replace (N.to_nat (i + 2)) with (S (S (N.to_nat i))) by lia.
    rewrite !rsum_S, N2Nat.id.
    replace (N.of_nat (S (N.to_nat i))) with (i + 1) by lia.
    lia.
  Qed.

  Lemma st_leaf_ins : Ins (leaf_freq h) (leaf_freq hnext) k j 0.
  Proof.
    pose proof st_bounds.
    unfold leaf_freq, hnext; cbn [freq son prnt]. constructor; intros.
    - rewrite (ins_low HF), (ins_low HS) by assumption. reflexivity.
    - rewrite (ins_at HS). destruct (N.leb_spec lz_T i); [lia|reflexivity].
    - rewrite (ins_hi HF), (ins_hi HS) by assumption. reflexivity.
    - rewrite (ins_out HF), (ins_out HS) by assumption. reflexivity.
  Qed.

  Lemma step_lsum : rsum (leaf_freq hnext) (N.to_nat (j + 1)) = tot h1.
  Proof.
    rewrite (rsum_ins _ _ _ _ _ Hk2 st_leaf_ins), (bi_lsum _ _ _ _ HI). lia.
  Qed.

  Lemma step_inv : BInv h1 hnext (i + 2) (j + 1).
  Proof.
    pose proof st_bounds as (B1 & B2 & B3).
    constructor; unfold hnext; cbn [freq son prnt].
    - pose proof (bi_ij _ _ _ _ HI). lia.
    - lia.
    - apply (bi_prnt _ _ _ _ HI).
    - rewrite (ins_out HF) by exact HjT. apply (bi_sent _ _ _ _ HI).
    - apply step_sorted.
    - apply step_pos.
    - apply step_node.
    - apply step_int_all.
    - apply step_sym_all.
    - apply step_inj.
    - apply step_root.
    - apply step_rsum.
    - apply step_lsum.
  Qed.
End Step.

Lemma build_S m i j h :
  reconst_build (S m) i j h =
  if j <? lz_T then
    let f := aget (freq h) i + aget (freq h) (i + 1) in
    let fr1 := aset (freq h) j f in
    let k := reconst_find natT fr1 f j in
    let last := N.to_nat (j - k) in
    let fr2 := aset (move_right last fr1 k) k f in
    let sn2 := aset (move_right last (son h) k) k i in
    reconst_build m (i + 2) (j + 1) {| freq := fr2; son := sn2; prnt := prnt h |}
  else h.
Proof. reflexivity. Qed.

Lemma build_step h1 h i j :
  BInv h1 h i j -> j < lz_T ->
  let f := aget (freq h) i + aget (freq h) (i + 1) in
  let fr1 := aset (freq h) j f in
  let k := reconst_find natT fr1 f j in
  let last := N.to_nat (j - k) in
  let fr2 := aset (move_right last fr1 k) k f in
  let sn2 := aset (move_right last (son h) k) k i in
  BInv h1 {| freq := fr2; son := sn2; prnt := prnt h |} (i + 2) (j + 1).
Proof.
  intros HI HjT f fr1 k last fr2 sn2.
  destruct (st_bounds h1 h i j HI HjT) as (B1 & B2 & B3).
  assert (HjT' : j < 627) by (rewrite <- T_val; exact HjT).
  assert (Hfr1 : forall q, q < j -> aget fr1 q = aget (freq h) q).
  { intros q Hq. unfold fr1. rewrite aget_aset. destruct (N.eqb_spec q j); [lia|reflexivity]. }
  destruct (find_spec natT fr1 f (i + 2) j j) as (K1 & K2 & K3 & K4).
  - lia.
  - lia.
  - lia.
  - rewrite Hfr1 by lia. replace (i + 2 - 1) with (i + 1) by lia. unfold f. lia.
  - pose proof natT_val. lia.
  - intros q Q1 Q2. lia.
  - fold k in K1, K2, K3, K4.
    apply (step_inv h1 h i j k f fr2 sn2); try assumption.
    + reflexivity.
    + rewrite <- Hfr1 by lia. exact K3.
    + intros q Q1 Q2. rewrite <- Hfr1 by lia. apply K4; assumption.
    + apply Ins_freq. exact K2.
    + apply Ins_shift. exact K2.
Qed.

Lemma build_loop h1 : forall n i j h,
  BInv h1 h i j -> (N.to_nat (lz_T - j) <= n)%nat ->
  BInv h1 (reconst_build n i j h) lz_R lz_T.
Proof.
  assert (Hend : forall i j h, BInv h1 h i j -> lz_T <= j -> BInv h1 h lz_R lz_T).
  { intros i j h HI Hj. pose proof (bi_ij _ _ _ _ HI) as Hij. pose proof (bi_jT _ _ _ _ HI).
    assert (j = lz_T) by lia. subst j.
    assert (i = lz_R) by (rewrite T_val, NumChar_val, R_val in *; lia). subst i. exact HI. }
  induction n as [|n IH]; intros i j h HI Hn.
  - cbn [reconst_build]. apply (Hend i j h HI). lia.
  - rewrite build_S. destruct (N.ltb_spec j lz_T) as [Hlt|Hge].
    + cbv zeta. apply IH.
      * apply (build_step h1 h i j HI Hlt).
      * lia.
    + apply (Hend i j h HI Hge).
Qed.

Lemma build_init h0 h1 : Collected h0 h1 -> BInv h1 h1 0 lz_NumChar.
Proof.
  intros HC. constructor.
  - lia.
  - rewrite T_val, NumChar_val. lia.
  - reflexivity.
  - apply (co_sentinel _ _ HC).
  - apply (co_sorted _ _ HC).
  - apply (co_pos _ _ HC).
  - intros p Hp. right. apply (co_leaf _ _ HC p Hp).
  - intros s Hs. lia.
  - apply (co_all _ _ HC).
  - apply (co_inj _ _ HC).
  - rewrite T_val, NumChar_val. lia.
  - change (N.to_nat 0) with 0%nat. cbn [rsum]. unfold natC. rewrite N.add_0_l. reflexivity.
  - unfold natC. apply rsum_extN. intros q Hq. unfold leaf_freq.
    destruct (co_leaf _ _ HC q Hq) as (L & _).
    destruct (N.leb_spec lz_T (aget (son h1) q)); [reflexivity|lia].
Qed.

Lemma built_of_inv h1 h2 : BInv h1 h2 lz_R lz_T -> Built h1 h2.
Proof.
  intros HI.
  assert (ER : lz_R + 1 = lz_T) by reflexivity.
  assert (Hmax : aget (freq h2) lz_R = tot h1).
  { pose proof (bi_rsum _ _ _ _ HI) as E.
    replace (N.to_nat lz_T) with (S (N.to_nat lz_R)) in E by tlia. rewrite rsum_S, N2Nat.id in E.
    lia. }
  constructor.
  - apply (bi_prnt _ _ _ _ HI).
  - intros p Hp. apply (bi_sorted _ _ _ _ HI). lia.
  - intros p Hp. apply (bi_pos _ _ _ _ HI). lia.
  - intros p Hp. destruct (bi_node _ _ _ _ HI p) as [(A & B & C & D)|L]; [lia| |right; exact L].
    left. repeat split; try assumption. lia.
  - intros s Hs He. destruct (bi_int_all _ _ _ _ HI s Hs He) as (p & Hp & E).
    exists p. split; [lia|exact E].
  - intros c Hc. destruct (bi_sym_all _ _ _ _ HI c Hc) as (p & Hp & E).
    exists p. split; [lia|exact E].
  - intros p q Hp Hq. apply (bi_inj _ _ _ _ HI); lia.
  - apply (bi_root _ _ _ _ HI). reflexivity.
  - rewrite Hmax. unfold leafsum. apply (bi_lsum _ _ _ _ HI).
  - exact Hmax.
  - apply (bi_sent _ _ _ _ HI).
Qed.

Theorem build_spec : forall h0 h1,
  Collected h0 h1 -> Built h1 (reconst_build natT 0 lz_NumChar h1).
Proof.
  intros h0 h1 HC. apply built_of_inv. apply build_loop.
  - apply (build_init h0 h1 HC).
  - pose proof natT_N. tlia.
Qed.

Print Assumptions build_spec.
