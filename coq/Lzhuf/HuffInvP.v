(* Lzhuf/HuffInvP.v — what the proofs about the adaptive Huffman tree share: the constants, sums
   and index lists, the consequences of Shape and Freqs (HuffInv.v) taken one node at a time;
   then: the executable checker of HuffInv.v is sound, and the initial tree (newLZHUFF)
   satisfies the invariant. *)
From Coq Require Import NArith List Lia Bool ZifyN ZifyNat ZifyBool.
From Verif Require Import Base.Bytes Base.Arr Lzhuf.Huff Lzhuf.HuffInv gen.Tables.
Import ListNotations.
Open Scope N_scope.

Lemma T_val : lz_T = 627. Proof. reflexivity. Qed.
Lemma R_val : lz_R = 626. Proof. reflexivity. Qed.
Lemma NumChar_val : lz_NumChar = 314. Proof. reflexivity. Qed.
Lemma MaxFreq_val : lz_MaxFreq = 32768. Proof. reflexivity. Qed.
Lemma natT_val : N.of_nat natT = 627. Proof. reflexivity. Qed.
Lemma natT_N : N.of_nat natT = lz_T. Proof. apply N2Nat.id. Qed.

(* lia takes lz_T, lz_R, ... for unknowns: consts puts their values in the context *)
Ltac consts := pose proof T_val; pose proof R_val; pose proof NumChar_val; pose proof MaxFreq_val.
Ltac tlia := consts; lia.

Lemma even_succ_false i s : N.even i = true -> N.even s = true -> s <> i + 1.
Proof.
  intros Hi Hs E. apply N.even_spec in Hi. apply N.even_spec in Hs.
  destruct Hi as [a Ha], Hs as [b Hb]. lia.
Qed.

Lemma In_upto n x : In x (upto n) <-> x < N.of_nat n.
Proof.
  induction n as [|n IH]; cbn [upto].
  - split; [intros []|lia].
  - rewrite in_app_iff, IH. cbn [In]. lia.
Qed.

Lemma forallb_upto f n : forallb f (upto (N.to_nat n)) = true -> forall x, x < n -> f x = true.
Proof. intros H x Hx. rewrite forallb_forall in H. apply H, In_upto. lia. Qed.

Lemma rsum_ext f g n : (forall x, x < N.of_nat n -> g x = f x) -> rsum g n = rsum f n.
Proof.
  induction n; intros H; [reflexivity|]. cbn [rsum].
  rewrite IHn by (intros; apply H; lia). rewrite H by lia. reflexivity.
Qed.

Section WithShape.
Variable h : huff.
Hypothesis SH : Shape h.

Lemma internal_son p : p <= lz_R -> aget (son h) p < lz_T ->
  N.even (aget (son h) p) = true /\ aget (son h) p + 1 < p.
Proof.
  intros Hp Hs. destruct (sh_son h SH p Hp) as [(_ & He & Hlt)|(Hge & _)]; [auto|lia].
Qed.

Lemma up_step k : k < lz_R ->
  let p := aget (prnt h) k in
  p <= lz_R /\ k < p /\ aget (son h) p < lz_T /\
  aget (son h) p + (if N.odd k then 1 else 0) = k.
Proof.
  intros Hk p. destruct (sh_up h SH k Hk) as (Hp & Hs & Hk').
  fold p in Hp, Hs, Hk'. destruct (internal_son p Hp Hs) as (He & Hlt).
  split; [exact Hp|]. split; [lia|]. split; [exact Hs|].
  destruct Hk' as [E|E].
  - rewrite <- E at 1. rewrite <- N.negb_even, He. cbn. lia.
  - rewrite <- E at 1. rewrite N.add_1_r, N.odd_succ, He. lia.
Qed.

Lemma down_step p bit : p <= lz_R -> aget (son h) p < lz_T -> bit <= 1 ->
  let k := aget (son h) p + bit in
  k < p /\ k <= lz_R /\
  (aget (son h) k < lz_T \/ (lz_T <= aget (son h) k /\ aget (son h) k < lz_T + lz_NumChar)).
Proof.
  intros Hp Hs Hb k. destruct (internal_son p Hp Hs) as (_ & Hlt).
  assert (Hk : k < p) by (unfold k; lia).
  assert (HkR : k <= lz_R) by lia.
  split; [exact Hk|]. split; [exact HkR|].
  destruct (sh_son h SH k HkR) as [(H1 & _)|H2]; [left; exact H1|right; exact H2].
Qed.

Lemma leaf_node c : c < lz_NumChar ->
  aget (prnt h) (c + lz_T) < lz_R /\ aget (son h) (aget (prnt h) (c + lz_T)) = c + lz_T.
Proof.
  intros Hc. destruct (sh_sym h SH c Hc) as (Hle & Hs). split; [|exact Hs].
  assert (aget (prnt h) (c + lz_T) <> lz_R).
  { intros E. rewrite E in Hs. pose proof (sh_rootint h SH). lia. }
  lia.
Qed.

End WithShape.

(* the indices at which prnt is meaningful: the nodes below the root and the symbol slots *)
Definition valid (x : N) : Prop := x < lz_R \/ (lz_T <= x /\ x < lz_T + lz_NumChar).

(* x is a slot owned by a node whose son value is k: k itself, and k+1 when the node is
   internal *)
Definition kidb (k x : N) : bool := (x =? k) || ((k <? lz_T) && (x =? k + 1)).

(* update's exchange sets the parent of the slots of a son value k in one go; reconst's parent
   step is read through kidb as well (HuffReconstP.pstep_val) *)
Definition set_kids (pr : arr) (k v : N) : arr :=
  let p1 := aset pr k v in if k <? lz_T then aset p1 (k + 1) v else p1.

Lemma kidb_spec k x : kidb k x = true <-> x = k \/ (k < lz_T /\ x = k + 1).
Proof. unfold kidb. lia. Qed.

Lemma aget_set_kids pr k v x : aget (set_kids pr k v) x = if kidb k x then v else aget pr x.
Proof.
  unfold set_kids, kidb. destruct (k <? lz_T); cbn [andb]; rewrite !aget_aset.
  - destruct (x =? k), (x =? k + 1); reflexivity.
  - rewrite orb_false_r. reflexivity.
Qed.

Lemma kidb_prnt h q x : Shape h -> q <= lz_R -> valid x ->
  kidb (aget (son h) q) x = (aget (prnt h) x =? q).
Proof.
  intros S Hq V. destruct (N.eqb_spec (aget (prnt h) x) q) as [E|E].
  - apply kidb_spec. destruct V as [Hx|Hx].
    + pose proof (sh_up h S x Hx) as U. rewrite E in U. lia.
    + pose proof (sh_sym h S (x - lz_T)) as U.
      replace (x - lz_T + lz_T) with x in U by lia. rewrite E in U. lia.
  - apply not_true_is_false. intros K. apply kidb_spec in K. apply E.
    destruct K as [->|[L ->]].
    + destruct (N.lt_ge_cases (aget (son h) q) lz_T) as [L|L];
        [apply (sh_down h S q Hq L)|apply (sh_leaf h S q Hq L)].
    + apply (sh_down h S q Hq L).
Qed.

Lemma kidb_root h q : Shape h -> q <= lz_R -> kidb (aget (son h) q) lz_R = false.
Proof.
  intros S Hq. apply not_true_is_false. intros K. apply kidb_spec in K.
  pose proof (sh_son h S q Hq). tlia.
Qed.

Lemma fq_mono h top : Freqs h top ->
  forall i j, i <= j -> j <= lz_R -> aget (freq h) i <= aget (freq h) j.
Proof.
  intros F i j. induction j using N.peano_ind; intros Hij Hj.
  - assert (i = 0) by lia. subst. lia.
  - destruct (N.eq_dec i (N.succ j)) as [E|E]; [subst; lia|].
    transitivity (aget (freq h) j); [apply IHj; lia|].
    replace (N.succ j) with (j + 1) by lia. apply (fq_sorted _ _ F). lia.
Qed.

Lemma fq_le_top h top : Freqs h top -> forall i, i <= lz_R -> aget (freq h) i <= top.
Proof.
  intros F i Hi. pose proof (fq_mono h top F i lz_R Hi (N.le_refl _)).
  pose proof (fq_max _ _ F). lia.
Qed.

(* where the sum rule holds, a parent weighs its child plus the sibling, which weighs at
   least 1 *)
Lemma parent_freq h top k : Shape h -> Freqs h top -> k < lz_R ->
  sum_at h (aget (prnt h) k) -> aget (freq h) k + 1 <= aget (freq h) (aget (prnt h) k).
Proof.
  intros S F Hk Sum. destruct (up_step h S k Hk) as (Hp & Hlt & Hs & E).
  destruct (internal_son h S _ Hp Hs) as (_ & Hson). specialize (Sum Hs).
  set (p := aget (prnt h) k) in *. set (s := aget (son h) p) in *.
  pose proof (fq_pos _ _ F s ltac:(lia)). pose proof (fq_pos _ _ F (s + 1) ltac:(lia)).
  destruct (N.odd k).
  - replace k with (s + 1) by lia. lia.
  - replace k with s by lia. lia.
Qed.

Theorem shape_b_sound h : shape_b h = true -> Shape h.
Proof.
  unfold shape_b. rewrite !andb_true_iff. intros [[[[H1 H2] H3] H4] H5].
  pose proof (forallb_upto _ _ H1) as F1. pose proof (forallb_upto _ _ H2) as F2.
  pose proof (forallb_upto _ _ H3) as F3. clear H1 H2 H3. cbv beta zeta in F1, F2, F3.
  assert (G1 : forall p, p <= lz_R -> p < lz_T) by tlia.
  constructor.
  - intros p Hp. specialize (F1 p (G1 p Hp)).
    destruct (N.ltb_spec (aget (son h) p) lz_T); lia.
  - intros p Hp Hs. specialize (F1 p (G1 p Hp)).
    destruct (N.ltb_spec (aget (son h) p) lz_T); lia.
  - intros p Hp Hs. specialize (F1 p (G1 p Hp)).
    destruct (N.ltb_spec (aget (son h) p) lz_T); lia.
  - intros k Hk. specialize (F2 k Hk). lia.
  - intros c Hc. specialize (F3 c Hc). lia.
  - lia.
  - lia.
Qed.

Theorem freqs_b_sound h top : freqs_b h top = true -> Freqs h top.
Proof.
  unfold freqs_b. rewrite !andb_true_iff. intros [[[H1 H2] H3] H4].
  pose proof (forallb_upto _ _ H1) as F1. pose proof (forallb_upto _ _ H3) as F3.
  cbv beta in F1, F3. constructor.
  - intros i Hi. specialize (F1 i Hi). lia.
  - lia.
  - intros i Hi. specialize (F3 i ltac:(tlia)). lia.
  - lia.
Qed.

Theorem inv_b_sound h : inv_b h = true -> Inv h.
Proof.
  unfold inv_b. rewrite !andb_true_iff. intros [[[H1 H2] H3] H4].
  constructor.
  - apply shape_b_sound. exact H1.
  - apply freqs_b_sound. exact H2.
  - intros p Hp Hs. pose proof (forallb_upto _ _ H3 p ltac:(tlia)) as F. unfold sum_b in F.
    destruct (N.ltb_spec (aget (son h) p) lz_T); lia.
  - lia.
Qed.

(* upto appends at the end, which is quadratic to evaluate: the same list built from the
   front *)
Fixpoint upfrom (n : nat) (i : N) : list N :=
  match n with O => [] | S k => i :: upfrom k (N.succ i) end.

Lemma upfrom_S n : forall i, upfrom (S n) i = upfrom n i ++ [i + N.of_nat n].
Proof.
  induction n; intros i.
  - cbn [upfrom app]. rewrite N.add_0_r. reflexivity.
  - change (upfrom (S (S n)) i) with (i :: upfrom (S n) (N.succ i)).
    rewrite IHn. replace (i + N.of_nat (S n)) with (N.succ i + N.of_nat n) by lia. reflexivity.
Qed.

Lemma upto_upfrom n : upto n = upfrom n 0.
Proof. induction n; [reflexivity|]. rewrite upfrom_S, <- IHn. reflexivity. Qed.

(* newLZHUFF establishes the invariant *)
Theorem huff_init_inv : Inv huff_init.
Proof.
  apply inv_b_sound. unfold inv_b, shape_b, freqs_b. rewrite !upto_upfrom.
  vm_compute. reflexivity.
Qed.
