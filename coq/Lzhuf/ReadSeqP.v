(* Lzhuf/ReadSeqP.v — the reader (Lzhuf/Dec.v) driven by an arbitrary sequence of Read buffer
   sizes (Lzhuf/ReadSeq.v: read_seq), in both directions, over the loop relation of DecP.v.
   Decoded (the tokens decoded so far are a parse of the bits consumed) is kept by every Read that
   raises no error: read_seq_sound (C08).  Ahead (the bits of well-formed tokens lie ahead, up to
   exactly the declared size) is kept by every Read, which therefore raises no error, and every
   nil Read is productive: read_seq_tokens. *)
From Coq Require Import Lia ZifyN ZifyNat ZifyBool.
From Verif Require Import Base.Bytes Base.BytesP Base.Arr Lzhuf.Huff Lzhuf.HuffInv Lzhuf.HuffInvP Lzhuf.HuffP
  Lzhuf.HuffWalkP Lzhuf.Enc Lzhuf.Crc Lzhuf.CrcP Lzhuf.Dec Lzhuf.DecP Lzhuf.LzP Lzhuf.Bits Lzhuf.BitsRP Lzhuf.Tokens Lzhuf.TokensP Lzhuf.ReadSeq
  Lzhuf.TokDecP Lzhuf.DecTermP gen.Tables.
Open Scope N_scope.

Definition tok_wf (t : token) : Prop :=
  match t with TLit b => b < 256 | TMatch pos len => pos < 4096 /\ lz_Threshold < len /\ len <= lz_F end.

Lemma dec_tok_conv h b t b' : Shape h -> RdOK b -> dec_tok h b = (t, b') -> berr b' = ErrNone ->
  tok_wf t /\ Bits.rbits b = tok_bits h t ++ Bits.rbits b' /\ RdOK b'.
Proof.
  intros SH OK H HE. unfold dec_tok in H. destruct (decode_char h b) as [[c h'] b1] eqn:EDC.
  destruct (N.ltb_spec c 256) as [Hc|Hc].
  - injection H as <- <-. destruct (decode_char_conv _ _ _ _ _ SH OK EDC HE) as (C1 & _ & C3 & C4).
    unfold tok_bits. cbn [tok_sym tok_wf]. rewrite app_nil_r. auto.
  - destruct (decode_position b1) as [p b2] eqn:EDP. injection H as <- <-.
    assert (E1 : berr b1 = ErrNone).
    { apply (steps_sticky _ _ (decode_position_steps b1)). rewrite EDP. exact HE. }
    destruct (decode_char_conv _ _ _ _ _ SH OK EDC E1) as (C1 & _ & C3 & C4).
    destruct (decode_position_conv _ _ _ C4 EDP HE) as (D1 & D2 & D3).
    unfold tok_bits, tok_sym, tok_wf, lz_Threshold, lz_F, lz_NumChar in *.
    replace (255 - 2 + (c - 255 + 2)) with c by lia. rewrite C3, D2, <- app_assoc.
    split; [lia|split; [reflexivity|exact D3]].
Qed.

(* ---------- soundness ---------- *)

Lemma loop_sound d room out toks d' out' : loop d room out toks d' out' ->
  Inv (rh d) -> RdOK (Dec.rbits d) -> rerr_ d' = ErrNone -> berr (Dec.rbits d') = ErrNone ->
  Inv (rh d') /\ RdOK (Dec.rbits d') /\ Forall tok_wf toks /\
  Bits.rbits (Dec.rbits d) = toks_bits (rh d) toks ++ Bits.rbits (Dec.rbits d').
Proof.
  induction 1 as [d room out _|d room out t b' w' l toks d' out' _ ET _ _ _ L2 IH|d room out t b' w0 l0 _ _ _ _];
    intros HI HR E1 E2; [cbn [toks_bits app]; auto| |discriminate].
  pose proof (inv_shape _ HI) as SH. cbn [after rh Dec.rbits] in IH.
  pose proof (steps_sticky _ _ (loop_steps _ _ _ _ _ _ L2) E2) as E0. cbn [after Dec.rbits] in E0.
  destruct (dec_tok_conv _ _ _ _ SH HR ET E0) as (Wt & Bt & OK').
  pose proof (dec_tok_sym (rh d) (Dec.rbits d) SH) as Hs. rewrite ET in Hs.
  destruct (IH (update_inv _ _ HI Hs) OK' E1 E2) as (P1 & P2 & P3 & P4).
  rewrite toks_bits_cons, Bt, P4, <- app_assoc. auto.
Qed.

(* the reader d has decoded exactly the tokens done from the body (pending bytes apart) *)
Definition Decoded (body : bytes) (d : reader) (done : list token) : Prop :=
  Inv (rh d) /\ RdOK (Dec.rbits d) /\ Forall tok_wf done /\
  bytes_bits body = toks_bits huff_init done ++ Bits.rbits (Dec.rbits d) /\
  rh d = tree_after huff_init done /\ (rtext d, rr d) = win_after win_init done /\
  rpos d = Z.of_nat (length (expand win_init done)).

Lemma loop_decoded body d done room out toks d' out' : Decoded body d done -> loop d room out toks d' out' ->
  rerr_ d' = ErrNone -> berr (Dec.rbits d') = ErrNone ->
  Decoded body d' (done ++ toks) /\
  Deliv room out (rpend d) out' (rpend d') (expand (win_after win_init done) toks) /\ hsize d' = hsize d.
Proof.
  intros (D1 & D2 & D3 & D4 & D5 & D6 & D7) L E1 E2.
  destruct (loop_sound _ _ _ _ _ _ L D1 D2 E1 E2) as (P1 & P2 & P3 & P4).
  destruct (loop_run _ _ _ _ _ _ L) as (Q1 & _ & _ & X & HD & Hp & _ & [Q|(_ & -> & Q3 & Q4)]); [congruence|].
  rewrite <- D6. split; [|auto].
  unfold Decoded.
  rewrite toks_bits_app, tree_after_app, win_after_app, expand_app, app_length, <- D5, <- D6, D4, P4, <- app_assoc.
  split; [exact P1|]. split; [exact P2|]. split; [apply Forall_app; auto|]. repeat split; try assumption. lia.
Qed.

(* the tokens rem lie ahead of d, up to exactly the declared size: the stop at the declared size
   never fires inside a match, and no error has occurred *)
Definition Ahead (pad : list bool) (d : reader) (rem : list token) : Prop :=
  Forall tok_ok rem /\ Bits.rbits (Dec.rbits d) = toks_bits (rh d) rem ++ pad /\
  (rpos d + Z.of_nat (length (expand (rtext d, rr d) rem)) = hsize d)%Z /\
  rerr_ d = ErrNone /\ berr (Dec.rbits d) = ErrNone.

(* ---------- completeness: the loop decodes what lies ahead, and nothing else ---------- *)
Lemma loop_ahead pad d room out toks d' out' : loop d room out toks d' out' ->
  Inv (rh d) -> RdOK (Dec.rbits d) -> forall rem, Ahead pad d rem ->
  exists rem', rem = toks ++ rem' /\ Ahead pad d' rem'.
Proof.
  assert (Tok : forall e t b' rem, Inv (rh e) -> RdOK (Dec.rbits e) -> Live e -> Ahead pad e rem ->
    dec_tok (rh e) (Dec.rbits e) = (t, b') ->
    exists rest, rem = t :: rest /\ tok_ok t /\ Forall tok_ok rest /\ RdOK b' /\ berr b' = ErrNone /\
      Bits.rbits b' = toks_bits (update (rh e) (tok_sym t)) rest ++ pad).
  { intros e t b' rem HI HR [_ Hlt] (A1 & A2 & A3 & A4 & A5) ET. destruct rem as [|t0 rest].
    { cbn [expand length] in A3. lia. }
    inversion A1 as [|? ? Hok Hrest]; subst. rewrite toks_bits_cons, <- app_assoc in A2.
    destruct (dec_tok_code _ _ _ _ (inv_shape _ HI) HR Hok A2) as (b0 & E0 & R0 & OK0 & Ee0).
    rewrite ET in E0. injection E0 as <- <-. exists rest. rewrite Ee0. auto 10. }
  induction 1 as [d room out _|d room out t b' w' l toks d' out' HL ET ES _ _ _ IH|d room out t b' w0 l0 HL ET Hsz Hl0];
    intros HI HR rem HA.
  - exists rem. auto.
  - destruct (Tok d t b' rem HI HR HL HA ET) as (rest & -> & Hok & Hrest & OK' & Ee & Eb).
    destruct HA as (_ & _ & A3 & A4 & _). rewrite expand_cons, ES, app_length in A3. cbn [fst snd] in A3.
    destruct (IH (update_inv _ _ HI (tok_sym_lt t Hok)) OK' rest) as (rem' & -> & HA').
    { unfold Ahead. cbn [after rh rtext rr Dec.rbits rerr_ rpos hsize]. destruct w'. cbn [fst snd] in *.
      repeat split; try assumption. lia. }
    exists rem'. auto.
  - destruct (Tok d t b' rem HI HR HL HA ET) as (rest & -> & _).
    destruct HA as (_ & _ & A3 & _). rewrite expand_cons, app_length in A3. lia.
Qed.

(* Read that returns nil: the loop has decoded some tokens toks *)
Lemma read_nil body d n done o d' : Decoded body d done -> read d n = (o, RNil, d') ->
  exists toks,
    (rerr_ d' = ErrNone -> berr (Dec.rbits d') = ErrNone ->
     Decoded body d' (done ++ toks) /\
     o ++ rpend d' = rpend d ++ expand (win_after win_init done) toks /\ hsize d' = hsize d) /\
    (forall pad rem, Ahead pad d rem -> exists rem', rem = toks ++ rem' /\ Ahead pad d' rem') /\
    steps (Dec.rbits d) (Dec.rbits d') /\ rcrc16 d' = rcrc16 d /\ hcrc d' = hcrc d.
Proof.
  intros HD H. apply read_RNil in H. destruct H as (_ & _ & _ & toks & d3 & o3 & L & -> & ->).
  exists toks. split; [|split; [|split]].
  - cbn [set_pend rerr_ Dec.rbits]. intros E1 E2.
    destruct (loop_decoded body (set_pend d _) done _ _ _ _ _ HD L E1 E2) as (D1 & [D2 D3] & D4).
    cbn [set_pend rpend hsize] in *. rewrite rev_involutive in D2, D3. rewrite D2, D3.
    split; [exact D1|]. split; [apply buf_split|exact D4].
  - intros pad rem HA. destruct HD as (HI & HR & _). exact (loop_ahead pad (set_pend d _) _ _ _ _ _ L HI HR rem HA).
  - exact (loop_steps _ _ _ _ _ _ L).
  - destruct (loop_run _ _ _ _ _ _ L) as (_ & L2 & L3 & _). auto.
Qed.

(* an error recorded by the reader or by its bit reader: every later Read fails *)
Definition Bad (d : reader) : Prop := rerr_ d <> ErrNone \/ berr (Dec.rbits d) <> ErrNone.

Lemma Bad_dec d : Bad d \/ rerr_ d = ErrNone /\ berr (Dec.rbits d) = ErrNone.
Proof.
  unfold Bad. destruct (rerr_ d); [|left; left; discriminate..].
  destruct (berr (Dec.rbits d)); [right; auto|left; right; discriminate..].
Qed.

Lemma read_bad d n : Bad d -> exists e o d', read d n = (o, RErr e, d').
Proof.
  intros B. destruct (read d n) as [[o st] d'] eqn:E. destruct st as [| |e]; [| |eauto].
  - apply read_RNil in E. destruct E as (Ed & Eb & _). destruct B; contradiction.
  - apply read_REof in E. destruct E as (Ed & Eb & _). destruct B; contradiction.
Qed.

Lemma read_seq_bad : forall sizes d acc out d', Bad d -> read_seq d sizes acc = (out, REof, d') -> False.
Proof.
  intros [|n rest] d acc out d' B H; cbn [read_seq] in H; [discriminate|].
  destruct (read_bad d n B) as [e [o [d1 E]]]. rewrite E in H. discriminate.
Qed.

Lemma read_seq_sound_gen body : forall sizes d acc done out d',
  Decoded body d done -> rev acc ++ rpend d = expand win_init done ->
  read_seq d sizes acc = (out, REof, d') ->
  exists done', Decoded body d' done' /\ out = expand win_init done' /\ rpend d' = [] /\
    hsize d' = hsize d /\ rpos d' = hsize d'.
Proof.
  induction sizes as [|n rest IH]; intros d acc done out d' HD HA H; cbn [read_seq] in H; [discriminate|].
  destruct (read d n) as [[o st] d1] eqn:ER. destruct st as [| |e]; [| |discriminate].
  - destruct (read_nil body d n done o d1 HD ER) as (toks & RS & _).
    destruct (Bad_dec d1) as [B|[E1 E2]]; [exfalso; eapply read_seq_bad; eassumption|].
    destruct (RS E1 E2) as (R1 & R2 & R3).
    apply IH with (done := done ++ toks) in H; [|exact R1|].
    + destruct H as [done' [F1 [F2 [F3 [F4 F5]]]]]. exists done'. rewrite F4, R3 in *. auto.
    + rewrite rev_append_rev, rev_app_distr, rev_involutive, <- app_assoc, R2, app_assoc, HA, expand_app.
      reflexivity.
  - apply read_REof in ER. destruct ER as (_ & _ & R3 & R2 & _ & ->).
    pose proof (f_equal (fun x => fst (fst x)) H) as H1. pose proof (f_equal snd H) as H2.
    cbn [fst snd] in H1, H2. subst d' out.
    exists done. rewrite R2, app_nil_r in HA. rewrite rev'_rev. auto.
Qed.

(* the reader the constructor returns for a single-chunk stream *)
Lemma new_reader_body crc c0 c1 x0 x1 x2 x3 body d : Forall (fun x => x < 256) body ->
  new_reader crc [(if crc then [c0; c1] else []) ++ [x0; x1; x2; x3] ++ body] = Some d ->
  Decoded body d [] /\ rpend d = [] /\ Tee (crc_feed 0 [x0; x1; x2; x3]) body (Dec.rbits d) /\
  rerr_ d = ErrNone /\ berr (Dec.rbits d) = ErrNone /\
  hsize d = i32_of_u32 (le_to_N [x0; x1; x2; x3]) /\ rcrc16 d = crc /\ hcrc d = le_to_N (if crc then [c0; c1] else []).
Proof.
  intros Hb E. rewrite new_reader_stream in E.
  destruct (i32_of_u32 (le_to_N [x0; x1; x2; x3]) <? 0)%Z; [discriminate|].
  pose proof (f_equal (fun o => match o with Some r => r | None => d end) E) as <-.
  destruct (bits_start_ok body (crc_feed 0 [x0; x1; x2; x3]) Hb) as [HR Hrb].
  unfold Decoded.
  cbn [rh rtext rr Dec.rbits rpos rpend rerr_ hsize rcrc16 hcrc toks_bits tree_after win_after fold_left expand length app].
  split; [auto 10 using huff_init_inv|]. split; [reflexivity|]. split; [|auto 6].
  exists []. cbn [bits_start src crcsum app]. rewrite concat_src. split; reflexivity.
Qed.

Lemma new_reader_decoded crc s d : Forall (fun x => x < 256) s -> new_reader crc [s] = Some d ->
  Decoded (body_part crc s) d [] /\ rpend d = [].
Proof.
  intros Hs H. destruct crc.
  - destruct s as [|c0 [|c1 [|x0 [|x1 [|x2 [|x3 body]]]]]];
      try (rewrite constructor_short in H by (cbn [concat length app]; lia); discriminate).
    do 6 apply Forall_inv_tail in Hs. destruct (new_reader_body true c0 c1 x0 x1 x2 x3 body d Hs H) as (A & B & _). auto.
  - destruct s as [|x0 [|x1 [|x2 [|x3 body]]]];
      try (rewrite constructor_short in H by (cbn [concat length app]; lia); discriminate).
    do 4 apply Forall_inv_tail in Hs. destruct (new_reader_body false 0 0 x0 x1 x2 x3 body d Hs H) as (A & B & _). auto.
Qed.

(* A Read with len(p) = 0 is harmless: read d 0 returns ([], REof, d) at the end of the data and
   otherwise ([], RNil, d) up to the double reversal of rpend, so no hypothesis on the sizes is
   made.  The hypothesis close_reader d' = ErrNone is NOT USED by the proof: Read returns io.EOF
   only when rerr = nil, the bit reader has no error, rpos = hsize and nothing is pending, which
   is already everything the conclusion needs; Close adds the CRC comparison only. *)
Theorem read_seq_sound : forall (crc : bool) (s : bytes) (d d' : reader) (sizes : list nat) (out : bytes),
  Forall (fun x => x < 256) s ->
  new_reader crc [s] = Some d ->
  read_seq d sizes [] = (out, REof, d') -> close_reader d' = ErrNone ->
  exists toks pad,
    Forall tok_wf toks /\ out = expand win_init toks /\
    bytes_bits (body_part crc s) = toks_bits huff_init toks ++ pad /\
    Z.of_nat (length out) = hsize d.
Proof.
  intros crc s d d' sizes out Hs Hn Hr Hc.
  destruct (new_reader_decoded crc s d Hs Hn) as [HD Hp].
  destruct (read_seq_sound_gen (body_part crc s) sizes d [] [] out d' HD) as [done [F1 [F2 [F3 [F4 F5]]]]].
  { rewrite Hp. reflexivity. }
  { exact Hr. }
  destruct F1 as [D1 [D2 [D3 [D4 [D5 [D6 D7]]]]]].
  exists done, (Bits.rbits (Dec.rbits d')).
  split; [exact D3|]. split; [exact F2|]. split; [exact D4|].
  rewrite F2, <- D7, F5, F4. reflexivity.
Qed.

(* ---------- completeness ---------- *)

(* every call returns nil and at least one byte until all that is pending or lies ahead has been
   read; the next call returns io.EOF *)
Lemma read_seq_ahead pad c0 body all : forall sizes d acc done rem,
  Decoded body d done -> Ahead pad d rem -> Tee c0 all (Dec.rbits d) ->
  rev acc ++ rpend d = expand win_init done -> Forall (fun n => (0 < n)%nat) sizes ->
  (length (rpend d) + length (expand (rtext d, rr d) rem) < length sizes)%nat ->
  exists d', read_seq d sizes acc = (expand win_init (done ++ rem), REof, d') /\
    Ahead pad d' [] /\ Tee c0 all (Dec.rbits d') /\ rpend d' = [] /\
    rcrc16 d' = rcrc16 d /\ hcrc d' = hcrc d.
Proof.
  induction sizes as [|n rest IH]; intros d acc done rem HD HA HT Hacc Hs Hf; [cbn [length] in Hf; lia|].
  pose proof (Forall_inv Hs) as Hn. pose proof (Forall_inv_tail Hs) as Hrest. cbv beta in Hn.
  pose proof HA as (A1 & _ & A3 & A4 & A5). cbn [read_seq].
  destruct (read d n) as [[o st] d1] eqn:ER. destruct st as [| |e].
  - pose proof (read_productive _ _ _ _ ER Hn ltac:(lia)) as Hprod.
    destruct (read_nil body d n done o d1 HD ER) as (toks & RS & RA & ST & C1 & C2).
    destruct (RA pad rem HA) as (rem' & -> & HA'). pose proof HA' as (_ & _ & _ & E1 & E2).
    destruct (RS E1 E2) as (R1 & R2 & R3).
    pose proof HD as (_ & _ & _ & _ & _ & D6 & _). pose proof R1 as (_ & _ & _ & _ & _ & D6' & _).
    (* what is pending or lies ahead has shrunk by the bytes returned, at least one *)
    rewrite expand_app, D6, <- win_after_app, <- D6', app_length in Hf.
    apply (f_equal (@length N)) in R2 as R2'. rewrite !app_length in R2'. cbn [length] in Hf.
    destruct (IH d1 (rev_append o acc) (done ++ toks) rem' R1 HA' (steps_tee _ _ _ _ ST HT))
      as (d' & F1 & F2 & F3 & F4 & F5 & F6); [|exact Hrest|lia|].
    + rewrite rev_append_rev, rev_app_distr, rev_involutive, <- app_assoc, R2, app_assoc, Hacc, expand_app. reflexivity.
    + exists d'. rewrite F1, <- app_assoc, F5, F6. auto 10.
  - apply read_REof in ER. destruct ER as (_ & _ & R3 & R2 & -> & ->).
    assert (E : expand (rtext d, rr d) rem = []) by (apply length_zero_iff_nil; lia).
    apply expand_nil in E; [|exact A1]. subst rem. rewrite R2 in Hacc. rewrite !app_nil_r in *.
    exists d. rewrite rev'_rev, Hacc. auto 10.
  - apply read_RErr in ER. destruct ER as (_ & Hne & [X|X] & _); congruence.
Qed.

(* after the last token the remaining bits are pad, fewer than 8: no byte is left in bufio's
   buffer or in the source, so all of body has been pulled and Tee gives the CRC of body *)
Lemma close_ok pad c0 body d : Ahead pad d [] -> Tee c0 body (Dec.rbits d) -> rpend d = [] -> (length pad < 8)%nat ->
  (rcrc16 d = true -> hcrc d = crc_feed (crc_feed c0 body) [0; 0]) -> close_reader d = ErrNone.
Proof.
  intros (_ & Hbits & Hpos & HE & HB) HT Hp Hpad Hc.
  unfold close_reader. rewrite HE, HB, Hp. cbn [expand length toks_bits app] in *.
  destruct HT as [pulled [T1 T2]].
  assert (Hrb : rbytes (Dec.rbits d) = []).
  { apply (f_equal (@length bool)) in Hbits. unfold Bits.rbits in Hbits.
    rewrite app_length, bits_msb_length, bytes_bits_length in Hbits.
    apply length_zero_iff_nil. lia. }
  unfold rbytes in Hrb. apply app_eq_nil in Hrb. destruct Hrb as [_ Hsrc].
  rewrite Hsrc, app_nil_r in T1. subst pulled.
  assert (Hsz : (hsize d =? rpos d - Z.of_nat 0)%Z = true) by (apply Z.eqb_eq; lia).
  rewrite Hsz. destruct (rcrc16 d).
  - rewrite T2, <- Hc by reflexivity. rewrite N.eqb_refl. reflexivity.
  - reflexivity.
Qed.

Theorem read_seq_tokens : forall (crc : bool) (toks : list token) (body : bytes) (pad : list bool) (sizes : list nat),
  Forall tok_ok toks -> Forall (fun x => x < 256) body ->
  bytes_bits body = toks_bits huff_init toks ++ pad -> (length pad < 8)%nat ->
  (Z.of_nat (length (expand win_init toks)) < 2147483648)%Z ->
  Forall (fun n => (0 < n)%nat) sizes -> (length (expand win_init toks) < length sizes)%nat ->
  let x := expand win_init toks in
  let size := le32 (N.of_nat (length x)) in
  let stream := (if crc then le16 (crc_impl (size ++ body)) else []) ++ size ++ body in
  exists d d', new_reader crc [stream] = Some d /\
    read_seq d sizes [] = (x, REof, d') /\ close_reader d' = ErrNone.
Proof.
  intros crc toks body pad sizes Htoks Hbody Hbits Hpad Hlen Hsizes Hcnt x size stream.
  set (n := N.of_nat (length x)) in *.
  assert (Hsz : i32_of_u32 (le_to_N size) = Z.of_nat (length x)).
  { unfold size. rewrite le32_roundtrip by (unfold n, x; lia). unfold i32_of_u32.
    destruct (N.ltb_spec n 2147483648); unfold n, x in *; lia. }
  set (cv := crc_impl (size ++ body)).
  assert (Hcv : cv < 65536).
  { apply crc_impl_lt. apply Forall_app. split; [apply le32_bytes|exact Hbody]. }
  assert (Esize : size = [n mod 256; (n / 256) mod 256; (n / 65536) mod 256; (n / 16777216) mod 256])
    by reflexivity.
  assert (EN : exists d, new_reader crc [stream] = Some d).
  { unfold stream, le16. rewrite Esize, new_reader_stream, <- Esize, Hsz.
    destruct (Z.ltb_spec (Z.of_nat (length x)) 0); [lia|]. eauto. }
  destruct EN as [d EN]. exists d. pose proof EN as EN'. unfold stream, le16 in EN'. rewrite Esize in EN'.
  apply new_reader_body in EN'; [|exact Hbody]. rewrite <- Esize in EN'.
  destruct EN' as (HD & Hp & HT & E1 & E2 & E3 & E4 & E5).
  pose proof HD as (_ & _ & _ & D4 & D5 & D6 & D7).
  cbn [toks_bits app tree_after win_after fold_left expand length] in D4, D5, D6, D7.
  destruct (read_seq_ahead pad (crc_feed 0 size) body body sizes d [] [] toks HD)
    as (d' & F1 & F2 & F3 & F4 & F5 & F6).
  { unfold Ahead. rewrite D5, D6, D7, E3, Hsz, <- D4. auto. }
  { exact HT. }
  { rewrite Hp. reflexivity. }
  { exact Hsizes. }
  { rewrite Hp, D6. cbn [length]. exact Hcnt. }
  exists d'. split; [exact EN|]. split; [exact F1|].
  apply (close_ok pad (crc_feed 0 size) body d' F2 F3 F4 Hpad).
  rewrite F5, F6, E4, E5, (crc_feed_app 0 size body). intros ->. exact (le_to_N_le16 cv Hcv).
Qed.

(* the io.Copy loop is a sequence of Reads of one size: S (S (length x)) of them suffice *)
Theorem read_all_tokens : forall (crc : bool) (toks : list token) (body : bytes) (pad : list bool) (bs : nat),
  Forall tok_ok toks ->
  Forall (fun x => x < 256) body ->
  bytes_bits body = toks_bits huff_init toks ++ pad -> (length pad < 8)%nat ->
  (Z.of_nat (length (expand win_init toks)) < 2147483648)%Z ->
  (0 < bs)%nat ->
  let x := expand win_init toks in
  let size := le32 (N.of_nat (length x)) in
  let stream := (if crc then le16 (crc_impl (size ++ body)) else []) ++ size ++ body in
  read_all crc stream bs (S (S (length x))) = Some (x, REof, ErrNone).
Proof.
  intros crc toks body pad bs Htoks Hbody Hbits Hpad Hlen Hbs x size stream.
  destruct (read_seq_tokens crc toks body pad (repeat bs (S (S (length x)))) Htoks Hbody Hbits Hpad Hlen)
    as [d [d' [HN [HR HC]]]].
  { apply Forall_forall. intros n Hn. apply repeat_spec in Hn. subst n. exact Hbs. }
  { rewrite repeat_length. fold x. lia. }
  unfold read_all. rewrite (HN : new_reader crc (@cons bytes stream nil) = Some d), read_all_loop_seq.
  rewrite (HR : read_seq d (repeat bs (S (S (length x)))) [] = (x, REof, d')), HC. reflexivity.
Qed.

(* a test of the statement of read_seq_sound *)
Example sound_test :
  match new_reader false [[3;0;0;0; 20;100;50;25;12;6]] with
  | Some d => let '(out, st, d') := read_seq d [2;0;5;1]%nat [] in
              (out, st, close_reader d', expand win_init [TLit 136; TLit 216; TLit 166],
               firstn 24 (bytes_bits [20;100;50;25;12;6]))
  | None => ([], RNil, ErrEOF, [], [])
  end = ([136; 216; 166], REof, ErrNone, [136; 216; 166],
         toks_bits huff_init [TLit 136; TLit 216; TLit 166]).
Proof. vm_compute. reflexivity. Qed.

Print Assumptions read_seq_tokens.
Print Assumptions read_all_tokens.
Print Assumptions read_seq_sound.
