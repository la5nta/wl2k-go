(* Lzhuf/HuffUpdateP.v — update (the swap loop of the adaptive Huffman tree) preserves the
   invariant of HuffInv.v: update_loop_inv, leaf_loopinv (assembled into update_inv in HuffP.v).

   An iteration (upd_step) either increments node c in place (Section Incr), or exchanges c
   with the last node l of equal frequency and increments l.  The exchange is seen as a
   relabelling of the two nodes (son' = son o sw, prnt' = sw o prnt on the meaningful indices,
   sw the transposition of c and l; relabel_loopinv) followed by an in-place increment of l,
   so that Section Incr serves both branches. *)
From Coq Require Import NArith Lia List Bool ZifyN ZifyNat ZifyBool.
From Verif Require Import Base.Bytes Base.Arr Lzhuf.Huff Lzhuf.HuffInv Lzhuf.HuffInvP gen.Tables.
Open Scope N_scope.

Lemma rsum_upd1 f g n a : a < N.of_nat n ->
  (forall x, x < N.of_nat n -> x <> a -> g x = f x) ->
  rsum g n + f a = rsum f n + g a.
Proof.
  induction n; intros Ha H; [lia|]. cbn [rsum].
  destruct (N.eq_dec a (N.of_nat n)) as [->|E].
  - rewrite (rsum_ext f g n) by (intros; apply H; lia). lia.
  - rewrite (H (N.of_nat n)) by lia.
    assert (rsum g n + f a = rsum f n + g a) by (apply IHn; [lia|intros; apply H; lia]). lia.
Qed.

Lemma rsum_swap f g n a b : a < N.of_nat n -> b < N.of_nat n -> a <> b ->
  g a = f b -> g b = f a ->
  (forall x, x < N.of_nat n -> x <> a -> x <> b -> g x = f x) ->
  rsum g n = rsum f n.
Proof.
  intros Ha Hb Hab Ga Gb H.
  set (m := fun x => if x =? a then f b else f x).
  assert (A : rsum m n + f a = rsum f n + m a).
  { apply rsum_upd1; [assumption|]. intros x _ Hx. unfold m. destruct (N.eqb_spec x a); [lia|reflexivity]. }
  assert (B : rsum g n + m b = rsum m n + g b).
  { apply rsum_upd1; [assumption|]. intros x Hx Hxb. unfold m.
    destruct (N.eqb_spec x a) as [->|E]; [assumption|apply H; assumption]. }
  assert (m a = f b) by (unfold m; rewrite N.eqb_refl; reflexivity).
  assert (m b = f b) by (unfold m; destruct (N.eqb_spec b a); [lia|reflexivity]).
  lia.
Qed.

Lemma scan_spec fr k t : k <= aget fr t -> forall fuel l0, l0 < t ->
  (N.to_nat (t - l0) <= fuel)%nat ->
  l0 <= update_scan fuel fr k l0 /\ update_scan fuel fr k l0 < t /\
  k <= aget fr (update_scan fuel fr k l0 + 1) /\
  forall x, l0 < x -> x <= update_scan fuel fr k l0 -> aget fr x < k.
Proof.
  intros Ht. induction fuel; intros l0 Hl Hfu; [lia|]. cbn [update_scan].
  destruct (N.ltb_spec (aget fr (l0 + 1)) k).
  - assert (l0 + 1 <> t) by (intro; subst; lia).
    destruct (IHfuel (l0 + 1)) as (A & B & C & D); [lia|lia|].
    repeat split; try lia. intros x Hx1 Hx2.
    destruct (N.eq_dec x (l0 + 1)); [subst; assumption|apply D; lia].
  - repeat split; try lia.
Qed.

Definition sw (c l x : N) : N := if x =? c then l else if x =? l then c else x.

Lemma sw_cases c l x :
  (x = c /\ sw c l x = l) \/ (x = l /\ sw c l x = c) \/ (x <> c /\ x <> l /\ sw c l x = x).
Proof. unfold sw. destruct (N.eqb_spec x c), (N.eqb_spec x l); lia. Qed.

Lemma sw_l c l : sw c l c = l.
Proof. destruct (sw_cases c l c); lia. Qed.
Lemma sw_r c l : sw c l l = c.
Proof. destruct (sw_cases c l l); lia. Qed.
Lemma sw_o c l x : x <> c -> x <> l -> sw c l x = x.
Proof. destruct (sw_cases c l x); lia. Qed.
Lemma sw_sym c l x : sw c l x = sw l c x.
Proof. destruct (sw_cases c l x), (sw_cases l c x); lia. Qed.
Lemma sw_invol c l x : sw c l (sw c l x) = x.
Proof. destruct (sw_cases c l x), (sw_cases c l (sw c l x)); lia. Qed.

Lemma Shape_relabel h h2 c l : Shape h -> c < l -> l < lz_R ->
  (aget (son h) l < lz_T -> aget (son h) l + 1 < c) ->
  (forall x, aget (son h2) x = aget (son h) (sw c l x)) ->
  (forall x, valid x -> aget (prnt h2) x = sw c l (aget (prnt h) x)) ->
  aget (prnt h2) lz_R = 0 ->
  Shape h2.
Proof.
  intros S Hcl Hl Hj Hs Hp HR.
  assert (Hsw : forall p, p <= lz_R -> sw c l p <= lz_R).
  { intros p Hp'. destruct (sw_cases c l p); lia. }
  assert (Hlow : forall p, p <= lz_R -> aget (son h) (sw c l p) < lz_T ->
            aget (son h) (sw c l p) + 1 < p).
  { intros p Hp' L. destruct (internal_son h S _ (Hsw p Hp') L) as (_ & A).
    destruct (sw_cases c l p) as [(?&E)|[(?&E)|(?&?&E)]]; rewrite E in *; subst; [auto|lia|lia]. }
  constructor.
  - intros p Hp'. rewrite Hs.
    destruct (sh_son h S _ (Hsw p Hp')) as [(A1&A2&_)|A]; [left|right; assumption].
    split; [assumption|]. split; [assumption|]. apply Hlow; assumption.
  - intros p Hp' L. rewrite Hs in *. pose proof (Hlow p Hp' L) as A.
    destruct (sh_down h S _ (Hsw p Hp') L) as [B1 B2].
    rewrite !Hp, B1, B2, sw_invol by (left; lia). split; reflexivity.
  - intros p Hp' L. rewrite Hs in *.
    destruct (sh_son h S _ (Hsw p Hp')) as [|A]; [lia|].
    rewrite Hp, (sh_leaf h S _ (Hsw p Hp') L), sw_invol by (right; assumption). reflexivity.
  - intros k Hk. rewrite Hp, Hs, sw_invol by (left; assumption).
    destruct (sh_up h S k Hk) as (A & B). split; [apply Hsw; assumption|assumption].
  - intros s Hs'. rewrite Hp, Hs, sw_invol by (right; lia).
    destruct (sh_sym h S s Hs') as (A & B). split; [apply Hsw; assumption|assumption].
  - assumption.
  - rewrite Hs, sw_o by lia. apply (sh_rootint h S).
Qed.

Section Incr.
  Variables (h h' : huff) (c : N).
  Hypothesis HL : LoopInv h c.
  Hypothesis Hf : forall x, aget (freq h') x =
    if x =? c then aget (freq h) c + 1 else aget (freq h) x.
  Hypothesis Hs : son h' = son h.
  Hypothesis Hp : prnt h' = prnt h.

  Lemma incr_c : aget (freq h') c = aget (freq h) c + 1.
  Proof. rewrite Hf, N.eqb_refl. reflexivity. Qed.

  Lemma incr_o x : x <> c -> aget (freq h') x = aget (freq h) x.
  Proof. intros E. rewrite Hf. destruct (N.eqb_spec x c); [contradiction|reflexivity]. Qed.

  Lemma incr_shape : Shape h'.
  Proof. destruct (li_shape _ _ HL). constructor; rewrite ?Hs, ?Hp; assumption. Qed.

  Lemma incr_leafsum :
    leafsum h' = leafsum h + (if lz_T <=? aget (son h) c then 1 else 0).
  Proof.
    unfold leafsum.
    assert (A : rsum (leaf_freq h') natT + leaf_freq h c = rsum (leaf_freq h) natT + leaf_freq h' c).
    { apply rsum_upd1.
      - rewrite natT_N. pose proof (li_c _ _ HL). tlia.
      - intros x _ Hx. unfold leaf_freq. rewrite Hs, incr_o by assumption. reflexivity. }
    unfold leaf_freq in A at 2 4. rewrite Hs, incr_c in A.
    destruct (lz_T <=? aget (son h) c); lia.
  Qed.

  (* the sum rule after the increment: at c the increment makes up the deficit; elsewhere,
     except at the parent of c, neither the node nor its children have changed *)
  Lemma incr_sum q : q <= lz_R -> (c < lz_R -> q <> aget (prnt h) c) -> sum_at h' q.
  Proof.
    intros Hq HqP L. rewrite Hs in L |- *. pose proof (li_shape _ _ HL) as S.
    destruct (internal_son h S q Hq L) as (_ & B).
    destruct (N.eq_dec q c) as [E|Hqc].
    - subst q. rewrite incr_c, !incr_o by lia. apply (li_def _ _ HL L).
    - destruct (sh_down h S q Hq L) as (D1 & D2).
      assert (N1 : aget (son h) q <> c) by (intros E; apply HqP; [lia|congruence]).
      assert (N2 : aget (son h) q + 1 <> c) by (intros E; apply HqP; [lia|congruence]).
      rewrite !incr_o by assumption. apply (li_sum _ _ HL q Hq Hqc L).
  Qed.

  Lemma incr_freqs top : (c = lz_R -> aget (freq h) lz_R + 1 <= top) ->
    (c < lz_R -> aget (freq h) c + 1 <= aget (freq h) (c + 1)) ->
    (c < lz_R -> aget (freq h) lz_R <= top) ->
    Freqs h' top.
  Proof.
    intros H1 H2 H3. pose proof (li_freqs _ _ HL) as F. pose proof (li_c _ _ HL) as Hc.
    constructor.
    - intros i Hi. pose proof (fq_sorted _ _ F i Hi) as A.
      destruct (N.eq_dec i c) as [E|N1].
      + subst i. rewrite incr_c, incr_o by lia. apply H2, Hi.
      + rewrite (incr_o i N1). destruct (N.eq_dec (i + 1) c) as [E|N2].
        * rewrite E in *. rewrite incr_c. lia.
        * rewrite incr_o by assumption. exact A.
    - rewrite incr_o by tlia. apply (fq_sentinel _ _ F).
    - intros i Hi. pose proof (fq_pos _ _ F i Hi) as A.
      destruct (N.eq_dec i c) as [E|N1]; [subst i; rewrite incr_c; lia|rewrite incr_o; assumption].
    - destruct (N.eq_dec lz_R c) as [E|E].
      + rewrite E at 1. rewrite incr_c, <- E. apply H1. symmetry. assumption.
      + rewrite incr_o by assumption. apply H3. lia.
  Qed.

  Lemma incr_root : c = lz_R -> Inv h'.
  Proof.
    intros E. pose proof (li_shape _ _ HL) as S. pose proof (li_freqs _ _ HL) as F.
    constructor.
    - apply incr_shape.
    - apply incr_freqs; try lia. intros _. pose proof (fq_max _ _ F). tlia.
    - intros q Hq. apply incr_sum; [assumption|lia].
    - rewrite incr_leafsum, (li_total _ _ HL), <- E, incr_c.
      pose proof (sh_rootint h S) as RI. rewrite <- E in RI.
      destruct (N.leb_spec lz_T (aget (son h) c)); [lia|].
      destruct (N.ltb_spec (aget (son h) c) lz_T); lia.
  Qed.

  Lemma incr_next : c < lz_R -> aget (freq h) c + 1 <= aget (freq h) (c + 1) ->
    LoopInv h' (aget (prnt h) c) /\ c < aget (prnt h) c.
  Proof.
    intros Hc Hk. pose proof (li_shape _ _ HL) as S. pose proof (li_freqs _ _ HL) as F.
    destruct (up_step h S c Hc) as (U1 & HcP & U2 & U3).
    split; [|assumption]. constructor.
    - apply incr_shape.
    - apply incr_freqs; try lia. intros _. apply (fq_max _ _ F).
    - assumption.
    - intros q Hq HqP. apply incr_sum; [assumption|intros _; assumption].
    - (* the parent of c now lacks the 1 that c has gained *)
      rewrite !Hs. intros _. rewrite (incr_o (aget (prnt h) c)) by lia.
      pose proof (li_sum _ _ HL _ U1 ltac:(lia) U2) as A.
      destruct (N.odd c).
      + rewrite incr_o by lia. replace (aget (son h) (aget (prnt h) c) + 1) with c in A |- * by lia.
        rewrite incr_c. lia.
      + replace (aget (son h) (aget (prnt h) c)) with c in A |- * by lia.
        rewrite incr_c, incr_o by lia. lia.
    - rewrite Hs, incr_leafsum, (li_total _ _ HL), incr_o by lia.
      destruct (N.ltb_spec (aget (son h) (aget (prnt h) c)) lz_T); [|lia].
      destruct (N.leb_spec lz_T (aget (son h) c)); destruct (N.ltb_spec (aget (son h) c) lz_T); lia.
  Qed.
End Incr.

(* exchanging the labels c and l of two nodes of equal frequency moves the deficit to l *)
Lemma relabel_loopinv h h2 c l : LoopInv h c -> c < l -> l < lz_R ->
  aget (freq h) l = aget (freq h) c ->
  (aget (son h) l < lz_T -> aget (son h) l + 1 < c) ->
  (forall x, aget (freq h2) x = aget (freq h) x) ->
  (forall x, aget (son h2) x = aget (son h) (sw c l x)) ->
  (forall x, valid x -> aget (prnt h2) x = sw c l (aget (prnt h) x)) ->
  aget (prnt h2) lz_R = 0 ->
  LoopInv h2 l.
Proof.
  intros HL Hcl Hl Hfl Hj Hf Hs Hp HR.
  pose proof (li_shape _ _ HL) as S. pose proof (li_freqs _ _ HL) as F.
  constructor.
  - apply (Shape_relabel h h2 c l); assumption.
  - constructor.
    + intros i Hi. rewrite !Hf. apply (fq_sorted _ _ F); assumption.
    + rewrite Hf. apply (fq_sentinel _ _ F).
    + intros i Hi. rewrite Hf. apply (fq_pos _ _ F); assumption.
    + rewrite Hf. apply (fq_max _ _ F).
  - lia.
  - intros q Hq Hql. unfold sum_at. rewrite Hs, !Hf.
    destruct (sw_cases c l q) as [(E1&E)|[(E1&E)|(E1&E2&E)]]; rewrite E.
    + subst q. rewrite <- Hfl. apply (li_sum _ _ HL l); lia.
    + contradiction.
    + apply (li_sum _ _ HL q); assumption.
  - rewrite Hs, sw_r, !Hf, Hfl. apply (li_def _ _ HL).
  - rewrite Hs, sw_r, Hf, <- (li_total _ _ HL). unfold leafsum.
    apply (rsum_swap _ _ _ c l); try (rewrite natT_N; tlia); try lia.
    + unfold leaf_freq. rewrite Hs, Hf, sw_l, Hfl. reflexivity.
    + unfold leaf_freq. rewrite Hs, Hf, sw_r, Hfl. reflexivity.
    + intros x _ A B. unfold leaf_freq. rewrite Hs, Hf, sw_o by assumption. reflexivity.
Qed.

Definition incr (h : huff) (c : N) : huff :=
  {| freq := aset (freq h) c (aget (freq h) c + 1); prnt := prnt h; son := son h |}.

Definition swapst (h : huff) (c l : N) : huff :=
  let fr := aset (freq h) c (aget (freq h) c + 1) in
  let k := aget fr c in
  let fr2 := aset (aset fr c (aget fr l)) l k in
  let i := aget (son h) c in
  let p1 := aset (prnt h) i l in
  let p2 := if i <? lz_T then aset p1 (i + 1) l else p1 in
  let j := aget (son h) l in
  let s1 := aset (son h) l i in
  let p3 := aset p2 j c in
  let p4 := if j <? lz_T then aset p3 (j + 1) c else p3 in
  let s2 := aset s1 c j in
  {| freq := fr2; prnt := p4; son := s2 |}.

Definition noswap_cond (h : huff) (c : N) : bool :=
  (aget (freq (incr h c)) c <=? aget (freq (incr h c)) (c + 1)) || (lz_T + 1 <=? c + 2).

Definition scan_of (h : huff) (c : N) : N :=
  update_scan natT (freq (incr h c)) (aget (freq (incr h c)) c) (c + 1).

(* one iteration: the new state and the node to increment next (0 after the root) *)
Definition upd_step (h : huff) (c : N) : huff * N :=
  if noswap_cond h c then (incr h c, aget (prnt h) c)
  else let h' := swapst h c (scan_of h c) in (h', aget (prnt h') (scan_of h c)).

Lemma update_loop_S f h c :
  update_loop (S f) h c =
  if snd (upd_step h c) =? 0 then fst (upd_step h c)
  else update_loop f (fst (upd_step h c)) (snd (upd_step h c)).
Proof.
  unfold upd_step, noswap_cond, scan_of, swapst, incr. cbn [update_loop freq].
  destruct ((_ <=? _) || _); reflexivity.
Qed.

Lemma swapst_freq h c l : c <> l -> aget (freq h) l = aget (freq h) c ->
  forall x, aget (freq (swapst h c l)) x =
            if x =? l then aget (freq h) l + 1 else aget (freq h) x.
Proof.
  intros Hcl Hfl x. unfold swapst. cbn [freq].
  rewrite aget_aset_same, (aget_aset_other _ c l) by assumption. rewrite !aget_aset, Hfl.
  destruct (x =? l); [reflexivity|]. destruct (N.eqb_spec x c) as [->|]; reflexivity.
Qed.

Lemma swapst_son h c l x : aget (son (swapst h c l)) x = aget (son h) (sw c l x).
Proof.
  unfold swapst, sw. cbn [son]. rewrite !aget_aset.
  destruct (x =? c); [reflexivity|]. destruct (x =? l); reflexivity.
Qed.

Lemma swapst_prnt_kids h c l :
  prnt (swapst h c l) =
  set_kids (set_kids (prnt h) (aget (son h) c) l) (aget (son h) l) c.
Proof. reflexivity. Qed.

Lemma swapst_prnt h c l : Shape h -> c < l -> l < lz_R ->
  forall x, valid x -> aget (prnt (swapst h c l)) x = sw c l (aget (prnt h) x).
Proof.
  intros S Hcl Hl x V.
  rewrite swapst_prnt_kids, !aget_set_kids, !(kidb_prnt h) by (assumption || lia).
  symmetry. apply sw_sym.
Qed.

Lemma swapst_prnt_R h c l : Shape h -> c < l -> l < lz_R ->
  aget (prnt (swapst h c l)) lz_R = 0.
Proof.
  intros S Hcl Hl.
  rewrite swapst_prnt_kids, !aget_set_kids, !(kidb_root h) by (assumption || lia).
  apply (sh_root h S).
Qed.

Lemma swap_step h c l : LoopInv h c -> c < l -> l < lz_R ->
  aget (freq h) l = aget (freq h) c ->
  aget (freq h) l + 1 <= aget (freq h) (l + 1) ->
  (aget (son h) l < lz_T -> aget (son h) l + 1 < c) ->
  LoopInv (swapst h c l) (aget (prnt h) l) /\ l < aget (prnt h) l /\
  aget (prnt (swapst h c l)) l = aget (prnt h) l.
Proof.
  intros HL Hcl Hl Hfl Hk Hj. pose proof (li_shape _ _ HL) as S.
  set (h2 := {| freq := freq h; prnt := prnt (swapst h c l); son := son (swapst h c l) |}).
  assert (L2 : LoopInv h2 l).
  { apply (relabel_loopinv h h2 c l); try assumption.
    - reflexivity.
    - apply swapst_son.
    - apply swapst_prnt; assumption.
    - apply swapst_prnt_R; assumption. }
  assert (P : aget (prnt (swapst h c l)) l = aget (prnt h) l).
  { rewrite swapst_prnt by (try assumption; left; assumption).
    destruct (up_step h S l Hl) as (_ & U & _). apply sw_o; lia. }
  destruct (incr_next h2 (swapst h c l) l L2) as [A B].
  - unfold h2. cbn [freq]. apply swapst_freq; [lia|assumption].
  - reflexivity.
  - reflexivity.
  - assumption.
  - assumption.
  - unfold h2 in A, B. cbn [prnt] in A, B. rewrite P in A, B. split; [assumption|split; assumption].
Qed.

Lemma incr_freq_c h c : aget (freq (incr h c)) c = aget (freq h) c + 1.
Proof. apply aget_aset_same. Qed.

Lemma incr_freq_o h c x : x <> c -> aget (freq (incr h c)) x = aget (freq h) x.
Proof. intros E. apply aget_aset_other. congruence. Qed.

Lemma noswap_facts h c : LoopInv h c -> noswap_cond h c = true -> c < lz_R ->
  aget (freq h) c + 1 <= aget (freq h) (c + 1).
Proof.
  intros HL Hc HcR. unfold noswap_cond in Hc.
  rewrite incr_freq_c, incr_freq_o in Hc by lia. tlia.
Qed.

Lemma swap_facts h c : LoopInv h c -> noswap_cond h c = false ->
  c < scan_of h c /\ scan_of h c < lz_R /\
  aget (freq h) (scan_of h c) = aget (freq h) c /\
  aget (freq h) (scan_of h c) + 1 <= aget (freq h) (scan_of h c + 1) /\
  (aget (son h) (scan_of h c) < lz_T -> aget (son h) (scan_of h c) + 1 < c).
Proof.
  intros HL Hc. pose proof (li_shape _ _ HL) as S. pose proof (li_freqs _ _ HL) as F.
  pose proof (li_c _ _ HL) as HcR. pose proof (fq_mono h _ F) as M.
  unfold noswap_cond in Hc. unfold scan_of.
  rewrite incr_freq_c in *. rewrite incr_freq_o in Hc by lia.
  assert (HcR' : c < lz_R) by tlia.
  assert (HT : aget (freq h) c + 1 <= aget (freq (incr h c)) lz_T).
  { rewrite incr_freq_o, (fq_sentinel _ _ F) by tlia. pose proof (fq_le_top _ _ F c HcR). tlia. }
  destruct (scan_spec _ _ lz_T HT natT (c + 1)) as (A & B & C & D);
    [tlia|rewrite <- natT_N; lia|].
  set (l := update_scan natT (freq (incr h c)) (aget (freq h) c + 1) (c + 1)) in *. clearbody l.
  assert (HlR : l <= lz_R) by tlia.
  rewrite incr_freq_o in C by lia.
  assert (Hlt : aget (freq h) l < aget (freq h) c + 1).
  { destruct (N.eq_dec l (c + 1)) as [->|E]; [lia|].
    specialize (D l ltac:(lia) ltac:(lia)). rewrite incr_freq_o in D by lia. assumption. }
  pose proof (M c l ltac:(lia) HlR) as Hge.
  (* the parent of c is heavier, so l is below it *)
  destruct (up_step h S c HcR') as (U1 & U2 & _).
  pose proof (parent_freq h _ c S F HcR' (li_sum _ _ HL _ U1 ltac:(lia))) as HP.
  assert (HlP : l < aget (prnt h) c).
  { destruct (N.lt_ge_cases l (aget (prnt h) c)) as [|G]; [assumption|].
    pose proof (M _ l G HlR). lia. }
  repeat split; try lia.
  (* l is as heavy as c, so its children are below c *)
  intros L. destruct (internal_son h S l HlR L) as (_ & SL).
  pose proof (li_sum _ _ HL l HlR ltac:(lia) L) as Q.
  pose proof (fq_pos _ _ F (aget (son h) l) ltac:(lia)).
  destruct (N.lt_ge_cases (aget (son h) l + 1) c) as [|G]; [assumption|].
  pose proof (M c _ G ltac:(lia)). lia.
Qed.

Lemma upd_step_inv h c : LoopInv h c ->
  if snd (upd_step h c) =? 0 then Inv (fst (upd_step h c))
  else LoopInv (fst (upd_step h c)) (snd (upd_step h c)) /\ c < snd (upd_step h c).
Proof.
  intros HL. pose proof (li_shape _ _ HL) as S. pose proof (li_c _ _ HL) as HcR.
  unfold upd_step. destruct (noswap_cond h c) eqn:Hc; cbn [fst snd].
  - assert (Hf : forall x, aget (freq (incr h c)) x =
                   if x =? c then aget (freq h) c + 1 else aget (freq h) x).
    { intros x. apply aget_aset. }
    destruct (N.eq_dec c lz_R) as [E|E].
    + replace (aget (prnt h) c) with 0 by (rewrite E; symmetry; apply (sh_root h S)).
      cbn [N.eqb].
      apply (incr_root h (incr h c) c HL Hf); [reflexivity|reflexivity|assumption].
    + assert (HcR' : c < lz_R) by lia.
      destruct (incr_next h (incr h c) c HL Hf) as [A B];
        [reflexivity|reflexivity|assumption|apply noswap_facts; assumption|].
      destruct (N.eqb_spec (aget (prnt h) c) 0); [lia|]. split; assumption.
  - destruct (swap_facts h c HL Hc) as (A1 & A2 & A3 & A4 & A5).
    destruct (swap_step h c (scan_of h c) HL A1 A2 A3 A4 A5) as (B1 & B2 & B3).
    rewrite B3. destruct (N.eqb_spec (aget (prnt h) (scan_of h c)) 0); [lia|].
    split; [assumption|lia].
Qed.

(* every step goes to a higher node, none above R: this is why update's fuel S natT suffices *)
Theorem update_loop_inv : forall fuel h c,
  LoopInv h c -> (N.to_nat (lz_R - c) < fuel)%nat -> Inv (update_loop fuel h c).
Proof.
  induction fuel; intros h c HL Hfu; [lia|].
  rewrite update_loop_S. pose proof (upd_step_inv h c HL) as U.
  destruct (snd (upd_step h c) =? 0); [exact U|]. destruct U as [L Hcc].
  apply IHfuel; [exact L|]. pose proof (li_c _ _ L). lia.
Qed.

Theorem leaf_loopinv : forall h c,
  Inv h -> aget (freq h) lz_R < lz_MaxFreq -> c < lz_NumChar ->
  LoopInv h (aget (prnt h) (c + lz_T)).
Proof.
  intros h c I Hm Hc. pose proof (inv_shape _ I) as S. pose proof (inv_freqs _ I) as F.
  destruct (leaf_node h S c Hc) as (A & B).
  constructor.
  - assumption.
  - constructor; try apply F. lia.
  - lia.
  - intros p Hp _. apply (inv_sum _ I); assumption.
  - rewrite B. lia.
  - rewrite (inv_total _ I), B. destruct (N.ltb_spec (c + lz_T) lz_T); lia.
Qed.

Print Assumptions update_loop_inv.
Print Assumptions leaf_loopinv.
