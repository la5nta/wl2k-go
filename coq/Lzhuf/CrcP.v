(* Lzhuf/CrcP.v — the table driven, zero-augmented CRC of lzhuf/crc.go equals the bitwise
   CRC-16/XMODEM for every byte string.  One shift of the bitwise CRC is GF(2)-linear, so eight
   shifts are; a value below 256 is only shifted; with the 256 table entries checked by
   evaluation this describes the eight-fold shift of every 16-bit state, and the rest is
   induction over the message. *)
From Coq Require Import Lia ZifyN ZifyNat ZifyBool.
From Verif Require Import Base.Bytes Lzhuf.Crc gen.Tables.
Open Scope N_scope.

Definition S8 (s : N) : N := iter 8 xm_shift s.
Definition tab (i : N) : N := nth (N.to_nat i) lz_crc16tab 0.

Definition range (n : nat) : list N := map N.of_nat (seq 0 n).

Lemma in_range n x : x < N.of_nat n -> In x (range n).
Proof.
  intros H. unfold range. apply in_map_iff. exists (N.to_nat x). split; [lia|].
  apply in_seq. lia.
Qed.

Definition p_table (i : N) : bool := tab i =? S8 (N.shiftl i 8).
Lemma table_all : forall i, In i (range 256) -> p_table i = true.
Proof. apply forallb_forall. vm_compute. reflexivity. Qed.

Lemma tab_spec i : i < 256 -> tab i = S8 (N.shiftl i 8).
Proof. intros H. apply N.eqb_eq. apply (table_all i). apply in_range. exact H. Qed.

Lemma lt_pow2_bits x n : x < 2 ^ n -> forall m, n <= m -> N.testbit x m = false.
Proof.
  intros H m Hm. destruct (N.eq_dec x 0) as [->|Hx]; [apply N.bits_0|].
  apply N.bits_above_log2. apply N.lt_le_trans with n; [|exact Hm].
  apply N.log2_lt_pow2; lia.
Qed.

Lemma bits_lt_pow2 x n : (forall m, n <= m -> N.testbit x m = false) -> x < 2 ^ n.
Proof.
  intros H. destruct (N.eq_dec x 0) as [->|Hx]; [apply N.neq_0_lt_0, N.pow_nonzero; discriminate|].
  apply N.log2_lt_pow2; [lia|].
  destruct (N.lt_ge_cases (N.log2 x) n) as [Hl|Hl]; [exact Hl|].
  specialize (H (N.log2 x) Hl). rewrite N.bit_log2 in H by exact Hx. discriminate.
Qed.

Lemma lxor_lt x y n : x < 2 ^ n -> y < 2 ^ n -> N.lxor x y < 2 ^ n.
Proof.
  intros Hx Hy. apply bits_lt_pow2. intros m Hm. rewrite N.lxor_spec.
  rewrite (lt_pow2_bits x n Hx m Hm), (lt_pow2_bits y n Hy m Hm). reflexivity.
Qed.

Lemma land_lxor_l x y m : N.land (N.lxor x y) m = N.lxor (N.land x m) (N.land y m).
Proof.
  apply N.bits_inj. intros k. rewrite N.land_spec, !N.lxor_spec, !N.land_spec.
  destruct (N.testbit x k), (N.testbit y k), (N.testbit m k); reflexivity.
Qed.

Lemma xm_shift_lxor x y : xm_shift (N.lxor x y) = N.lxor (xm_shift x) (xm_shift y).
Proof.
  unfold xm_shift. rewrite N.lxor_spec, N.shiftl_lxor, land_lxor_l.
  set (a := N.land (N.shiftl x 1) 65535). set (b := N.land (N.shiftl y 1) 65535).
  destruct (N.testbit x 15), (N.testbit y 15); cbn [xorb]; apply N.bits_inj; intros k;
    rewrite !N.lxor_spec; destruct (N.testbit a k), (N.testbit b k), (N.testbit 4129 k); reflexivity.
Qed.

Lemma iter_lxor (f : N -> N) : (forall x y, f (N.lxor x y) = N.lxor (f x) (f y)) ->
  forall n x y, iter n f (N.lxor x y) = N.lxor (iter n f x) (iter n f y).
Proof. intros Hf n. induction n as [|n IH]; intros x y; cbn [iter]; [reflexivity|]. rewrite Hf. apply IH. Qed.

Lemma S8_lxor x y : S8 (N.lxor x y) = N.lxor (S8 x) (S8 y).
Proof. apply iter_lxor. exact xm_shift_lxor. Qed.

Lemma xm_shift_lt x : xm_shift x < 65536.
Proof.
  assert (H : N.land (N.shiftl x 1) 65535 < 2 ^ 16).
  { change 65535 with (N.ones 16). rewrite N.land_ones. apply N.mod_lt. discriminate. }
  unfold xm_shift. destruct (N.testbit x 15); [apply (lxor_lt _ _ 16); [exact H|reflexivity]|exact H].
Qed.

Lemma S8_lt s : S8 s < 65536.
Proof.
  unfold S8. cbn [iter]. apply xm_shift_lt.
Qed.

Lemma iter_shift_small k : forall x, N.shiftl x (N.of_nat k) < 65536 ->
  iter k xm_shift x = N.shiftl x (N.of_nat k).
Proof.
  induction k as [|k IH]; intros x Hx; cbn [iter]; [symmetry; apply N.shiftl_0_r|].
  assert (Hs : N.shiftl (N.shiftl x 1) (N.of_nat k) < 65536).
  { rewrite N.shiftl_shiftl. replace (1 + N.of_nat k) with (N.of_nat (S k)) by lia. exact Hx. }
  assert (E : xm_shift x = N.shiftl x 1).
  { unfold xm_shift. replace (N.testbit x 15) with false.
    2:{ symmetry. rewrite <- (N.shiftl_spec_alt x (N.of_nat (S k)) 15). apply (lt_pow2_bits _ 16 Hx). lia. }
    change 65535 with (N.ones 16). rewrite N.land_ones. apply N.mod_small.
    apply N.le_lt_trans with (2 := Hs). rewrite (N.shiftl_mul_pow2 _ (N.of_nat k)).
    rewrite <- (N.mul_1_r (N.shiftl x 1)) at 1. apply N.mul_le_mono_l.
    pose proof (N.pow_nonzero 2 (N.of_nat k)). lia. }
  rewrite E, (IH _ Hs), N.shiftl_shiftl. f_equal. lia.
Qed.

Lemma S8_low l : l < 256 -> S8 l = N.shiftl l 8.
Proof.
  intros H. apply (iter_shift_small 8). rewrite N.shiftl_mul_pow2. change (2 ^ N.of_nat 8) with 256. lia.
Qed.

Lemma split_byte s : s = N.lxor (N.shiftl (N.shiftr s 8) 8) (N.land s 255).
Proof.
  apply N.bits_inj. intros k. rewrite N.lxor_spec, N.land_spec. change 255 with (N.ones 8).
  destruct (N.lt_ge_cases k 8) as [Hk|Hk].
  - rewrite N.shiftl_spec_low, N.ones_spec_low, andb_true_r by exact Hk. symmetry. apply xorb_false_l.
  - rewrite N.shiftl_spec_high', N.shiftr_spec', N.ones_spec_high, andb_false_r, xorb_false_r by exact Hk.
    f_equal. lia.
Qed.

Lemma shiftr8_lt x : x < 65536 -> N.shiftr x 8 < 256.
Proof. intros H. rewrite N.shiftr_div_pow2. apply N.div_lt_upper_bound; [discriminate|exact H]. Qed.

Lemma land255_lt x : N.land x 255 < 256.
Proof. change 255 with (N.ones 8). rewrite N.land_ones. apply N.mod_lt. discriminate. Qed.

Lemma land255_small x : x < 256 -> N.land x 255 = x.
Proof. intros H. change 255 with (N.ones 8). rewrite N.land_ones. apply N.mod_small. exact H. Qed.

Lemma state_spec s : s < 65536 ->
  S8 s = N.lxor (tab (N.shiftr s 8)) (N.shiftl (N.land s 255) 8) /\ S8 s < 65536 /\ udp_crc16 s 0 = S8 s.
Proof.
  intros H.
  assert (E : S8 s = N.lxor (tab (N.shiftr s 8)) (N.shiftl (N.land s 255) 8)).
  { rewrite (split_byte s) at 1. rewrite S8_lxor, (S8_low _ (land255_lt s)), <- tab_spec by (apply shiftr8_lt; exact H).
    reflexivity. }
  split; [exact E|]. split; [apply S8_lt|].
  unfold udp_crc16. rewrite N.lxor_0_r, (land255_small _ (shiftr8_lt s H)), E. fold (tab (N.shiftr s 8)).
  rewrite N.lxor_comm. f_equal.
  apply N.bits_inj. intros k. rewrite N.land_spec.
  destruct (N.lt_ge_cases k 8) as [Hk|Hk].
  - rewrite !N.shiftl_spec_low by exact Hk. reflexivity.
  - rewrite !N.shiftl_spec_high' by exact Hk. rewrite N.land_spec.
    change 65280 with (N.shiftl (N.ones 8) 8). rewrite N.shiftl_spec_high' by exact Hk. reflexivity.
Qed.

Lemma tab_linear i j : i < 256 -> j < 256 -> tab (N.lxor i j) = N.lxor (tab i) (tab j).
Proof.
  intros Hi Hj. rewrite !tab_spec by (try apply (lxor_lt _ _ 8); assumption).
  rewrite N.shiftl_lxor. apply S8_lxor.
Qed.

Lemma shiftr8_high x b : x < 65536 -> b < 256 ->
  N.shiftr (N.lxor x (N.shiftl b 8)) 8 = N.lxor (N.shiftr x 8) b.
Proof. intros Hx Hb. rewrite N.shiftr_lxor, N.shiftr_shiftl_l by lia. rewrite N.sub_diag, N.shiftl_0_r. reflexivity. Qed.

Lemma land255_high x b : N.land (N.lxor x (N.shiftl b 8)) 255 = N.land x 255.
Proof.
  apply N.bits_inj. intros m. rewrite !N.land_spec, N.lxor_spec.
  destruct (N.lt_ge_cases m 8) as [Hm|Hm].
  - rewrite N.shiftl_spec_low by exact Hm. rewrite xorb_false_r. reflexivity.
  - change 255 with (N.ones 8). rewrite N.ones_spec_high by exact Hm. rewrite !andb_false_r. reflexivity.
Qed.

(* xoring a byte into the high half of a state xors its table entry into the shifted state:
   the step of the direct table-driven CRC, for any table and shift with these two properties *)
Section Algebra.
  Variable S8' tab' : N -> N.
  Variable udp xmb : N -> N -> N.
  Hypothesis H_state : forall s, s < 65536 ->
    S8' s = N.lxor (tab' (N.shiftr s 8)) (N.shiftl (N.land s 255) 8) /\ S8' s < 65536 /\ udp s 0 = S8' s.
  Hypothesis H_lin : forall i j, i < 256 -> j < 256 -> tab' (N.lxor i j) = N.lxor (tab' i) (tab' j).
  Hypothesis H_udp : forall s b, udp s b = N.lxor (udp s 0) b.
  Hypothesis H_xmb : forall s b, xmb s b = S8' (N.lxor s (N.shiftl b 8)).

  Lemma S8_lxor_high x b : x < 65536 -> b < 256 -> S8' (N.lxor x (N.shiftl b 8)) = N.lxor (S8' x) (tab' b).
  Proof.
    intros Hx Hb.
    assert (Hs : N.shiftl b 8 < 65536) by (rewrite N.shiftl_mul_pow2; change (2 ^ 8) with 256; lia).
    assert (Hxb : N.lxor x (N.shiftl b 8) < 65536) by (apply (lxor_lt _ _ 16); assumption).
    destruct (H_state _ Hxb) as [E1 _]. destruct (H_state _ Hx) as [E2 _].
    rewrite E1, E2, shiftr8_high, land255_high by assumption.
    rewrite H_lin by (try apply shiftr8_lt; assumption).
    rewrite !N.lxor_assoc. f_equal. apply N.lxor_comm.
  Qed.
End Algebra.

Lemma udp_crc16_step s b : s < 65536 -> udp_crc16 s b = N.lxor (S8 s) b.
Proof.
  intros Hs. destruct (state_spec s Hs) as [_ [_ E]]. rewrite <- E.
  unfold udp_crc16. rewrite N.lxor_0_r. reflexivity.
Qed.

Lemma udp_crc16_lt s b : s < 65536 -> b < 256 -> udp_crc16 s b < 65536.
Proof.
  intros Hs Hb. rewrite udp_crc16_step by exact Hs. apply (lxor_lt _ _ 16); [apply S8_lt|lia].
Qed.

Lemma xm_step s b : xm_byte s b = S8 (N.lxor s (N.shiftl b 8)).
Proof. reflexivity. Qed.

Lemma S8_lxor_low x b : b < 256 -> S8 (N.lxor x b) = N.lxor (S8 x) (N.shiftl b 8).
Proof. intros Hb. rewrite S8_lxor, (S8_low b Hb). reflexivity. Qed.

(* The induction over the message, over an abstract eight-fold shift: with the concrete S8 the
   kernel would unfold three nested eight-fold shifts of a symbolic state when it checks the
   step. *)
Section Fold.
  Variable S8' : N -> N.
  Variable udp xmb : N -> N -> N.
  Hypothesis H_lt : forall s, S8' s < 65536.
  Hypothesis H_low : forall x b, b < 256 -> S8' (N.lxor x b) = N.lxor (S8' x) (N.shiftl b 8).
  Hypothesis H_udp : forall s b, s < 65536 -> udp s b = N.lxor (S8' s) b.
  Hypothesis H_xmb : forall s b, xmb s b = S8' (N.lxor s (N.shiftl b 8)).

  (* the direct CRC equals the augmented state pushed through two zero bytes *)
  Lemma feed_inv p : forall a, a < 65536 -> Forall (fun b => b < 256) p ->
    fold_left xmb p (S8' (S8' a)) = S8' (S8' (fold_left udp p a)) /\ fold_left udp p a < 65536.
  Proof.
    induction p as [|b p IH]; intros a Ha Hp; [split; [reflexivity|exact Ha]|].
    inversion Hp as [|? ? Hb Hp']; subst. cbn [fold_left].
    rewrite H_xmb, <- (H_low _ b Hb), <- H_udp by exact Ha.
    apply IH; [|exact Hp']. rewrite H_udp by exact Ha. apply (lxor_lt _ _ 16); [apply H_lt|lia].
  Qed.

  Lemma augmented_is_direct p : Forall (fun b => b < 256) p -> S8' 0 = 0 ->
    fold_left udp [0; 0] (fold_left udp p 0) = fold_left xmb p 0.
  Proof.
    intros Hp H0. destruct (feed_inv p 0 ltac:(lia) Hp) as [E L]. rewrite !H0 in E. rewrite E.
    cbn [fold_left]. rewrite (H_udp _ 0 L), N.lxor_0_r, (H_udp _ 0 (H_lt _)), N.lxor_0_r. reflexivity.
  Qed.
End Fold.

Lemma S8_0 : S8 0 = 0.
Proof. reflexivity. Qed.

Theorem crc_impl_xmodem p : Forall (fun b => b < 256) p -> crc_impl p = xmodem p.
Proof.
  intros Hp. unfold crc_impl, xmodem, crc_feed.
  exact (augmented_is_direct S8 udp_crc16 xm_byte S8_lt S8_lxor_low udp_crc16_step xm_step p Hp S8_0).
Qed.

Lemma crc_feed_app s a b : crc_feed (crc_feed s a) b = crc_feed s (a ++ b).
Proof. unfold crc_feed. symmetry. apply fold_left_app. Qed.

Lemma crc_feed_lt p s : s < 65536 -> Forall (fun b => b < 256) p -> crc_feed s p < 65536.
Proof.
  intros Hs Hp.
  exact (proj2 (feed_inv S8 udp_crc16 xm_byte S8_lt S8_lxor_low udp_crc16_step xm_step p s Hs Hp)).
Qed.

Lemma crc_impl_lt p : Forall (fun b => b < 256) p -> crc_impl p < 65536.
Proof.
  intros Hp. unfold crc_impl. apply crc_feed_lt; [|repeat constructor].
  apply crc_feed_lt; [lia|exact Hp].
Qed.

(* the reader's incremental CRC (crcWriter): Sum() after feeding p equals xmodem p *)
Theorem crc_writer_sum p : Forall (fun b => b < 256) p -> crc_feed (crc_feed 0 p) [0; 0] = xmodem p.
Proof. exact (crc_impl_xmodem p). Qed.

Theorem crc16tab_spec i : i < 256 -> nth (N.to_nat i) lz_crc16tab 0 = xm_byte 0 i.
Proof. intros H. exact (tab_spec i H). Qed.
