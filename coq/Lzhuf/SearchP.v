(* Lzhuf/SearchP.v — the match search trees of lzhuf.go (InitTree, InsertNode, DeleteNode; model
   in Lzhuf/Enc.v) satisfy the specification of Lzhuf/Search.v (search_spec : SearchSpec TreeOK).
   The arrays are read as a ghost forest of binary trees (bt, rep), one per byte; a node is
   addressed by a context (zipper: ctx, plug, crep, with its hole slot exempt from the frame
   conditions), and InsertNode and DeleteNode replace the subtree in the hole of a context
   (splice: the `if rson[dad[p]] == p` update; graft: the same after a first stage that wrote
   only inside the new subtree).  DeleteNode's last case is two such replacements: the rightmost
   node q of p's left subtree is bypassed in its own context (rightmost_ctx, bypass), then q
   takes over p's subtrees (adopt, as r does in InsertNode's replacement) and p's place. *)
From Coq Require Import Lia ZifyN ZifyNat ZifyBool Permutation.
From Verif Require Import Base.Bytes Base.BytesP Base.Arr Lzhuf.Huff Lzhuf.Enc Lzhuf.Search gen.Tables.
Open Scope N_scope.

(* NIL is the number N: no node is NIL *)
Lemma lt_N_neq_NIL x : x < lz_N -> x <> lz_NIL.
Proof. intros H ->. exact (N.lt_irrefl _ H). Qed.

Lemma pigeon (l : list N) n :
  NoDup l -> (forall x, In x l -> x < n) -> (length l <= N.to_nat n)%nat.
Proof.
  intros ND Hlt.
  assert (incl l (map N.of_nat (seq 0 (N.to_nat n)))) as Hi.
  { intros x Hx. apply in_map_iff. exists (N.to_nat x). split; [apply N2Nat.id|].
    apply in_seq. specialize (Hlt x Hx). lia. }
  apply NoDup_incl_length in Hi; [|exact ND].
  rewrite map_length, seq_length in Hi. exact Hi.
Qed.

Inductive bt := Lf | Nd (l : bt) (p : N) (r : bt).

Fixpoint nodes (t : bt) : list N :=
  match t with Lf => [] | Nd l p r => p :: nodes l ++ nodes r end.

(* rep d l r parent t c: the pointer c (found in a child slot of parent) represents t *)
Fixpoint rep (d l r : arr) (parent : N) (t : bt) (c : N) : Prop :=
  match t with
  | Lf => c = lz_NIL
  | Nd tl p tr =>
      c = p /\ p < lz_N /\ aget d p = parent /\
      rep d l r p tl (aget l p) /\ rep d l r p tr (aget r p)
  end.

Lemma nodup_Nd a x b : NoDup (nodes (Nd a x b)) <->
  ~ In x (nodes a) /\ ~ In x (nodes b) /\ NoDup (nodes a) /\ NoDup (nodes b) /\
  (forall y, In y (nodes a) -> In y (nodes b) -> False).
Proof. cbn [nodes]. rewrite NoDup_cons_iff, NoDup_app_iff, in_app_iff. tauto. Qed.

Lemma rep_lt d l r : forall t par c, rep d l r par t c -> forall x, In x (nodes t) -> x < lz_N.
Proof.
  induction t as [|tl IHl p tr IHr]; intros par c H x Hx; cbn [nodes rep] in *.
  - destruct Hx.
  - destruct H as (_ & Hp & _ & Hl & Hr). destruct Hx as [<-|Hx]; [exact Hp|].
    apply in_app_iff in Hx. destruct Hx; eauto.
Qed.

Lemma rep_frame d l r d' l' r' : forall t par c,
  (forall x, In x (nodes t) -> aget d' x = aget d x) ->
  (forall x, In x (nodes t) -> aget l' x = aget l x) ->
  (forall x, In x (nodes t) -> aget r' x = aget r x) ->
  rep d l r par t c -> rep d' l' r' par t c.
Proof.
  induction t as [|tl IHl p tr IHr]; intros par c Hd Hl Hr H; cbn [nodes rep] in *.
  - exact H.
  - destruct H as (Hc & Hp & Hdp & H1 & H2).
    rewrite Hd, Hl, Hr by (left; reflexivity).
    repeat split; auto.
    + apply IHl; auto; intros; [apply Hd|apply Hl|apply Hr]; right; apply in_app_iff; auto.
    + apply IHr; auto; intros; [apply Hd|apply Hl|apply Hr]; right; apply in_app_iff; auto.
Qed.

Lemma rep_root d l r par t c : rep d l r par t c ->
  (t = Lf /\ c = lz_NIL) \/ (In c (nodes t) /\ c < lz_N /\ t <> Lf).
Proof.
  destruct t; cbn [rep nodes].
  - auto.
  - intros (-> & Hp & _). right. split; [left; reflexivity|]. split; [exact Hp|discriminate].
Qed.

Lemma rep_root_neq d l r par t c y : rep d l r par t c -> y <> lz_NIL -> ~ In y (nodes t) -> y <> c.
Proof.
  intros H Hy Hn. destruct (rep_root _ _ _ _ _ _ H) as [(_ & ->)|(Hc & _)].
  - exact Hy.
  - intros ->. auto.
Qed.

Lemma rep_Lf_iff d l r par t c : rep d l r par t c -> (c = lz_NIL <-> t = Lf).
Proof.
  destruct t; cbn [rep].
  - intros ->. tauto.
  - intros (-> & Hp & _). split; [intros E; destruct (lt_N_neq_NIL _ Hp E)|discriminate].
Qed.

Lemma rep_aset_d d l r par t c i v : ~ In i (nodes t) -> rep d l r par t c -> rep (aset d i v) l r par t c.
Proof.
  intros Hi. apply rep_frame; intros x Hx; try reflexivity.
  apply aget_aset_other. intros <-. exact (Hi Hx).
Qed.

Lemma rep_aset_l d l r par t c i v : ~ In i (nodes t) -> rep d l r par t c -> rep d (aset l i v) r par t c.
Proof.
  intros Hi. apply rep_frame; intros x Hx; try reflexivity.
  apply aget_aset_other. intros <-. exact (Hi Hx).
Qed.

Lemma rep_aset_r d l r par t c i v : ~ In i (nodes t) -> rep d l r par t c -> rep d l (aset r i v) par t c.
Proof.
  intros Hi. apply rep_frame; intros x Hx; try reflexivity.
  apply aget_aset_other. intros <-. exact (Hi Hx).
Qed.

(* Hanging t below another parent is one write, at its root (if t = Lf the root is NIL and the
   write is not seen). *)
Lemma rep_redad d l r par par' t c :
  rep d l r par t c -> NoDup (nodes t) -> rep (aset d c par') l r par' t c.
Proof.
  destruct t as [|tl p tr]; cbn [rep]; [exact (fun H _ => H)|].
  intros (-> & Hp & _ & H1 & H2) ND. apply nodup_Nd in ND. destruct ND as (Hl & Hr & _).
  repeat split; [exact Hp|apply aget_aset_same| |]; apply rep_aset_d; assumption.
Qed.

(* the root pointer of one tree is no node of a tree disjoint from it *)
Lemma rep_root_notin d l r par t c d0 l0 r0 par0 t0 c0 :
  rep d l r par t c -> rep d0 l0 r0 par0 t0 c0 ->
  (forall x, In x (nodes t) -> In x (nodes t0) -> False) -> ~ In c (nodes t0).
Proof.
  intros H H0 Hdisj Hin. destruct (rep_root _ _ _ _ _ _ H) as [(_ & ->)|(Hc & _)].
  - exact (lt_N_neq_NIL _ (rep_lt _ _ _ _ _ _ H0 _ Hin) eq_refl).
  - exact (Hdisj c Hc Hin).
Qed.

(* innermost frame first *)
Inductive ctx :=
| Top
| CL (k : ctx) (p : N) (tr : bt)       (* the hole is the left child of p *)
| CR (k : ctx) (tl : bt) (p : N).      (* the hole is the right child of p *)

Fixpoint plug (k : ctx) (s : bt) : bt :=
  match k with
  | Top => s
  | CL k p tr => plug k (Nd s p tr)
  | CR k tl p => plug k (Nd tl p s)
  end.

Fixpoint cnodes (k : ctx) : list N :=
  match k with
  | Top => []
  | CL k p tr => p :: nodes tr ++ cnodes k
  | CR k tl p => p :: nodes tl ++ cnodes k
  end.

Definition hpar (root : N) (k : ctx) : N :=
  match k with Top => root | CL _ p _ => p | CR _ _ p => p end.
Definition hdir (k : ctx) : bool :=
  match k with Top => true | CL _ _ _ => false | CR _ _ _ => true end.

Definition slot (l r : arr) (b : bool) (x : N) : N := if b then aget r x else aget l x.

Fixpoint crep (d l r : arr) (root : N) (k : ctx) : Prop :=
  match k with
  | Top => True
  | CL k' p tr =>
      p < lz_N /\ aget d p = hpar root k' /\ slot l r (hdir k') (hpar root k') = p /\
      rep d l r p tr (aget r p) /\ crep d l r root k'
  | CR k' tl p =>
      p < lz_N /\ aget d p = hpar root k' /\ slot l r (hdir k') (hpar root k') = p /\
      rep d l r p tl (aget l p) /\ crep d l r root k'
  end.

Lemma rep_plug d l r root : forall k s,
  rep d l r root (plug k s) (aget r root) <->
  crep d l r root k /\ rep d l r (hpar root k) s (slot l r (hdir k) (hpar root k)).
Proof.
  induction k as [|k IH p tr|k IH tl p]; intros s; cbn [plug crep].
  - cbn [hpar hdir slot]. tauto.
  - rewrite IH. cbn [rep hpar hdir]. unfold slot at 3. intuition congruence.
  - rewrite IH. cbn [rep hpar hdir]. unfold slot at 3. intuition congruence.
Qed.

Lemma nodes_plug : forall k s, Permutation (nodes (plug k s)) (nodes s ++ cnodes k).
Proof.
  induction k as [|k IH p tr|k IH tl p]; intros s; cbn [plug cnodes].
  - rewrite app_nil_r. reflexivity.
  - rewrite IH. cbn [nodes]. rewrite <- Permutation_middle. cbn [app]. rewrite <- app_assoc.
    reflexivity.
  - rewrite IH. cbn [nodes]. rewrite <- Permutation_middle. cbn [app]. constructor.
    rewrite (app_assoc (nodes s)). apply Permutation_app_tail. apply Permutation_app_comm.
Qed.

Lemma in_plug k s y : In y (nodes (plug k s)) <-> In y (nodes s) \/ In y (cnodes k).
Proof.
  rewrite <- in_app_iff. split; apply Permutation_in; [|symmetry]; apply nodes_plug.
Qed.

Lemma nodup_plug k s : NoDup (nodes (plug k s)) <->
  NoDup (nodes s) /\ NoDup (cnodes k) /\ (forall x, In x (nodes s) -> In x (cnodes k) -> False).
Proof.
  rewrite <- NoDup_app_iff. split; apply Permutation_NoDup; [|symmetry]; apply nodes_plug.
Qed.

Lemma crep_lt d l r root : forall k, crep d l r root k -> forall x, In x (cnodes k) -> x < lz_N.
Proof.
  induction k as [|k IH p tr|k IH tl p]; cbn [crep cnodes]; intros H x Hx.
  - destruct Hx.
  - destruct H as (Hp & _ & _ & Hr & Hk). destruct Hx as [<-|Hx]; [exact Hp|].
    apply in_app_iff in Hx. destruct Hx; [eapply rep_lt; eauto|eauto].
  - destruct H as (Hp & _ & _ & Hr & Hk). destruct Hx as [<-|Hx]; [exact Hp|].
    apply in_app_iff in Hx. destruct Hx; [eapply rep_lt; eauto|eauto].
Qed.

Lemma hpar_in root k : hpar root k = root \/ In (hpar root k) (cnodes k).
Proof. destruct k; cbn [hpar cnodes In]; auto. Qed.

(* One frame of a context: the hole is the child b of p, the sibling subtree hangs at the other
   child.  Writes that spare p's dad, the nodes of the frame and every slot of them but the hole
   keep the frame, and spare the rest of the context and its hole (p's slot in its parent). *)
Lemma frame_step d l r d' l' r' root k p sib (b : bool) : lz_N <= root -> p < lz_N ->
  ~ In p (nodes sib ++ cnodes k) ->
  (forall x, In x (p :: nodes sib ++ cnodes k) -> aget d' x = aget d x) ->
  (forall x b0, In x (p :: nodes sib ++ cnodes k) \/ x = root -> ~ (x = p /\ b0 = b) ->
                slot l' r' b0 x = slot l r b0 x) ->
  aget d p = hpar root k -> slot l r (hdir k) (hpar root k) = p ->
  rep d l r p sib (slot l r (negb b) p) ->
  (aget d' p = hpar root k /\ slot l' r' (hdir k) (hpar root k) = p /\
   rep d' l' r' p sib (slot l' r' (negb b) p)) /\
  (forall x, In x (cnodes k) -> aget d' x = aget d x) /\
  (forall x b0, In x (cnodes k) \/ x = root -> ~ (x = hpar root k /\ b0 = hdir k) ->
                slot l' r' b0 x = slot l r b0 x).
Proof.
  intros Hroot Hp Hnp Hd Hs Hdp Hsl Hr.
  assert (Hpk : forall x, In x (cnodes k) \/ x = root -> x <> p).
  { intros x [Hx| ->] E; [apply Hnp; rewrite <- E; apply in_app_iff; auto|lia]. }
  assert (Hin : forall x, In x (cnodes k) \/ x = root -> In x (p :: nodes sib ++ cnodes k) \/ x = root).
  { intros x [Hx|Hx]; [left; right; apply in_app_iff|]; auto. }
  assert (Hpar : In (hpar root k) (cnodes k) \/ hpar root k = root) by (destruct (hpar_in root k); auto).
  split; [split; [|split]|split].
  - rewrite Hd by (left; reflexivity). exact Hdp.
  - rewrite Hs; [exact Hsl|apply Hin, Hpar|]. intros (E & _). exact (Hpk _ Hpar E).
  - assert (slot l' r' (negb b) p = slot l r (negb b) p) as ->.
    { apply Hs; [left; left; reflexivity|]. intros (_ & E). destruct b; discriminate. }
    assert (Hsib : forall x, In x (nodes sib) -> In x (p :: nodes sib ++ cnodes k) /\ x <> p).
    { intros x Hx. split; [right; apply in_app_iff; auto|]. intros ->. apply Hnp, in_app_iff. auto. }
    eapply rep_frame; [| | |exact Hr]; intros x Hx; destruct (Hsib x Hx) as (H1 & H2).
    + apply Hd, H1.
    + apply (Hs x false); [left; exact H1|]. intros (E & _). exact (H2 E).
    + apply (Hs x true); [left; exact H1|]. intros (E & _). exact (H2 E).
  - intros x Hx. apply Hd. right. apply in_app_iff. auto.
  - intros x b0 Hx _. apply Hs; [apply Hin, Hx|]. intros (E & _). exact (Hpk x Hx E).
Qed.

(* writes outside the context nodes, or into the hole slot, do not disturb the context *)
Lemma crep_frame d l r d' l' r' root : lz_N <= root -> forall k,
  NoDup (cnodes k) ->
  (forall x, In x (cnodes k) -> aget d' x = aget d x) ->
  (forall x b, In x (cnodes k) \/ x = root -> ~ (x = hpar root k /\ b = hdir k) ->
               slot l' r' b x = slot l r b x) ->
  crep d l r root k -> crep d' l' r' root k.
Proof.
  intros Hroot. induction k as [|k IH p tr|k IH tl p]; cbn [crep cnodes]; intros ND Hd Hs H.
  - exact I.
  - destruct H as (Hp & Hdp & Hsl & Hr & Hk).
    apply NoDup_cons_iff in ND. destruct ND as (Hnp & ND).
    apply NoDup_app_iff in ND. destruct ND as (_ & NDk & _).
    destruct (frame_step d l r d' l' r' root k p tr false Hroot Hp Hnp Hd Hs Hdp Hsl Hr)
      as ((E1 & E2 & E3) & Hd' & Hs').
    repeat split; auto.
  - destruct H as (Hp & Hdp & Hsl & Hr & Hk).
    apply NoDup_cons_iff in ND. destruct ND as (Hnp & ND).
    apply NoDup_app_iff in ND. destruct ND as (_ & NDk & _).
    destruct (frame_step d l r d' l' r' root k p tl true Hroot Hp Hnp Hd Hs Hdp Hsl Hr)
      as ((E1 & E2 & E3) & Hd' & Hs').
    repeat split; auto.
Qed.

Fixpoint capp (k' k0 : ctx) : ctx :=
  match k' with
  | Top => k0
  | CL k p tr => CL (capp k k0) p tr
  | CR k tl p => CR (capp k k0) tl p
  end.

Lemma plug_capp : forall k' k0 s, plug (capp k' k0) s = plug k0 (plug k' s).
Proof. induction k' as [|k IH p tr|k IH tl p]; intros; cbn [capp plug]; auto. Qed.

Lemma find_node : forall T p, In p (nodes T) -> exists k tl tr, T = plug k (Nd tl p tr).
Proof.
  induction T as [|a IHa x b IHb]; cbn [nodes]; intros p Hp.
  - destruct Hp.
  - destruct Hp as [->|Hp].
    + exists Top, a, b. reflexivity.
    + apply in_app_iff in Hp. destruct Hp as [Hp|Hp].
      * destruct (IHa p Hp) as (k & tl & tr & ->).
        exists (capp k (CL Top x b)), tl, tr. rewrite plug_capp. reflexivity.
      * destruct (IHb p Hp) as (k & tl & tr & ->).
        exists (capp k (CR Top a x)), tl, tr. rewrite plug_capp. reflexivity.
Qed.

Definition rootof (c : N) : N := lz_N + 1 + c.

(* f c is the ghost tree hanging at rson[N+1+c], the pseudo-node of the byte c.  The registry is
   exactly membership, stated pointwise, so no extensionality is needed; unregistered p < N have
   dad[p] = NIL.  Genuine tree-ness gives the fuel bounds: a tree without repetition whose nodes
   are < N has at most N nodes (pigeon), so the descent of InsertNode (fuel N+1) and the walk to
   the rightmost node in DeleteNode (fuel N) end before the fuel does. *)
Definition TreeOK (t : tree) (g : reg) : Prop :=
  exists f : N -> bt,
    (forall c, c < 256 ->
       rep (dad t) (lson t) (rson t) (rootof c) (f c) (aget (rson t) (rootof c)) /\
       NoDup (nodes (f c))) /\
    (forall p c, g p = Some c <-> c < 256 /\ In p (nodes (f c))) /\
    (forall p, p < lz_N -> g p = None -> aget (dad t) p = lz_NIL).

Lemma TreeOK_init : TreeOK tree_init reg_empty.
Proof.
  exists (fun _ => Lf). split; [|split].
  - intros c Hc. split; [|constructor]. cbn [rep tree_init rson].
    rewrite aget_afill. change (N.of_nat 256) with 256. unfold rootof.
    destruct (N.leb_spec (lz_N + 1) (lz_N + 1 + c)), (N.ltb_spec (lz_N + 1 + c) (lz_N + 1 + 256));
      cbn [andb]; try reflexivity; lia.
  - intros p c. unfold reg_empty. cbn [nodes In]. split; [discriminate|tauto].
  - intros p Hp _. cbn [tree_init dad]. rewrite aget_afill. unfold natN. rewrite N2Nat.id.
    destruct (N.leb_spec 0 p), (N.ltb_spec p (0 + lz_N)); cbn [andb]; try reflexivity; lia.
Qed.

Lemma TreeOK_ext t t' g : TreeOK t g ->
  dad t' = dad t -> lson t' = lson t -> rson t' = rson t -> TreeOK t' g.
Proof. intros (f & H) Ed El Er. exists f. rewrite Ed, El, Er. exact H. Qed.

Lemma slot_dir d l r root k p :
  crep d l r root k -> slot l r (hdir k) (hpar root k) = p -> p < lz_N -> ~ In p (cnodes k) ->
  (aget r (hpar root k) =? p) = hdir k.
Proof.
  destruct k as [|k x tr|k tl x]; cbn [crep hdir hpar slot cnodes]; intros H Hs Hp Hn.
  - apply N.eqb_eq. exact Hs.
  - apply N.eqb_neq. destruct H as (_ & _ & _ & Hr & _). apply not_eq_sym.
    eapply rep_root_neq; [exact Hr|apply lt_N_neq_NIL, Hp|]. intros Hin. apply Hn. right. apply in_app_iff. auto.
  - apply N.eqb_eq. exact Hs.
Qed.

Lemma slot_set l r (b : bool) par q :
  let l' := if b then l else aset l par q in
  let r' := if b then aset r par q else r in
  slot l' r' b par = q /\
  forall x b0, ~ (x = par /\ b0 = b) -> slot l' r' b0 x = slot l r b0 x.
Proof.
  destruct b; cbn [slot]; (split; [apply aget_aset_same|]); intros x [|] Hne; cbn [slot];
    try reflexivity; apply aget_aset_other; intros <-; tauto.
Qed.

Lemma splice d l r root k p s q : lz_N < root ->
  crep d l r root k -> slot l r (hdir k) (hpar root k) = p -> p < lz_N ->
  ~ In p (cnodes k) -> NoDup (cnodes k) ->
  (forall x, In x (nodes s) -> In x (cnodes k) -> False) -> ~ In p (nodes s) ->
  rep d l r (hpar root k) s q ->
  let par := hpar root k in
  let lr := if aget r par =? p then (l, aset r par q) else (aset l par q, r) in
  rep (aset d p lz_NIL) (fst lr) (snd lr) root (plug k s) (aget (snd lr) root) /\
  (forall x, x <> par -> aget (fst lr) x = aget l x /\ aget (snd lr) x = aget r x).
Proof.
  intros Hroot Hk Hs Hp Hnp ND Hdisj Hnps Hrep par lr.
  assert (Hdir := slot_dir _ _ _ _ _ _ Hk Hs Hp Hnp). fold par in Hdir.
  assert (slot (fst lr) (snd lr) (hdir k) par = q /\
          forall x b, ~ (x = par /\ b = hdir k) -> slot (fst lr) (snd lr) b x = slot l r b x) as (Hq & Hoth).
  { unfold lr. rewrite Hdir. generalize (slot_set l r (hdir k) par q). destruct (hdir k); exact (fun H => H). }
  split.
  - apply rep_plug. split.
    + eapply crep_frame; [lia|exact ND| | |exact Hk].
      * intros x Hx. apply aget_aset_other. intros <-. auto.
      * intros x b _ Hne. apply Hoth. exact Hne.
    + fold par. rewrite Hq.
      assert (forall x, In x (nodes s) -> x <> par) as Hne.
      { intros x Hx ->. unfold par in Hx. destruct (hpar_in root k) as [E|Hin].
        - rewrite E in Hx. pose proof (rep_lt _ _ _ _ _ _ Hrep _ Hx). lia.
        - eauto. }
      eapply rep_frame; [| | |exact Hrep]; intros x Hx.
      * apply aget_aset_other. intros <-. auto.
      * apply (Hoth x false). intros (E & _). exact (Hne x Hx E).
      * apply (Hoth x true). intros (E & _). exact (Hne x Hx E).
  - intros x Hx. split; [apply (Hoth x false)|apply (Hoth x true)]; tauto.
Qed.

(* What an operation on the tree T below root does: T' takes its place, the nodes in add join it,
   those in drop leave it with dad = NIL; the arrays change only at add ++ nodes T (dad also at
   the cell NIL, the child slots also at root). *)
Definition op_post (t t' : tree) (root : N) (T T' : bt) (add drop : list N) : Prop :=
  rep (dad t') (lson t') (rson t') root T' (aget (rson t') root) /\
  Permutation (add ++ nodes T) (drop ++ nodes T') /\
  (forall y, In y drop -> aget (dad t') y = lz_NIL) /\
  (forall y, ~ In y (add ++ nodes T) -> y <> lz_NIL -> aget (dad t') y = aget (dad t) y) /\
  (forall y, ~ In y (add ++ nodes T) -> y <> root ->
     aget (lson t') y = aget (lson t) y /\ aget (rson t') y = aget (rson t) y).

(* Replacing the node p in the hole of k by a subtree s that a first stage has already built
   below p's parent, from p's subtrees and the new nodes add: the first stage (d1, l1, r1) wrote
   only at nodes of s; the last stage puts q into p's slot and unlinks p. *)
Lemma graft t root k tl p tr add d1 l1 r1 s q tb ml mp : lz_N < root ->
  rep (dad t) (lson t) (rson t) root (plug k (Nd tl p tr)) (aget (rson t) root) ->
  NoDup (add ++ nodes (plug k (Nd tl p tr))) ->
  Permutation (add ++ nodes tl ++ nodes tr) (nodes s) ->
  rep d1 l1 r1 (hpar root k) s q ->
  (forall y, ~ In y (nodes s) -> y <> lz_NIL -> aget d1 y = aget (dad t) y) ->
  (forall y, ~ In y (nodes s) -> aget l1 y = aget (lson t) y /\ aget r1 y = aget (rson t) y) ->
  let par := hpar root k in
  let lr := if aget r1 par =? p then (l1, aset r1 par q) else (aset l1 par q, r1) in
  aget d1 p = par /\
  op_post t {| dad := aset d1 p lz_NIL; lson := fst lr; rson := snd lr;
               textBuf := tb; matchLength := ml; matchPosition := mp |}
          root (plug k (Nd tl p tr)) (plug k s) add [p].
Proof.
  intros Hroot HrepT ND Hperm Hrep1 Hd1 Hlr1 par lr.
  assert (HltT := rep_lt _ _ _ _ _ _ HrepT).
  apply rep_plug in HrepT. destruct HrepT as (Hk & Hs). fold par in Hs, Hrep1.
  cbn [rep] in Hs. destruct Hs as (Ex & Hp & Hdp & _ & _).
  (* a node of s is new or comes from below p; so it is not p, nor in the context *)
  assert (Hs : forall y, In y (nodes s) -> In y add \/ In y (nodes tl ++ nodes tr)).
  { intros y Hy. apply in_app_iff. eapply Permutation_in; [symmetry; exact Hperm|exact Hy]. }
  assert (HsT : forall y, In y (nodes s) -> In y (add ++ nodes (plug k (Nd tl p tr)))).
  { intros y Hy. rewrite in_app_iff, in_plug. cbn [nodes In]. destruct (Hs y Hy); auto. }
  apply NoDup_app_iff in ND. destruct ND as (_ & ND & Hadd).
  apply nodup_plug in ND. destruct ND as (NDs & NDk & Hdisj). cbn [nodes] in NDs, Hdisj.
  apply NoDup_cons_iff in NDs. destruct NDs as (Hpn & _).
  assert (HpT : In p (nodes (plug k (Nd tl p tr)))) by (apply in_plug; left; left; reflexivity).
  assert (Hps : ~ In p (nodes s)).
  { intros H. destruct (Hs p H) as [Ha|Hb]; [exact (Hadd p Ha HpT)|exact (Hpn Hb)]. }
  assert (Hdisj_s : forall y, In y (nodes s) -> In y (cnodes k) -> False).
  { intros y Hy Hyk. destruct (Hs y Hy) as [Ha|Hb].
    - apply (Hadd y Ha), in_plug. auto.
    - apply (Hdisj y); [right; exact Hb|exact Hyk]. }
  assert (Hpk : ~ In p (cnodes k)) by (intros H; apply (Hdisj p); [left; reflexivity|exact H]).
  assert (Hlt_k := crep_lt _ _ _ _ _ Hk).
  assert (Hk_s : forall y, In y (cnodes k) \/ y = root -> ~ In y (nodes s)).
  { intros y [Hy| ->] H; [exact (Hdisj_s y H Hy)|].
    apply (rep_lt _ _ _ _ _ _ Hrep1) in H. exact (N.lt_asymm _ _ H Hroot). }
  assert (Hpar : In par (cnodes k) \/ par = root) by (destruct (hpar_in root k); auto).
  assert (Hk1 : crep d1 l1 r1 root k).
  { eapply crep_frame; [apply N.lt_le_incl, Hroot|exact NDk| | |exact Hk].
    - intros y Hy. apply Hd1; [apply Hk_s; auto|apply lt_N_neq_NIL, Hlt_k, Hy].
    - intros y b Hy _. destruct (Hlr1 y (Hk_s y Hy)) as (E1 & E2). destruct b; cbn [slot]; auto. }
  assert (Hs1 : slot l1 r1 (hdir k) par = p).
  { rewrite <- Ex. destruct (Hlr1 par (Hk_s par Hpar)) as (E1 & E2). destruct (hdir k); cbn [slot]; auto. }
  destruct (splice d1 l1 r1 root k p s q Hroot Hk1 Hs1 Hp Hpk NDk Hdisj_s Hps Hrep1) as (Hrep & Hfr).
  fold par in Hrep, Hfr. cbv zeta in Hrep, Hfr. fold lr in Hrep, Hfr.
  split; [rewrite Hd1; [exact Hdp|exact Hps|apply lt_N_neq_NIL, Hp]|].
  unfold op_post. cbn [dad lson rson].
  split; [exact Hrep|]. split; [|split; [|split]].
  - rewrite !nodes_plug, <- Hperm. cbn [nodes app]. rewrite <- Permutation_middle, !app_assoc. reflexivity.
  - intros y [<-|[]]. apply aget_aset_same.
  - intros y Hy Hyn. rewrite aget_aset_other by (intros <-; apply Hy, in_app_iff; auto).
    apply Hd1; [intros H; exact (Hy (HsT y H))|exact Hyn].
  - intros y Hy Hyroot. destruct (Hfr y) as (-> & ->).
    + destruct Hpar as [Hin| ->]; [|exact Hyroot]. intros ->. apply Hy, in_app_iff. right. apply in_plug. auto.
    + apply Hlr1. intros H. exact (Hy (HsT y H)).
Qed.

Lemma cmp_loop_spec tb r p : forall fuel i, i < lz_F ->
  (i <= fst (cmp_loop fuel tb r p i) /\ fst (cmp_loop fuel tb r p i) <= lz_F) /\
  forall k, i <= k -> k < fst (cmp_loop fuel tb r p i) -> aget tb (r + k) = aget tb (p + k).
Proof.
  induction fuel as [|fuel IH]; intros i Hi; cbn [cmp_loop].
  - cbn [fst]. split; [lia|]. intros; lia.
  - destruct (Z.eqb_spec (Z.of_N (aget tb (r + i)) - Z.of_N (aget tb (p + i))) 0) as [E|E].
    + destruct (N.ltb_spec (i + 1) lz_F) as [Hlt|Hge].
      * destruct (IH (i + 1) Hlt) as ((H1 & H2) & H3). split; [lia|].
        intros k Hk1 Hk2. destruct (N.eq_dec k i) as [->|Hne]; [lia|]. apply H3; lia.
      * cbn [fst]. split; [lia|]. intros k Hk1 Hk2. assert (k = i) as -> by lia. lia.
    + cbn [fst]. split; [lia|]. intros; lia.
Qed.

(* the match registers while InsertNode descends T: a match worth emitting is with a node p of T,
   whose text agrees with that at r on 1 .. ml-1 (byte 0 is the one the tree stands for) *)
Definition MInv (T : bt) (tb : arr) (r : N) (ml : N) (mp : Z) : Prop :=
  ml <= lz_F /\
  (lz_Threshold < ml -> exists p, In p (nodes T) /\
      mp = (Z.of_N (maskN (Z.of_N r - Z.of_N p)) - 1)%Z /\
      forall k, 1 <= k -> k < ml -> aget tb (r + k) = aget tb (p + k)).

(* the update of the match registers at a visited node p *)
Definition mupd (t : tree) (r p : N) : N * Z * bool * Z :=
  let '(i, cmp') := cmp_loop natF (textBuf t) r p 1 in
  let pos := (Z.of_N (maskN (Z.of_N r - Z.of_N p)) - 1)%Z in
  let '(ml, mp, full) :=
    if lz_Threshold <? i then
      let '(ml1, mp1) := if matchLength t <? i then (i, pos) else (matchLength t, matchPosition t) in
      if (matchLength t <? i) && (lz_F <=? ml1) then (ml1, mp1, true)
      else
        let mp2 := if (i =? ml1) && (pos <? mp1)%Z then pos else mp1 in
        (ml1, mp2, false)
    else (matchLength t, matchPosition t, false) in
  (ml, mp, full, cmp').

Lemma mupd_inv T t r x ml mp full cmp' :
  MInv T (textBuf t) r (matchLength t) (matchPosition t) -> In x (nodes T) ->
  mupd t r x = (ml, mp, full, cmp') -> MInv T (textBuf t) r ml mp.
Proof.
  intros (Hml & Hw) Hx. unfold mupd.
  pose proof (cmp_loop_spec (textBuf t) r x natF 1) as Hc.
  destruct (cmp_loop natF (textBuf t) r x 1) as [i c']. cbn [fst] in Hc.
  destruct Hc as ((Hi1 & Hi2) & Heq); [reflexivity|].
  set (pos := (Z.of_N (maskN (Z.of_N r - Z.of_N x)) - 1)%Z).
  assert (MInv T (textBuf t) r i pos) as Hnew.
  { split; [exact Hi2|]. intros _. exists x. split; [exact Hx|]. split; [reflexivity|exact Heq]. }
  destruct (N.ltb_spec lz_Threshold i) as [Ht|Ht].
  - destruct (N.ltb_spec (matchLength t) i) as [Hlt|Hge]; cbn [andb].
    + destruct (N.leb_spec lz_F i); intros E; injection E as <- <- <- <-; [exact Hnew|].
      destruct ((i =? i) && (pos <? pos)%Z); exact Hnew.
    + intros E; injection E as <- <- <- <-.
      destruct (N.eqb_spec i (matchLength t)) as [Ei|Ei], (Z.ltb_spec pos (matchPosition t));
        cbn [andb]; try (split; assumption).
      rewrite <- Ei. exact Hnew.
  - intros E; injection E as <- <- <- <-. split; assumption.
Qed.

Definition attach (t : tree) (r p : N) (right : bool) : tree :=
  {| dad := aset (dad t) r p;
     lson := if right then lson t else aset (lson t) p r;
     rson := if right then aset (rson t) p r else rson t;
     textBuf := textBuf t; matchLength := matchLength t; matchPosition := matchPosition t |}.

Definition replace_node (t1 : tree) (r p : N) : tree :=
  let d1 := aset (dad t1) r (aget (dad t1) p) in
  let l1 := aset (lson t1) r (aget (lson t1) p) in
  let r1 := aset (rson t1) r (aget (rson t1) p) in
  let d2 := aset d1 (aget l1 p) r in
  let d3 := aset d2 (aget r1 p) r in
  let dp := aget d3 p in
  let '(l2, r2) := if aget r1 dp =? p then (l1, aset r1 dp r) else (aset l1 dp r, r1) in
  {| dad := aset d3 p lz_NIL; lson := l2; rson := r2; textBuf := textBuf t1;
     matchLength := matchLength t1; matchPosition := matchPosition t1 |}.

Definition with_match (t : tree) (ml : N) (mp : Z) : tree :=
  {| dad := dad t; lson := lson t; rson := rson t; textBuf := textBuf t;
     matchLength := ml; matchPosition := mp |}.

Lemma insert_loop_S f t r p cmp : insert_loop (S f) t r p cmp =
  let child := slot (lson t) (rson t) (0 <=? cmp)%Z p in
  if child =? lz_NIL then attach t r p (0 <=? cmp)%Z
  else
    let '(ml, mp, full, cmp') := mupd t r child in
    if full then replace_node (with_match t ml mp) r child
    else insert_loop f (with_match t ml mp) r child cmp'.
Proof.
  cbn [insert_loop]. unfold slot, mupd.
  set (child := if (0 <=? cmp)%Z then aget (rson t) p else aget (lson t) p).
  cbv zeta. destruct (child =? lz_NIL); [reflexivity|].
  destruct (cmp_loop natF (textBuf t) r child 1) as [i c'].
  destruct (lz_Threshold <? i); [|reflexivity].
  destruct (matchLength t <? i); cbn [andb]; [destruct (lz_F <=? i)|]; reflexivity.
Qed.

(* ag reads cells of arrays written by aset.  For a read at another index it looks in the context
   for the fact that the two indices differ (either way round, or by congruence): the
   `assert (y <> ...)` just before a call are there for it. *)
Ltac ag := repeat first [rewrite aget_aset_same
                        | rewrite aget_aset_other by (solve [assumption | apply not_eq_sym; assumption | congruence])].

Definition ins_post (t t' : tree) (r root : N) (T : bt) : Prop :=
  exists T' drop,
  op_post t t' root T T' [r] drop /\ ~ In r drop /\
  textBuf t' = textBuf t /\
  MInv T (textBuf t) r (matchLength t') (matchPosition t').

(* q takes over the two subtrees of p (lson[q] = lson[p]; dad[lson[p]] = q; rson[q] = rson[p];
   dad[rson[p]] = q) and keeps its own dad. *)
Lemma adopt d l r p q tl tr : q < lz_N ->
  rep d l r p tl (aget l p) -> rep d l r p tr (aget r p) -> NoDup (nodes (Nd tl q tr)) ->
  let cl := aget l p in
  let cr := aget r p in
  rep (aset (aset d cl q) cr q) (aset l q cl) (aset r q cr) (aget d q) (Nd tl q tr) q.
Proof.
  intros Hq Hl Hr ND cl cr. apply nodup_Nd in ND. destruct ND as (Hql & Hqr & NDl & NDr & Hlr).
  assert (HqN := lt_N_neq_NIL q Hq).
  assert (Hqcl : q <> cl) by exact (rep_root_neq _ _ _ _ _ _ q Hl HqN Hql).
  assert (Hqcr : q <> cr) by exact (rep_root_neq _ _ _ _ _ _ q Hr HqN Hqr).
  cbn [rep]. rewrite !aget_aset_same. split; [reflexivity|]. split; [exact Hq|].
  split; [ag; reflexivity|]. split.
  - apply rep_aset_d; [eapply rep_root_notin; [exact Hr|exact Hl|intros y H1 H2; exact (Hlr y H2 H1)]|].
    apply rep_aset_l; [exact Hql|]. apply rep_aset_r; [exact Hql|]. eapply rep_redad; [exact Hl|exact NDl].
  - apply rep_aset_l; [exact Hqr|]. apply rep_aset_r; [exact Hqr|]. eapply rep_redad; [|exact NDr].
    apply rep_aset_d; [eapply rep_root_notin; [exact Hl|exact Hr|exact Hlr]|]. exact Hr.
Qed.

Lemma replace_ok t r root T k tl x tr :
  lz_N < root -> r < lz_N -> ~ In r (nodes T) -> NoDup (nodes T) ->
  T = plug k (Nd tl x tr) ->
  crep (dad t) (lson t) (rson t) root k ->
  rep (dad t) (lson t) (rson t) (hpar root k) (Nd tl x tr)
      (slot (lson t) (rson t) (hdir k) (hpar root k)) ->
  MInv T (textBuf t) r (matchLength t) (matchPosition t) ->
  ins_post t (replace_node t r x) r root T.
Proof.
  intros Hroot Hr Hnr ND -> Hk Hs HM.
  assert (HrepT : rep (dad t) (lson t) (rson t) root (plug k (Nd tl x tr)) (aget (rson t) root))
    by (apply rep_plug; auto).
  assert (ND' : NoDup ([r] ++ nodes (plug k (Nd tl x tr)))) by (constructor; assumption).
  unfold replace_node.
  set (d := dad t) in *; set (l := lson t) in *; set (rr := rson t) in *.
  set (par := hpar root k) in *.
  cbn [rep] in Hs. destruct Hs as (Ex & Hx & Hdx & Hl & Hr').
  set (cl := aget l x) in *; set (cr := aget rr x) in *.
  rewrite in_plug in Hnr. cbn [nodes In] in Hnr. rewrite in_app_iff in Hnr.
  apply nodup_plug in ND. destruct ND as (NDs & _). apply nodup_Nd in NDs.
  destruct NDs as (Hxl & Hxr & NDl & NDr & Hlr).
  assert (Hrx : x <> r) by tauto. assert (Hrl : ~ In r (nodes tl)) by tauto.
  assert (Hrr : ~ In r (nodes tr)) by tauto.
  assert (HrN := lt_N_neq_NIL r Hr).
  assert (Hclr : r <> cl) by exact (rep_root_neq _ _ _ _ _ _ r Hl HrN Hrl).
  assert (Hcrr : r <> cr) by exact (rep_root_neq _ _ _ _ _ _ r Hr' HrN Hrr).
  set (d1 := aset d r (aget d x)). set (l1 := aset l r cl). set (r1 := aset rr r cr).
  assert (aget l1 x = cl) as -> by (unfold l1; ag; reflexivity).
  assert (aget r1 x = cr) as -> by (unfold r1; ag; reflexivity).
  set (d3 := aset (aset d1 cl r) cr r).
  destruct (graft t root k tl x tr [r] d3 l1 r1 (Nd tl r tr) r (textBuf t) (matchLength t) (matchPosition t)
              Hroot HrepT ND') as (Hd3x & Hpost).
  { reflexivity. }
  { assert (E : aget d1 r = par) by (unfold d1; ag; exact Hdx). fold par. rewrite <- E.
    apply adopt; [exact Hr|apply rep_aset_d; assumption..|apply nodup_Nd; tauto]. }
  { cbn [nodes In]. intros y Hy Hyn. rewrite in_app_iff in Hy.
    assert (y <> r) by (intros ->; tauto). assert (y <> cl) by (eapply rep_root_neq; [exact Hl|exact Hyn|tauto]).
    assert (y <> cr) by (eapply rep_root_neq; [exact Hr'|exact Hyn|tauto]). unfold d3, d1. ag. reflexivity. }
  { cbn [nodes In]. intros y Hy. assert (y <> r) by (intros ->; tauto). unfold l1, r1. ag. auto. }
  fold par in Hd3x, Hpost. cbv zeta in Hpost. rewrite Hd3x.
  destruct (if aget r1 par =? x then (l1, aset r1 par r) else (aset l1 par r, r1)) as [l2 r2].
  exists (plug k (Nd tl r tr)), [x]. split; [exact Hpost|]. split; [intros [E|[]]; auto|].
  split; [reflexivity|exact HM].
Qed.

Lemma attach_ok t r root T k :
  lz_N < root -> r < lz_N -> ~ In r (nodes T) -> NoDup (nodes T) ->
  T = plug k Lf ->
  crep (dad t) (lson t) (rson t) root k ->
  aget (lson t) r = lz_NIL -> aget (rson t) r = lz_NIL ->
  MInv T (textBuf t) r (matchLength t) (matchPosition t) ->
  ins_post t (attach t r (hpar root k) (hdir k)) r root T.
Proof.
  intros Hroot Hr Hnr ND -> Hk Hlr Hrr HM.
  unfold attach.
  set (d := dad t) in *; set (l := lson t) in *; set (rr := rson t) in *.
  set (par := hpar root k) in *.
  assert (HinT : forall y, In y (nodes (plug k Lf)) <-> In y (cnodes k)).
  { intros. rewrite in_plug. cbn [nodes In]. tauto. }
  apply nodup_plug in ND. destruct ND as (_ & NDk & _).
  assert (Hrk : ~ In r (cnodes k)) by (rewrite <- HinT; exact Hnr).
  assert (Hpar : par = root \/ In par (cnodes k)) by apply hpar_in.
  set (l' := if hdir k then l else aset l par r). set (r' := if hdir k then aset rr par r else rr).
  destruct (slot_set l rr (hdir k) par r) as (Hsl & Hoth). fold l' r' in Hsl, Hoth.
  exists (plug k (Nd Lf r Lf)), []. split; [|split; [intros []|split; [reflexivity|exact HM]]].
  unfold op_post. cbn [dad lson rson]. split; [|split; [|split; [|split]]].
  - apply rep_plug. split.
    + eapply crep_frame; [lia|exact NDk| | |exact Hk].
      * intros y Hy. apply aget_aset_other. intros <-. auto.
      * intros y b _ Hne. apply Hoth. exact Hne.
    + fold par. rewrite Hsl. cbn [rep]. split; [reflexivity|]. split; [exact Hr|].
      split; [apply aget_aset_same|].
      split; [rewrite <- Hlr; apply (Hoth r false)|rewrite <- Hrr; apply (Hoth r true)]; intros (E & _);
        destruct Hpar as [E'|E']; [lia|congruence|lia|congruence].
  - rewrite !nodes_plug. reflexivity.
  - intros y [].
  - intros y Hy _. apply aget_aset_other. intros <-. apply Hy. left. reflexivity.
  - intros y Hy Hyroot.
    assert (y <> par).
    { destruct Hpar as [->|Hin]; [auto|intros ->; apply Hy; right; apply HinT; exact Hin]. }
    split; [apply (Hoth y false)|apply (Hoth y true)]; tauto.
Qed.

Lemma insert_loop_spec r root T :
  lz_N < root -> r < lz_N -> ~ In r (nodes T) -> NoDup (nodes T) ->
  forall s fuel t k cmp,
    T = plug k s -> (length (nodes s) < fuel)%nat ->
    crep (dad t) (lson t) (rson t) root k ->
    rep (dad t) (lson t) (rson t) (hpar root k) s
        (slot (lson t) (rson t) (hdir k) (hpar root k)) ->
    (0 <=? cmp)%Z = hdir k ->
    aget (lson t) r = lz_NIL -> aget (rson t) r = lz_NIL ->
    MInv T (textBuf t) r (matchLength t) (matchPosition t) ->
    ins_post t (insert_loop fuel t r (hpar root k) cmp) r root T.
Proof.
  intros Hroot Hr Hnr ND.
  induction s as [|tl IHl x tr IHr]; intros fuel t k cmp HT Hfuel Hk Hs Hdir Hlr Hrr HM.
  - destruct fuel as [|f]; [cbn [nodes length] in Hfuel; lia|].
    rewrite insert_loop_S. cbv zeta. rewrite Hdir. cbn [rep] in Hs. rewrite Hs, N.eqb_refl.
    apply attach_ok; auto.
  - destruct fuel as [|f]; [cbn [nodes length] in Hfuel; lia|].
    rewrite insert_loop_S. cbv zeta. rewrite Hdir.
    assert (Hs' := Hs). cbn [rep] in Hs'. destruct Hs' as (Ex & Hx & Hdx & Hl & Hr').
    rewrite Ex. assert ((x =? lz_NIL) = false) as -> by (apply N.eqb_neq, lt_N_neq_NIL, Hx).
    assert (In x (nodes T)) as HxT by (rewrite HT; apply in_plug; left; left; reflexivity).
    destruct (mupd t r x) as [[[ml mp] full] cmp'] eqn:Em.
    assert (HM' := mupd_inv _ _ _ _ _ _ _ _ HM HxT Em).
    destruct full.
    + apply (replace_ok (with_match t ml mp) r root T k tl x tr); auto.
    + cbn [nodes length] in Hfuel. rewrite app_length in Hfuel.
      destruct (0 <=? cmp')%Z eqn:Ec.
      * apply (IHr f (with_match t ml mp) (CR k tl x) cmp'); auto.
        -- lia.
        -- cbn [crep with_match dad lson rson]. auto.
      * apply (IHl f (with_match t ml mp) (CL k x tr) cmp'); auto.
        -- lia.
        -- cbn [crep with_match dad lson rson]. auto.
Qed.

(* The tree under the byte c is operated on: the other trees, whose nodes are registered under
   other bytes, are still represented, and the registry follows the nodes of the new tree. *)
Lemma TreeOK_op t t' (f : N -> bt) (g g' : reg) c T' add drop :
  (forall c', c' < 256 ->
     rep (dad t) (lson t) (rson t) (rootof c') (f c') (aget (rson t) (rootof c')) /\ NoDup (nodes (f c'))) ->
  (forall p c', g p = Some c' <-> c' < 256 /\ In p (nodes (f c'))) ->
  (forall p, p < lz_N -> g p = None -> aget (dad t) p = lz_NIL) ->
  c < 256 -> NoDup add -> (forall y, In y add -> y < lz_N /\ g y = None) ->
  op_post t t' (rootof c) (f c) T' add drop ->
  (forall q, In q (nodes T') -> g' q = Some c) ->
  (forall q, ~ In q (nodes T') -> In q drop -> g' q = None) ->
  (forall q, ~ In q (drop ++ nodes T') -> g' q = g q) ->
  TreeOK t' g'.
Proof.
  intros Hrep Hlink Hun Hc NDa Hadd (Hrep' & Hperm & Hdrop & Hfd & Hflr) HgT Hgd Hgo.
  set (X := add ++ nodes (f c)) in *.
  assert (HX : forall y, In y X <-> In y drop \/ In y (nodes T')).
  { intros y. rewrite <- in_app_iff. split; apply Permutation_in; [|symmetry]; exact Hperm. }
  assert (HXg : forall y, In y X -> y < lz_N /\ (g y = None \/ g y = Some c)).
  { intros y Hy. apply in_app_iff in Hy. destruct Hy as [Hy|Hy]; [destruct (Hadd y Hy); auto|].
    split; [exact (rep_lt _ _ _ _ _ _ (proj1 (Hrep c Hc)) y Hy)|right; apply Hlink; auto]. }
  assert (NDX : NoDup (drop ++ nodes T')).
  { apply (Permutation_NoDup Hperm), NoDup_app_iff. split; [exact NDa|]. split; [apply Hrep, Hc|].
    intros y Ha Hy. assert (g y = Some c) by (apply Hlink; auto). destruct (Hadd y Ha). congruence. }
  apply NoDup_app_iff in NDX. destruct NDX as (_ & ND' & Hdd).
  (* a node registered under another byte is not touched *)
  assert (Hoth : forall y c', c' <> c -> g y = Some c' -> ~ In y X).
  { intros y c' Hne Hy H. destruct (HXg y H) as (_ & [E|E]); congruence. }
  exists (fun c' => if c' =? c then T' else f c'). split; [|split].
  - intros c' Hc'. destruct (N.eqb_spec c' c) as [->|Hne]; [auto|].
    destruct (Hrep c' Hc') as (Hr' & ND1). split; [|exact ND1].
    assert (aget (rson t') (rootof c') = aget (rson t) (rootof c')) as ->.
    { apply Hflr; [intros H; apply HXg in H|]; unfold rootof in *; lia. }
    eapply rep_frame; [| | |exact Hr']; intros y Hy;
      pose proof (rep_lt _ _ _ _ _ _ Hr' y Hy) as Hlt;
      assert (HnX : ~ In y X) by (apply (Hoth y c' Hne), Hlink; auto).
    + apply Hfd; [exact HnX|apply lt_N_neq_NIL, Hlt].
    + apply Hflr; [exact HnX|unfold rootof; lia].
    + apply Hflr; [exact HnX|unfold rootof; lia].
  - intros p c'. destruct (N.eqb_spec c' c) as [->|Hne].
    + split.
      * intros Hp. split; [exact Hc|].
        destruct (in_dec N.eq_dec p (nodes T')) as [|Hn]; [assumption|exfalso].
        destruct (in_dec N.eq_dec p drop) as [Hd|Hd]; [rewrite (Hgd p Hn Hd) in Hp; discriminate|].
        rewrite Hgo in Hp by (rewrite in_app_iff; tauto).
        assert (In p X) by (apply in_app_iff; right; apply Hlink, Hp). apply HX in H. tauto.
      * intros (_ & Hp). auto.
    + rewrite <- Hlink. split; intros Hp.
      * destruct (in_dec N.eq_dec p (nodes T')) as [Hi|Hn]; [rewrite (HgT p Hi) in Hp; congruence|].
        destruct (in_dec N.eq_dec p drop) as [Hd|Hd]; [rewrite (Hgd p Hn Hd) in Hp; discriminate|].
        rewrite <- Hgo by (rewrite in_app_iff; tauto). exact Hp.
      * rewrite Hgo; [exact Hp|]. rewrite in_app_iff, <- HX. exact (Hoth p c' Hne Hp).
  - intros p Hp Hgp.
    destruct (in_dec N.eq_dec p drop) as [Hd|Hd]; [exact (Hdrop p Hd)|].
    assert (Hn : ~ In p (nodes T')) by (intros Hi; rewrite (HgT p Hi) in Hgp; discriminate).
    rewrite Hgo in Hgp by (rewrite in_app_iff; tauto).
    rewrite Hfd; [exact (Hun p Hp Hgp)|rewrite HX; tauto|apply lt_N_neq_NIL, Hp].
Qed.

(* Without the premise `aget (textBuf t) r < 256` (roots exist only for bytes) ss_insert is false
   for EVERY P: by ss_init and ss_ext, P (set_text tree_init 5 1000) reg_empty; InsertNode at
   r = 5 then starts at the pseudo-node N+1+1000, whose rson cell InitTree never set (it reads
   0, not NIL), walks into node 0, leaves matchLength = 5 > Threshold with no registered node
   at all, and runs out of fuel without inserting. *)
Lemma TreeOK_insert t g r :
  TreeOK t g -> r < lz_N -> g r = None -> aget (textBuf t) r < 256 ->
  exists g',
    TreeOK (insert_node t r) g' /\
    g' r = Some (aget (textBuf t) r) /\
    (forall q, q <> r -> g' q = g q \/ g' q = None) /\
    textBuf (insert_node t r) = textBuf t /\
    matchLength (insert_node t r) <= lz_F /\
    (lz_Threshold < matchLength (insert_node t r) ->
       exists p, p < lz_N /\ p <> r /\ g p = Some (aget (textBuf t) r) /\
         matchPosition (insert_node t r) = (Z.of_N (maskN (Z.of_N r - Z.of_N p)) - 1)%Z /\
         forall k, 1 <= k -> k < matchLength (insert_node t r) ->
           aget (textBuf t) (r + k) = aget (textBuf t) (p + k)).
Proof.
  intros (f & Hrep & Hlink & Hun) Hr Hgr Hc.
  set (c := aget (textBuf t) r) in *.
  set (T := f c). set (root := rootof c).
  set (t0 := {| dad := dad t; lson := aset (lson t) r lz_NIL; rson := aset (rson t) r lz_NIL;
                textBuf := textBuf t; matchLength := 0; matchPosition := matchPosition t |}).
  assert (Hroot : lz_N < root) by (unfold root, rootof; lia).
  assert (HnrT : ~ In r (nodes T)).
  { intros H. assert (g r = Some c) by (apply Hlink; auto). congruence. }
  destruct (Hrep c Hc) as (HrepT & NDT). fold T root in HrepT, NDT.
  assert (HltT := rep_lt _ _ _ _ _ _ HrepT).
  assert (Hpost : ins_post t0 (insert_node t r) r root T).
  { apply (insert_loop_spec r root T Hroot Hr HnrT NDT T (S natN) t0 Top 1%Z).
    - reflexivity.
    - pose proof (pigeon _ _ NDT HltT). fold natN in H. lia.
    - exact I.
    - cbn [hpar hdir slot t0 dad lson rson].
      assert (aget (aset (rson t) r lz_NIL) root = aget (rson t) root) as ->
        by (apply aget_aset_other; lia).
      apply rep_aset_l; [exact HnrT|]. apply rep_aset_r; [exact HnrT|]. exact HrepT.
    - reflexivity.
    - apply aget_aset_same.
    - apply aget_aset_same.
    - split; [cbn [t0 matchLength]; lia|]. cbn [t0 matchLength]. lia. }
  destruct Hpost as (T' & drop & (Hrep' & Hperm & Hdrop & Hfd & Hflr) & Hrd & Htb & HM').
  set (t' := insert_node t r) in *. clearbody t'.
  cbn [t0 dad lson rson textBuf] in Hfd, Hflr, Htb, HM'.
  assert (HX : forall y, In y (drop ++ nodes T') <-> In y ([r] ++ nodes T)).
  { intros y. split; apply (Permutation_in y); [symmetry|]; exact Hperm. }
  assert (HrT' : In r (nodes T')).
  { destruct (proj1 (in_app_iff _ _ _) (proj2 (HX r) (or_introl eq_refl))); [contradiction|assumption]. }
  exists (fun q => if in_dec N.eq_dec q (nodes T') then Some c else
                   if in_dec N.eq_dec q drop then None else g q).
  split; [|split; [|split; [|split; [|split]]]].
  - apply (TreeOK_op t t' f g _ c T' [r] drop Hrep Hlink Hun Hc).
    + constructor; [intros []|constructor].
    + intros y [<-|[]]. auto.
    + refine (conj Hrep' (conj Hperm (conj Hdrop (conj Hfd _)))).
      intros y Hy Hyr. destruct (Hflr y Hy Hyr) as (-> & ->).
      rewrite !aget_aset_other by (intros <-; apply Hy; left; reflexivity). auto.
    + intros q Hq. destruct (in_dec N.eq_dec q (nodes T')); [reflexivity|contradiction].
    + intros q Hn Hq. destruct (in_dec N.eq_dec q (nodes T')); [contradiction|].
      destruct (in_dec N.eq_dec q drop); [reflexivity|contradiction].
    + intros q Hq. rewrite in_app_iff in Hq.
      destruct (in_dec N.eq_dec q (nodes T')); [tauto|]. destruct (in_dec N.eq_dec q drop); [tauto|reflexivity].
  - destruct (in_dec N.eq_dec r (nodes T')); [reflexivity|contradiction].
  - intros q Hq. destruct (in_dec N.eq_dec q (nodes T')) as [Hin|].
    + left. symmetry. apply Hlink. split; [exact Hc|].
      destruct (proj1 (HX q)) as [E|H]; [apply in_app_iff; auto|congruence|exact H].
    + destruct (in_dec N.eq_dec q drop); auto.
  - exact Htb.
  - apply HM'.
  - intros Hth. destruct HM' as (_ & HM'). destruct (HM' Hth) as (p & Hin & Hmp & Hk).
    exists p. split; [auto|]. split; [intros ->; auto|]. split; [apply Hlink; auto|]. auto.
Qed.

(* the walk to the right from the root x of Nd a x b, b <> Lf, ends at a right child without a
   right child *)
Lemma rightmost_ctx d l r : forall b a x par fuel,
  rep d l r par (Nd a x b) x -> b <> Lf -> (length (nodes b) <= fuel)%nat ->
  exists K tq aq, let q := rightmost fuel r x in
    Nd a x b = plug (CR K tq (aget d q)) (Nd aq q Lf).
Proof.
  induction b as [|a1 _ y b1 IH]; intros a x par fuel H Hne Hf; [congruence|].
  cbn [nodes length] in Hf. destruct fuel as [|f]; [lia|].
  assert (H' := H). cbn [rep] in H'. destruct H' as (_ & _ & _ & _ & E & Hy & Hdy & Hl & Hr).
  cbn [rightmost]. rewrite E. assert ((y =? lz_NIL) = false) as -> by (apply N.eqb_neq, lt_N_neq_NIL, Hy).
  assert (b1 = Lf \/ b1 <> Lf) as [->|Hne1] by (destruct b1; [left|right]; congruence).
  - exists Top, a, a1. cbn [rep] in Hr.
    assert (rightmost f r y = y) as -> by (destruct f; cbn [rightmost]; [|rewrite Hr, N.eqb_refl]; reflexivity).
    cbv zeta. rewrite Hdy. reflexivity.
  - destruct (IH a1 y x f) as (K & tq & aq & EK); [cbn [rep]; auto|exact Hne1|rewrite app_length in Hf; lia|].
    exists (capp K (CR Top a x)), tq, aq. cbv zeta in *.
    change (CR (capp K (CR Top a x)) tq ?dq) with (capp (CR K tq dq) (CR Top a x)).
    rewrite plug_capp, <- EK. reflexivity.
Qed.

(* A right child q without a right child leaves the tree and its left subtree takes its place:
   the writes rson[dad[q]] = lson[q]; dad[lson[q]] = dad[q] of DeleteNode.  q keeps its cells. *)
Lemma bypass d l r root K tq dq aq q : lz_N <= root ->
  rep d l r root (plug (CR K tq dq) (Nd aq q Lf)) (aget r root) ->
  NoDup (nodes (plug (CR K tq dq) (Nd aq q Lf))) ->
  let lq := aget l q in
  rep (aset d lq dq) l (aset r dq lq) root (plug (CR K tq dq) aq) (aget (aset r dq lq) root) /\
  (lq = lz_NIL \/ In lq (nodes aq)).
Proof.
  intros Hroot H ND lq. apply rep_plug in H. destruct H as (HK & Hq).
  cbn [hpar hdir slot rep] in Hq. destruct Hq as (_ & _ & _ & Haq & _). fold lq in Haq.
  apply nodup_plug in ND. destruct ND as (NDq & NDK & Hdisj).
  apply nodup_Nd in NDq. destruct NDq as (_ & _ & NDaq & _).
  assert (Haqk : forall y, In y (nodes aq) -> ~ In y (cnodes (CR K tq dq))).
  { intros y Hy Hk. apply (Hdisj y); [right; apply in_app_iff; auto|exact Hk]. }
  assert (Hlq : lq = lz_NIL \/ In lq (nodes aq)).
  { destruct (rep_root _ _ _ _ _ _ Haq) as [(_ & E)|(Hin & _)]; auto. }
  split; [|exact Hlq]. apply rep_plug. cbn [hpar hdir slot]. split.
  - eapply crep_frame; [exact Hroot|exact NDK| | |exact HK].
    + intros y Hy. apply aget_aset_other. intros <-. destruct Hlq as [E|Hin]; [|exact (Haqk lq Hin Hy)].
      exact (lt_N_neq_NIL _ (crep_lt _ _ _ _ _ HK _ Hy) E).
    + intros y [|] _ Hne; cbn [slot]; [|reflexivity]. apply aget_aset_other. intros <-. apply Hne. auto.
  - rewrite aget_aset_same. apply rep_aset_r; [intros H; apply (Haqk dq H); left; reflexivity|].
    eapply rep_redad; [exact Haq|exact NDaq].
Qed.

(* bypass at the rightmost node q of the left subtree Nd a q0 b of p: what is left of that
   subtree, and where the two written cells lie *)
Lemma bypass_rightmost d l r root k a q0 b p tr : lz_N <= root ->
  rep d l r root (plug k (Nd (Nd a q0 b) p tr)) (aget r root) ->
  NoDup (nodes (plug k (Nd (Nd a q0 b) p tr))) -> b <> Lf ->
  let q := rightmost natN r q0 in
  let dq := aget d q in
  let lq := aget l q in
  exists tl',
    Permutation (nodes (Nd a q0 b)) (q :: nodes tl') /\
    rep (aset d lq dq) l (aset r dq lq) root (plug k (Nd tl' p tr)) (aget (aset r dq lq) root) /\
    In dq (nodes (Nd a q0 b)) /\ (lq = lz_NIL \/ In lq (nodes (Nd a q0 b))).
Proof.
  intros Hroot H ND Hb.
  assert (Hl : rep d l r p (Nd a q0 b) q0).
  { destruct (proj1 (rep_plug _ _ _ _ _ _) H) as (_ & Hs). cbn [rep] in Hs.
    destruct Hs as (_ & _ & _ & (_ & Hq0) & _). cbn [rep]. auto. }
  destruct (rightmost_ctx d l r b a q0 p natN Hl Hb) as (K & tq & aq & EK).
  { apply nodup_plug in ND. destruct ND as (ND & _). apply nodup_Nd in ND. destruct ND as (_ & _ & ND & _).
    apply nodup_Nd in ND. destruct ND as (_ & _ & _ & NDb & _).
    apply (pigeon _ _ NDb). intros y Hy. apply (rep_lt _ _ _ _ _ _ Hl). right. apply in_app_iff. auto. }
  cbv zeta in EK. intros q dq lq. fold q dq in EK.
  assert (ET : forall s, plug (CR (capp K (CL k p tr)) tq dq) s = plug k (Nd (plug (CR K tq dq) s) p tr)).
  { intros s. change (CR (capp K (CL k p tr)) tq dq) with (capp (CR K tq dq) (CL k p tr)). apply plug_capp. }
  rewrite EK, <- ET in H, ND. destruct (bypass d l r root _ tq dq aq q Hroot H ND) as (H1 & Hlq).
  cbv zeta in H1, Hlq. fold lq in H1, Hlq. rewrite ET in H1.
  exists (plug (CR K tq dq) aq). split; [|split; [exact H1|split]].
  - rewrite EK, !nodes_plug. cbn [nodes app]. rewrite app_nil_r. reflexivity.
  - rewrite EK. apply in_plug. right. left. reflexivity.
  - destruct Hlq as [E|Hin]; [auto|right]. rewrite EK. apply in_plug. left. right. apply in_app_iff. auto.
Qed.

(* the common last stage of DeleteNode: q takes p's place below p's parent *)
Definition finish (d1 l1 r1 : arr) (p q : N) (tb : arr) (ml : N) (mp : Z) : tree :=
  let d4 := aset d1 q (aget d1 p) in
  let dp := aget d4 p in
  let '(l5, r5) := if aget r1 dp =? p then (l1, aset r1 dp q) else (aset l1 dp q, r1) in
  {| dad := aset d4 p lz_NIL; lson := l5; rson := r5; textBuf := tb;
     matchLength := ml; matchPosition := mp |}.

Lemma delete_node_eq t p : delete_node t p =
  if aget (dad t) p =? lz_NIL then t
  else
    let '(q, d1, l1, r1) :=
      if aget (rson t) p =? lz_NIL then (aget (lson t) p, dad t, lson t, rson t)
      else if aget (lson t) p =? lz_NIL then (aget (rson t) p, dad t, lson t, rson t)
      else
        let q0 := aget (lson t) p in
        if aget (rson t) q0 =? lz_NIL then
          let r1 := aset (rson t) q0 (aget (rson t) p) in
          let d1 := aset (dad t) (aget r1 p) q0 in
          (q0, d1, lson t, r1)
        else
          let q := rightmost natN (rson t) q0 in
          let r1 := aset (rson t) (aget (dad t) q) (aget (lson t) q) in
          let d1 := aset (dad t) (aget (lson t) q) (aget (dad t) q) in
          let l1 := aset (lson t) q (aget (lson t) p) in
          let d2 := aset d1 (aget l1 p) q in
          let r2 := aset r1 q (aget r1 p) in
          let d3 := aset d2 (aget r2 p) q in
          (q, d3, l1, r2)
    in finish d1 l1 r1 p q (textBuf t) (matchLength t) (matchPosition t).
Proof. reflexivity. Qed.

Definition del_post (t t' : tree) (p root : N) (T : bt) : Prop :=
  (exists T', op_post t t' root T T' [] [p]) /\
  textBuf t' = textBuf t /\ matchLength t' = matchLength t /\ matchPosition t' = matchPosition t.

(* what each case of DeleteNode has to establish about its first stage (d1, l1, r1, q) *)
Lemma delete_case t root k tl p tr d1 l1 r1 s q par0 :
  lz_N < root ->
  rep (dad t) (lson t) (rson t) root (plug k (Nd tl p tr)) (aget (rson t) root) ->
  NoDup (nodes (plug k (Nd tl p tr))) ->
  Permutation (nodes tl ++ nodes tr) (nodes s) ->
  rep d1 l1 r1 par0 s q ->
  (forall y, ~ In y (nodes tl ++ nodes tr) -> y <> lz_NIL -> aget d1 y = aget (dad t) y) ->
  (forall y, ~ In y (nodes tl ++ nodes tr) ->
     aget l1 y = aget (lson t) y /\ aget r1 y = aget (rson t) y) ->
  del_post t (finish d1 l1 r1 p q (textBuf t) (matchLength t) (matchPosition t)) p root
           (plug k (Nd tl p tr)).
Proof.
  intros Hroot HrepT ND Hperm Hrep1 Hd1 Hlr1.
  assert (Hsub : forall y, In y (nodes s) <-> In y (nodes tl ++ nodes tr)).
  { intros y. split; apply Permutation_in; [symmetry|]; exact Hperm. }
  destruct (proj1 (nodup_plug _ _) ND) as (NDs & _). cbn [nodes] in NDs.
  apply NoDup_cons_iff in NDs. destruct NDs as (Hpn & NDlr).
  assert (NDs : NoDup (nodes s)) by (eapply Permutation_NoDup; eauto).
  assert (Hp : p < lz_N).
  { apply (rep_lt _ _ _ _ _ _ HrepT), in_plug. left. left. reflexivity. }
  assert (Hpar : aget (dad t) p = hpar root k).
  { apply rep_plug in HrepT. cbn [rep] in HrepT. apply HrepT. }
  (* q takes p's parent *)
  unfold finish. rewrite (Hd1 p Hpn (lt_N_neq_NIL p Hp)), Hpar. set (d4 := aset d1 q (hpar root k)).
  assert (Hd4 : forall y, ~ In y (nodes s) -> y <> lz_NIL -> aget d4 y = aget (dad t) y).
  { intros y Hy Hyn. unfold d4. rewrite aget_aset_other.
    - apply Hd1; [rewrite <- Hsub; exact Hy|exact Hyn].
    - destruct (rep_root _ _ _ _ _ _ Hrep1) as [(_ & ->)|(Hin & _)]; [auto|intros ->; auto]. }
  destruct (graft t root k tl p tr [] d4 l1 r1 s q (textBuf t) (matchLength t) (matchPosition t)
              Hroot HrepT ND Hperm (rep_redad _ _ _ _ _ _ _ Hrep1 NDs) Hd4) as (Hd4p & Hpost).
  { intros y Hy. apply Hlr1. rewrite <- Hsub. exact Hy. }
  cbv zeta in Hpost. rewrite Hd4p.
  destruct (if aget r1 (hpar root k) =? p then (l1, aset r1 (hpar root k) q)
            else (aset l1 (hpar root k) q, r1)) as [l5 r5].
  split; [exists (plug k s); exact Hpost|]. auto.
Qed.

Lemma delete_ok t root k tl p tr :
  lz_N < root ->
  rep (dad t) (lson t) (rson t) root (plug k (Nd tl p tr)) (aget (rson t) root) ->
  NoDup (nodes (plug k (Nd tl p tr))) ->
  del_post t (delete_node t p) p root (plug k (Nd tl p tr)).
Proof.
  intros Hroot HrepT ND.
  assert (HrepT' := HrepT). apply rep_plug in HrepT'. destruct HrepT' as (Hk & Hs).
  cbn [rep] in Hs. destruct Hs as (Ex & Hp & Hdp & Hl & Hr).
  assert (ND' := ND). apply nodup_plug in ND'. destruct ND' as (NDs & NDk & Hdisj).
  apply nodup_Nd in NDs. destruct NDs as (Hpl & Hpr & NDl & NDr & Hlr).
  assert (Hlt_l := rep_lt _ _ _ _ _ _ Hl). assert (Hlt_r := rep_lt _ _ _ _ _ _ Hr).
  rewrite delete_node_eq.
  assert ((aget (dad t) p =? lz_NIL) = false) as ->.
  { apply N.eqb_neq. rewrite Hdp. destruct (hpar_in root k) as [->|Hin].
    - intros E. rewrite E in Hroot. exact (N.lt_irrefl _ Hroot).
    - apply lt_N_neq_NIL, (crep_lt _ _ _ _ _ Hk), Hin. }
  set (d := dad t) in *; set (l := lson t) in *; set (rr := rson t) in *.
  destruct (N.eqb_spec (aget rr p) lz_NIL) as [Er|Er].
  { (* no right child *)
    apply (rep_Lf_iff _ _ _ _ _ _ Hr) in Er. subst tr. cbv beta iota.
    apply (delete_case t root k tl p Lf d l rr tl (aget l p) p Hroot HrepT ND); auto.
    cbn [nodes]. rewrite app_nil_r. reflexivity. }
  destruct (N.eqb_spec (aget l p) lz_NIL) as [El|El].
  { (* no left child *)
    apply (rep_Lf_iff _ _ _ _ _ _ Hl) in El. subst tl. cbv beta iota.
    apply (delete_case t root k Lf p tr d l rr tr (aget rr p) p Hroot HrepT ND); auto;
      reflexivity. }
  destruct tl as [|a q0 b]; [cbn [rep] in Hl; congruence|]. clear El.
  assert (Hl' := Hl). cbn [rep] in Hl'. destruct Hl' as (El & Hq0 & Hdq0 & Ha & Hb).
  assert (Htr : tr <> Lf) by (intros E; apply Er; apply (rep_Lf_iff _ _ _ _ _ _ Hr); exact E).
  set (cr := aget rr p) in *.
  assert (Hcr : In cr (nodes tr)) by (destruct (rep_root _ _ _ _ _ _ Hr) as [(E & _)|(Hin & _)]; tauto).
  destruct (proj1 (nodup_Nd _ _ _) NDl) as (Hq0a & Hq0b & _ & NDb & _).
  assert (Hq0tl : In q0 (nodes (Nd a q0 b))) by (left; reflexivity).
  assert (Hpq0 : p <> q0) by (intros ->; auto).
  assert (Hq0cr : q0 <> cr) by (intros E; apply (Hlr q0 Hq0tl); rewrite E; exact Hcr).
  rewrite El in *. cbv zeta.
  destruct (N.eqb_spec (aget rr q0) lz_NIL) as [Eb|Eb].
  { (* q0 = lson[p] has no right child: it takes p's place *)
    apply (rep_Lf_iff _ _ _ _ _ _ Hb) in Eb. subst b. cbv beta iota.
    assert (aget (aset rr q0 cr) p = cr) as -> by (ag; reflexivity).
    apply (delete_case t root k (Nd a q0 Lf) p tr (aset d cr q0) l (aset rr q0 cr)
             (Nd a q0 tr) q0 p Hroot HrepT ND).
    - cbn [nodes app]. rewrite app_nil_r. reflexivity.
    - cbn [rep]. split; [reflexivity|]. split; [exact Hq0|]. split; [ag; exact Hdq0|]. split.
      + apply rep_aset_d; [|apply rep_aset_r; [|exact Ha]]; intros H.
        * apply (Hlr cr); [right; apply in_app_iff; auto|exact Hcr].
        * exact (Hq0a H).
      + rewrite aget_aset_same. apply rep_aset_r; [exact (Hlr q0 Hq0tl)|].
        eapply rep_redad; [exact Hr|exact NDr].
    - intros y Hy Hyn. assert (y <> cr) by (intros ->; apply Hy, in_app_iff; auto). ag. reflexivity.
    - intros y Hy. assert (y <> q0) by (intros ->; apply Hy, in_app_iff; auto). ag. auto. }
  (* the rightmost node q of the left subtree takes p's place: first lson[q] takes q's (bypass),
     then q takes over p's subtrees (adopt) *)
  assert (Hbne : b <> Lf) by (intros E; apply Eb; apply (rep_Lf_iff _ _ _ _ _ _ Hb); exact E).
  destruct (bypass_rightmost d l rr root k a q0 b p tr (N.lt_le_incl _ _ Hroot) HrepT ND Hbne)
    as (tl' & Hpermtl & H1 & Hdqtl & Hlqtl). cbv zeta in Hpermtl, H1, Hdqtl, Hlqtl.
  set (q := rightmost natN rr q0) in *. set (dq := aget d q) in *. set (lq := aget l q) in *.
  set (d1 := aset d lq dq) in *. set (r1 := aset rr dq lq) in *.
  apply rep_plug in H1. destruct H1 as (_ & H1). cbn [rep] in H1. destruct H1 as (_ & _ & _ & Hdm & Hr1).
  assert (Hqtl : In q (nodes (Nd a q0 b))) by (eapply Permutation_in; [symmetry; exact Hpermtl|left; reflexivity]).
  assert (Hqp : q <> p) by (intros E; apply Hpl; rewrite <- E; exact Hqtl).
  assert (Hdqp : dq <> p) by (intros E; apply Hpl; rewrite <- E; exact Hdqtl).
  assert (NDq : NoDup (q :: nodes tl')) by (eapply Permutation_NoDup; eauto).
  apply NoDup_cons_iff in NDq. destruct NDq as (Hqtl' & NDtl').
  assert (ND' : NoDup (nodes (Nd tl' q tr))).
  { apply nodup_Nd. split; [exact Hqtl'|]. split; [exact (Hlr q Hqtl)|]. split; [exact NDtl'|]. split; [exact NDr|].
    intros y Hy. apply Hlr. eapply Permutation_in; [symmetry; exact Hpermtl|right; exact Hy]. }
  pose proof (adopt d1 l r1 p q tl' tr (Hlt_l q Hqtl) Hdm Hr1 ND') as Had. cbv zeta in Had.
  assert (E1 : aget r1 p = cr) by (unfold r1; ag; reflexivity). rewrite El, E1 in Had.
  assert (aget (aset l q q0) p = q0) as -> by (ag; exact El).
  rewrite E1. assert (aget (aset r1 q cr) p = cr) as -> by (ag; exact E1).
  apply (delete_case t root k (Nd a q0 b) p tr _ _ _ (Nd tl' q tr) q (aget d1 q) Hroot HrepT ND); [|exact Had| |].
  - change (nodes (Nd tl' q tr)) with ((q :: nodes tl') ++ nodes tr).
    apply Permutation_app_tail. exact Hpermtl.
  - intros y Hy Hyn.
    assert (y <> cr) by (intros ->; apply Hy, in_app_iff; auto).
    assert (y <> q0) by (intros ->; apply Hy, in_app_iff; auto).
    assert (y <> lq) by (destruct Hlqtl as [E|Hin]; [congruence|intros ->; apply Hy, in_app_iff; auto]).
    unfold d1. ag. reflexivity.
  - intros y Hy.
    assert (y <> q) by (intros ->; apply Hy, in_app_iff; auto).
    assert (y <> dq) by (intros ->; apply Hy, in_app_iff; auto).
    unfold r1. ag. auto.
Qed.

Lemma TreeOK_delete t g p : TreeOK t g -> p < lz_N ->
  TreeOK (delete_node t p) (reg_del g p) /\
  textBuf (delete_node t p) = textBuf t /\
  matchLength (delete_node t p) = matchLength t /\
  matchPosition (delete_node t p) = matchPosition t.
Proof.
  intros (f & Hrep & Hlink & Hun) Hp.
  destruct (g p) as [c|] eqn:Egp.
  - (* p is registered under c *)
    destruct (proj1 (Hlink p c) Egp) as (Hc & Hin).
    destruct (find_node _ _ Hin) as (k & tl & tr & ET).
    destruct (Hrep c Hc) as (HrepT & NDT).
    assert (Hroot : lz_N < rootof c) by (unfold rootof; lia).
    assert (Hpost : del_post t (delete_node t p) p (rootof c) (f c)).
    { rewrite ET in *. apply delete_ok; auto. }
    destruct Hpost as ((T' & Hpost) & Hrest). split; [|exact Hrest].
    assert (Hperm := proj1 (proj2 Hpost)). cbn [app] in Hperm.
    assert (NDp : NoDup (p :: nodes T')) by (eapply Permutation_NoDup; eauto).
    apply NoDup_cons_iff in NDp. destruct NDp as (HpT' & _).
    apply (TreeOK_op t _ f g _ c T' [] [p] Hrep Hlink Hun Hc); try assumption.
    + constructor.
    + intros y [].
    + intros q Hq. unfold reg_del. destruct (N.eqb_spec q p) as [->|_]; [contradiction|].
      apply Hlink. split; [exact Hc|]. eapply Permutation_in; [symmetry; exact Hperm|right; exact Hq].
    + intros q _ [<-|[]]. unfold reg_del. rewrite N.eqb_refl. reflexivity.
    + intros q Hq. unfold reg_del. destruct (N.eqb_spec q p) as [->|_]; [|reflexivity].
      contradiction Hq. left. reflexivity.
  - (* p is not registered: nothing happens *)
    assert (delete_node t p = t) as ->.
    { unfold delete_node. rewrite (Hun p Hp Egp), N.eqb_refl. reflexivity. }
    split; [|auto]. exists f. split; [exact Hrep|]. split.
    + intros q c. unfold reg_del. destruct (N.eqb_spec q p) as [->|Hqp]; [|apply Hlink].
      split; [discriminate|]. intros H. apply Hlink in H. congruence.
    + intros q Hq. unfold reg_del. destruct (N.eqb_spec q p) as [->|Hqp]; [intros _; auto|auto].
Qed.

Theorem search_spec : SearchSpec TreeOK.
Proof.
  constructor.
  - exact TreeOK_init.
  - exact TreeOK_ext.
  - exact TreeOK_insert.
  - exact TreeOK_delete.
Qed.

Print Assumptions search_spec.
