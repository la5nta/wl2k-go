(* Lzhuf/CanonEncP.v -- the reference ENCODER (Canon.compress of Lzhuf/Canon.v, the independent
   transcription of LZHUF.C) emits the library's FORMAT: the header, then the bits of a sequence
   of well-formed tokens that expands to the input (canon_compress_format); hence the library's
   reader decompresses what the reference compressor emits (canon_to_lib: the second
   cross-decoding direction).  The bound on the length is not used by canon_compress_format;
   canon_to_lib needs it for the reader.  The reference's search trees are the library's
   (ins_eq, del_eq: exact equalities under the side conditions of SearchSpec), so
   SearchP.search_spec transfers; text, registry and tokens are described by the notions of
   WriterP.v (Ring, Regd, Emitted); what differs from the library's writer is the order of the
   operations. *)
From Coq Require Import Lia ZifyN ZifyNat ZifyBool Permutation.
From Verif Require Import Base.Bytes Base.BytesP Base.Arr Lzhuf.Huff Lzhuf.HuffInv Lzhuf.HuffInvP Lzhuf.HuffP Lzhuf.HuffWalkP
  Lzhuf.Enc Lzhuf.Crc Lzhuf.CrcP Lzhuf.Dec Lzhuf.LzP Lzhuf.Bits Lzhuf.BitsRP Lzhuf.BitsWP Lzhuf.Tokens Lzhuf.TokensP Lzhuf.Search Lzhuf.SearchP
  Lzhuf.TokDecP Lzhuf.CanonDecP Lzhuf.WriterP Lzhuf.LzhufP Lzhuf.Canon gen.Tables.
Import ListNotations.
Open Scope N_scope.

(* Canon.ins / Canon.del are the library's insert_node / delete_node under the side conditions of
   SearchSpec, which are needed.  Canon computes the match position ((r + N - p) mod N) - 1 in
   N, the library in Z: they differ when a visited node p equals r, excluded because every
   visited node is a node of the ghost tree and r is not registered (ins_loop_eq: induction on
   the ghost tree, not on the fuel); key_cmp and cmp_loop have different loop shapes and the
   same result (key_cmp_1); the tie-break and the full-match stop of ins_loop and insert_loop
   agree case by case (ins_loop_step). *)
Definition tree_of (b : Canon.bst) : tree :=
  {| dad := Canon.dd b; lson := Canon.ls b; rson := Canon.rs b; textBuf := Canon.tx b;
     matchLength := Canon.mlen b; matchPosition := Z.of_N (Canon.mpos b) |}.

(* reduce the projections of a reference search tree written out as a record *)
Ltac bproj := cbn [Canon.dd Canon.ls Canon.rs Canon.tx Canon.mlen Canon.mpos].

Lemma tree_of_start : tree_of Canon.start_bst = tree_init.
Proof. vm_compute. reflexivity. Qed.

Lemma tree_of_set_tx b i v : tree_of (Canon.set_tx b i v) = set_text (tree_of b) i v.
Proof. reflexivity. Qed.

Lemma key_cmp_stop : forall g t r p i, 60 <= i -> Canon.key_cmp g t r p i = (i, 0%Z).
Proof.
  destruct g as [|g]; intros t r p i H; [reflexivity|]. cbn [Canon.key_cmp].
  change Canon.cF with 60. destruct (N.ltb_spec i 60); [lia|reflexivity].
Qed.

Lemma key_cmp_eq t r p : forall f i, i < 60 -> (N.to_nat (60 - i) <= f)%nat ->
  Canon.key_cmp f t r p i = cmp_loop f t r p i.
Proof.
  induction f as [|f IH]; intros i Hi Hf; [lia|].
  cbn [Canon.key_cmp cmp_loop]. change Canon.cF with 60. change lz_F with 60.
  destruct (N.ltb_spec i 60); [|lia].
  destruct (Z.eqb_spec (Z.of_N (aget t (r + i)) - Z.of_N (aget t (p + i))) 0) as [E|E]; [|reflexivity].
  destruct (N.ltb_spec (i + 1) 60) as [H1|H1].
  - apply IH; lia.
  - rewrite key_cmp_stop by lia. rewrite E. reflexivity.
Qed.

Lemma key_cmp_1 t r p : Canon.key_cmp Canon.nF t r p 1 = cmp_loop natF t r p 1.
Proof. change Canon.nF with 60%nat. change natF with 60%nat. apply key_cmp_eq; lia. Qed.

Definition cwith (b : Canon.bst) (ml mp : N) : Canon.bst :=
  {| Canon.dd := Canon.dd b; Canon.ls := Canon.ls b; Canon.rs := Canon.rs b; Canon.tx := Canon.tx b;
     Canon.mlen := ml; Canon.mpos := mp |}.

Lemma pos_eq_Z r x : r < lz_N -> x < lz_N -> x <> r ->
  Z.of_N ((r + lz_N - x) mod lz_N - 1) = (Z.of_N (maskN (Z.of_N r - Z.of_N x)) - 1)%Z.
Proof. intros. unfold maskN. numerals. lia. Qed.

(* one visit of the reference's descent, in the terms of SearchP.insert_loop_S *)
Lemma ins_loop_step f b r p cmp :
  let x := slot (Canon.ls b) (Canon.rs b) (0 <=? cmp)%Z p in
  r < lz_N -> x < lz_N -> x <> r ->
  exists ml mp full cmp',
    mupd (tree_of b) r x = (ml, Z.of_N mp, full, cmp') /\
    tree_of (Canon.ins_loop (S f) b r p cmp) =
    (if full then replace_node (tree_of (cwith b ml mp)) r x
     else tree_of (Canon.ins_loop f (cwith b ml mp) r x cmp')).
Proof.
  intros x Hr Hx Hne. cbn [Canon.ins_loop]. cbv zeta.
  change (if (0 <=? cmp)%Z then aget (Canon.rs b) p else aget (Canon.ls b) p) with x.
  change Canon.cNIL with lz_NIL.
  assert ((x =? lz_NIL) = false) as -> by (apply N.eqb_neq; numerals; lia).
  unfold mupd. cbn [tree_of textBuf matchLength matchPosition]. rewrite key_cmp_1.
  destruct (cmp_loop natF (Canon.tx b) r x 1) as [i c'].
  change Canon.cN with lz_N. change Canon.cTHRESHOLD with lz_Threshold. change Canon.cF with lz_F.
  rewrite <- (pos_eq_Z r x Hr Hx Hne). set (c := (r + lz_N - x) mod lz_N - 1).
  destruct (lz_Threshold <? i); [|repeat eexists].
  destruct (Canon.mlen b <? i); cbn [andb].
  - destruct (lz_F <=? i).
    + exists i, c, true, c'. split; [reflexivity|].
      unfold replace_node, cwith, tree_of. bproj. tproj. cbv zeta.
      match goal with |- context [if ?c then _ else _] => destruct c end; reflexivity.
    + rewrite N.eqb_refl, Z.ltb_irrefl. repeat eexists.
  - assert (E : (Z.of_N c <? Z.of_N (Canon.mpos b))%Z = (c <? Canon.mpos b)).
    { destruct (Z.ltb_spec (Z.of_N c) (Z.of_N (Canon.mpos b))), (N.ltb_spec c (Canon.mpos b)); try reflexivity; lia. }
    rewrite E. destruct ((i =? Canon.mlen b) && (c <? Canon.mpos b)); repeat eexists.
Qed.

Lemma ins_loop_eq r : r < lz_N -> forall T fuel b p cmp,
  rep (Canon.dd b) (Canon.ls b) (Canon.rs b) p T (slot (Canon.ls b) (Canon.rs b) (0 <=? cmp)%Z p) ->
  ~ In r (nodes T) ->
  tree_of (Canon.ins_loop fuel b r p cmp) = insert_loop fuel (tree_of b) r p cmp.
Proof.
  intros Hr. induction T as [|tl IHl x tr IHr]; intros fuel b p cmp Hrep Hnr;
    (destruct fuel as [|f]; [reflexivity|]).
  - cbn [Canon.ins_loop insert_loop rep] in *. unfold slot in Hrep. cbn [tree_of lson rson].
    rewrite Hrep. change Canon.cNIL with lz_NIL. rewrite N.eqb_refl. reflexivity.
  - assert (Hrep' := Hrep). cbn [rep] in Hrep'. destruct Hrep' as (Ex & Hx & Hdx & Hl & Hr').
    assert (Hxr : x <> r) by (intros ->; apply Hnr; left; reflexivity).
    destruct (ins_loop_step f b r p cmp) as (ml & mp & full & cmp' & Em & ->); rewrite ?Ex in *; try assumption.
    rewrite insert_loop_S. cbv zeta.
    change (lson (tree_of b)) with (Canon.ls b). change (rson (tree_of b)) with (Canon.rs b).
    rewrite Ex, Em. assert ((x =? lz_NIL) = false) as -> by (apply N.eqb_neq; numerals; lia).
    destruct full; [reflexivity|].
    change (with_match (tree_of b) ml (Z.of_N mp)) with (tree_of (cwith b ml mp)).
    destruct (0 <=? cmp')%Z eqn:Ec.
    + apply IHr; [cbn [cwith Canon.ls Canon.rs]; rewrite Ec; exact Hr'|].
      intros H. apply Hnr. right. apply in_app_iff. right. exact H.
    + apply IHl; [cbn [cwith Canon.ls Canon.rs]; rewrite Ec; exact Hl|].
      intros H. apply Hnr. right. apply in_app_iff. left. exact H.
Qed.

Theorem ins_eq b g r :
  TreeOK (tree_of b) g -> r < lz_N -> g r = None -> aget (Canon.tx b) r < 256 ->
  tree_of (Canon.ins b r) = insert_node (tree_of b) r.
Proof.
  intros (f & Hrep & Hlink & Hun) Hr Hgr Hc.
  set (c := aget (Canon.tx b) r) in *.
  destruct (Hrep c Hc) as (HrepT & NDT).
  assert (HnrT : ~ In r (nodes (f c))).
  { intros H. assert (g r = Some c) by (apply Hlink; auto). congruence. }
  unfold Canon.ins, insert_node. change (S Canon.nN) with (S natN).
  change (Canon.cN + 1 + aget (Canon.tx b) r) with (rootof c).
  change (lz_N + 1 + aget (textBuf (tree_of b)) r) with (rootof c).
  rewrite (ins_loop_eq r Hr (f c)).
  - reflexivity.
  - bproj. change (0 <=? 1)%Z with true. cbn [slot]. change Canon.cNIL with lz_NIL.
    assert (E : aget (aset (Canon.rs b) r lz_NIL) (rootof c) = aget (Canon.rs b) (rootof c)).
    { apply aget_aset_other. unfold rootof. numerals. lia. }
    rewrite E.
    apply rep_aset_l; [exact HnrT|]. apply rep_aset_r; [exact HnrT|]. exact HrepT.
  - exact HnrT.
Qed.

Lemma far_right_eq : forall f a q, Canon.far_right f a q = rightmost f a q.
Proof. induction f as [|f IH]; intros a q; [reflexivity|]. cbn [Canon.far_right rightmost]. rewrite IH. reflexivity. Qed.

Lemma aget_aset_self a i p : aget (aset a i (aget a p)) p = aget a p.
Proof.
  destruct (N.eq_dec i p) as [->|H]; [apply aget_aset_same|apply aget_aset_other; exact H].
Qed.

(* In DeleteNode's last case the library reads rson[p] AFTER rson[dad[q]] was rewritten, the
   reference before: equal because dad[q] <> p for the rightmost node q of the left subtree
   (SearchP.rightmost_ctx). *)
Theorem del_eq b g p :
  TreeOK (tree_of b) g -> p < lz_N ->
  tree_of (Canon.del b p) = delete_node (tree_of b) p.
Proof.
  intros (f & Hrep & Hlink & Hun) Hp.
  unfold Canon.del, delete_node.
  change (dad (tree_of b)) with (Canon.dd b). change (lson (tree_of b)) with (Canon.ls b).
  change (rson (tree_of b)) with (Canon.rs b). change (textBuf (tree_of b)) with (Canon.tx b).
  change (matchLength (tree_of b)) with (Canon.mlen b).
  change (matchPosition (tree_of b)) with (Z.of_N (Canon.mpos b)).
  change Canon.cNIL with lz_NIL. change Canon.nN with natN.
  set (d := Canon.dd b). set (l := Canon.ls b). set (rr := Canon.rs b).
  destruct (N.eqb_spec (aget d p) lz_NIL) as [Ed|Ed]; [reflexivity|].
  destruct (N.eqb_spec (aget rr p) lz_NIL) as [Er|Er].
  { match goal with |- context [if ?c then _ else _] => destruct c end; reflexivity. }
  destruct (N.eqb_spec (aget l p) lz_NIL) as [El|El].
  { match goal with |- context [if ?c then _ else _] => destruct c end; reflexivity. }
  destruct (N.eqb_spec (aget rr (aget l p)) lz_NIL) as [Eb|Eb].
  { rewrite (aget_aset_self rr (aget l p) p).
    match goal with |- context [if ?c then _ else _] => destruct c end; reflexivity. }
  (* the rightmost node of the left subtree: here the tree shape is needed *)
  rewrite far_right_eq.
  destruct (g p) as [c|] eqn:Egp.
  2:{ exfalso. apply Ed. apply (Hun p Hp Egp). }
  apply Hlink in Egp. destruct Egp as (Hc & Hin).
  destruct (find_node _ _ Hin) as (k & tl & tr & ET).
  destruct (Hrep c Hc) as (HrepT & NDT). rewrite ET in HrepT, NDT.
  apply rep_plug in HrepT. destruct HrepT as (Hk & Hs).
  cbn [rep] in Hs. destruct Hs as (Ex & Hp' & Hdp & Hl & Hr). 
  change (dad (tree_of b)) with d in Hl, Hr. change (lson (tree_of b)) with l in Hl, Hr.
  change (rson (tree_of b)) with rr in Hl, Hr.
  apply nodup_plug in NDT. destruct NDT as (NDs & NDk & Hdisj).
  cbn [nodes] in NDs. apply NoDup_cons_iff in NDs. destruct NDs as (Hpn & NDlr).
  apply NoDup_app_iff in NDlr. destruct NDlr as (NDl & NDr & Hlr).
  assert (Hpl : ~ In p (nodes tl)) by (intros H; apply Hpn, in_app_iff; auto).
  destruct tl as [|a q0 bb]; [cbn [rep] in Hl; congruence|].
  assert (Hl' := Hl). cbn [rep] in Hl'. destruct Hl' as (El' & Hq0 & Hdq0 & Ha & Hb).
  rewrite El' in *.
  assert (Hbne : bb <> Lf) by (intros E; apply Eb; apply (rep_Lf_iff _ _ _ _ _ _ Hb); exact E).
  assert (NDl' := NDl). cbn [nodes] in NDl'. apply NoDup_cons_iff in NDl'. destruct NDl' as (_ & NDab).
  apply NoDup_app_iff in NDab. destruct NDab as (_ & NDb & _).
  destruct (rightmost_ctx d l rr bb a q0 p natN Hl Hbne) as (K & tq & aq & EK).
  { apply (pigeon _ _ NDb), (rep_lt _ _ _ _ _ _ Hb). }
  cbv zeta in EK. set (q := rightmost natN rr q0) in *.
  assert (Hqtl : In q (nodes (Nd a q0 bb))) by (rewrite EK; apply in_plug; left; left; reflexivity).
  assert (Hdqtl : In (aget d q) (nodes (Nd a q0 bb))) by (rewrite EK; apply in_plug; right; left; reflexivity).
  assert (Hqp : q <> p) by (intros E; apply Hpl; rewrite <- E; exact Hqtl).
  assert (Hdqp : aget d q <> p) by (intros E; apply Hpl; rewrite <- E; exact Hdqtl).
  cbv zeta.
  assert (E1 : aget (aset l q q0) p = q0) by (rewrite aget_aset_other by exact Hqp; exact El').
  assert (E2 : aget (aset rr (aget d q) (aget l q)) p = aget rr p) by (apply aget_aset_other; exact Hdqp).
  assert (E3 : aget (aset (aset rr (aget d q) (aget l q)) q (aget rr p)) p = aget rr p).
  { rewrite aget_aset_other by exact Hqp. exact E2. }
  rewrite E1, E2, E3.
  match goal with |- context [if ?c then _ else _] => destruct c end; reflexivity.
Qed.

Lemma c_insert b g r :
  TreeOK (tree_of b) g -> r < lz_N -> g r = None -> aget (Canon.tx b) r < 256 ->
  exists g',
    TreeOK (tree_of (Canon.ins b r)) g' /\
    g' r = Some (aget (Canon.tx b) r) /\
    (forall q, q <> r -> g' q = g q \/ g' q = None) /\
    Canon.tx (Canon.ins b r) = Canon.tx b /\
    Canon.mlen (Canon.ins b r) <= lz_F /\
    (lz_Threshold < Canon.mlen (Canon.ins b r) ->
       exists p, p < lz_N /\ p <> r /\ g p = Some (aget (Canon.tx b) r) /\
         Z.of_N (Canon.mpos (Canon.ins b r)) = (Z.of_N (maskN (Z.of_N r - Z.of_N p)) - 1)%Z /\
         forall k, 1 <= k -> k < Canon.mlen (Canon.ins b r) ->
           aget (Canon.tx b) (r + k) = aget (Canon.tx b) (p + k)).
Proof.
  intros HT Hr Hg Hc.
  pose proof (ins_eq b g r HT Hr Hg Hc) as E.
  destruct (ss_insert _ search_spec (tree_of b) g r HT Hr Hg Hc) as (g' & H1 & H2 & H3 & H4 & H5 & H6).
  rewrite <- E in H1, H4, H5, H6. exists g'.
  repeat split; try assumption.
Qed.

Lemma c_delete b g p : TreeOK (tree_of b) g -> p < lz_N ->
  TreeOK (tree_of (Canon.del b p)) (reg_del g p) /\ Canon.tx (Canon.del b p) = Canon.tx b.
Proof.
  intros HT Hp. pose proof (del_eq b g p HT Hp) as E.
  destruct (ss_delete _ search_spec (tree_of b) g p HT Hp) as (H1 & H2 & _).
  rewrite <- E in H1, H2. split; assumption.
Qed.

Lemma sym_walk_eq : forall f h k acc, Canon.sym_walk f (hf_of h) k acc = code_walk f h k acc.
Proof.
  induction f as [|f IH]; intros h k acc; [reflexivity|].
  cbn [Canon.sym_walk code_walk]. change Canon.cR with lz_R. change (Canon.pr (hf_of h)) with (prnt h).
  destruct (aget (prnt h) k =? lz_R); [reflexivity|apply IH].
Qed.

Lemma sym_code_eq h c : Canon.sym_code (hf_of h) c = code_of h c.
Proof.
  unfold Canon.sym_code, code_of. change Canon.nT with natT. change Canon.cT with lz_T.
  change (Canon.pr (hf_of h)) with (prnt h). apply sym_walk_eq.
Qed.

Lemma nat_bits_msb n : forall w, Canon.nat_bits n w = bits_msb w n.
Proof.
  unfold Canon.nat_bits. induction w as [|w IH]; [reflexivity|].
  rewrite seq_S, rev_app_distr. cbn [rev app map bits_msb Nat.add]. rewrite IH. reflexivity.
Qed.

(* the same tables (LzP.encode_tables_canonical), the same bits of the same numbers *)
Lemma pos_code_eq p : Canon.pos_code p = pos_code p.
Proof.
  destruct encode_tables_canonical as [Ec El].
  unfold Canon.pos_code, pos_code, Canon.p_len, Canon.p_code. cbv zeta.
  rewrite !nat_bits_msb, N.shiftr_div_pow2. change (2 ^ 6) with 64.
  rewrite <- (map_nth fst), <- (map_nth snd), <- Ec, <- El. cbn [fst snd]. f_equal.
  apply bits_msb_ext. intros k Hk. apply (N.mod_pow2_bits_low p 6). exact Hk.
Qed.

Lemma repeatN_repeat {A} (x : A) n : repeatN x n = repeat x n.
Proof. induction n as [|n IH]; [reflexivity|]. cbn [repeatN repeat]. rewrite IH. reflexivity. Qed.

Lemma firstn_rep {A} (x : A) : forall n m, firstn n (repeat x m) = repeat x (Nat.min n m).
Proof.
  induction n as [|n IH]; intros m; [reflexivity|]. destruct m as [|m]; [reflexivity|].
  cbn [repeat firstn Nat.min]. rewrite IH. reflexivity.
Qed.

Lemma byte_of_bits_spec l : l <> [] ->
  exists k, (k < 8)%nat /\
    bits_msb 8 (Canon.byte_of_bits l) = firstn 8 l ++ repeat false k /\
    Canon.byte_of_bits l < 256 /\
    (skipn 8 l <> [] -> k = O).
Proof.
  intros Hne. unfold Canon.byte_of_bits. rewrite repeatN_repeat.
  set (l8 := firstn 8 (firstn 8 l ++ repeat false 7)).
  assert (Hlen : length l <> O) by (destruct l; [congruence|discriminate]).
  assert (H8 : length l8 = 8%nat).
  { unfold l8. rewrite firstn_length, app_length, firstn_length, repeat_length. lia. }
  change (fold_left _ l8 0) with (shift_in l8 0).
  pose proof (bits_msb_shifted l8) as A. pose proof (shift_in_lt l8) as B. rewrite H8 in A, B. rewrite A.
  exists (8 - Nat.min 8 (length l))%nat. split; [lia|]. split; [|split; [exact B|]].
  - unfold l8. rewrite firstn_app, firstn_firstn, Nat.min_id, firstn_length.
    f_equal. rewrite firstn_rep. f_equal. lia.
  - intros Hs. assert (length (skipn 8 l) <> O) by (destruct (skipn 8 l); [congruence|discriminate]).
    rewrite skipn_length in H. lia.
Qed.

Lemma pack_bits_nil f : Canon.pack_bits f [] = [].
Proof. destruct f; reflexivity. Qed.

Lemma pack_bits_spec : forall f l, (length l < f)%nat ->
  exists k, (k < 8)%nat /\
    bytes_bits (Canon.pack_bits f l) = l ++ repeat false k /\
    Forall (fun b => b < 256) (Canon.pack_bits f l).
Proof.
  induction f as [|f IH]; intros l Hf; [lia|].
  destruct l as [|x l'] eqn:El.
  - exists O. cbn [Canon.pack_bits]. split; [lia|]. split; [reflexivity|constructor].
  - rewrite <- El in *. assert (Hne : l <> []) by (rewrite El; discriminate).
    assert (Ep : Canon.pack_bits (S f) l = Canon.byte_of_bits l :: Canon.pack_bits f (skipn 8 l)).
    { rewrite El. reflexivity. }
    rewrite Ep. destruct (byte_of_bits_spec l Hne) as (k & Hk & Hb & Hlt & Hk0).
    unfold bytes_bits. cbn [flat_map]. fold (bytes_bits (Canon.pack_bits f (skipn 8 l))).
    rewrite Hb.
    destruct (skipn 8 l) as [|y s] eqn:Es.
    + rewrite pack_bits_nil. exists k. split; [exact Hk|]. split.
      * cbn [bytes_bits flat_map]. rewrite app_nil_r. f_equal.
        rewrite <- (firstn_skipn 8 l) at 2. rewrite Es, app_nil_r. reflexivity.
      * constructor; [exact Hlt|constructor].
    + rewrite <- Es in *. assert (Hk' : k = O) by (apply Hk0; rewrite Es; discriminate). subst k.
      destruct (IH (skipn 8 l)) as (k2 & Hk2 & Hb2 & Hf2).
      { rewrite skipn_length. assert (length l <> O) by (rewrite El; discriminate). lia. }
      exists k2. split; [exact Hk2|]. split.
      * rewrite Hb2. cbn [repeat]. rewrite app_nil_r, app_assoc, firstn_skipn. reflexivity.
      * constructor; assumption.
Qed.

Lemma bytes_of_bits_spec l :
  exists k, (k < 8)%nat /\
    bytes_bits (Canon.bytes_of_bits l) = l ++ repeat false k /\
    Forall (fun b => b < 256) (Canon.bytes_of_bits l).
Proof. unfold Canon.bytes_of_bits. apply pack_bits_spec. lia. Qed.

Lemma B2 q s : q < 2048 -> s < 2048 -> q <> s -> (q + 2048 - s) mod 2048 < 1989 ->
  (q + 2048 - (s + 1) mod 2048) mod 2048 < 1988.
Proof. intros Hq Hs Hne H. pose proof (ring_off_pred q s Hq Hs Hne) as E. numerals. lia. Qed.
Lemma B6 m s : s = m mod 2048 -> (2048 - 60 + (m + 60)) mod 2048 = s.
Proof. intros ->. exact (ring_r_full m). Qed.

Lemma ringw_snd_lt' l : snd (ringw l) < 2048.
Proof. exact (ringw_snd_lt l). Qed.

(* the state between operations: b the trees and the text, s and r the ring positions, done
   the bytes advanced over, look the lookahead, g the registry; bd bounds the ring interval
   [s, s + bd) that holds the registered positions: N - F before InsertNode(r), N - F + 1
   after it.  A registered position holds its registration byte in the text: position s is
   deleted BEFORE it is overwritten, and the lookahead never exceeds F; so no ghost copy of the
   reader's window is needed as in WriterP.v. *)
Record CanonInv (bd : N) (b : Canon.bst) (s r : N) (done look : bytes) (g : reg) : Prop := {
  c_ring : Ring (Canon.tx b) s r done look;
  c_lenF : lenN look <= lz_F;
  c_P : TreeOK (tree_of b) g;
  c_reg : Regd bd s (Canon.tx b) g
}.
Arguments c_ring {bd b s r done look g} _.
Arguments c_lenF {bd b s r done look g} _.
Arguments c_P {bd b s r done look g} _.
Arguments c_reg {bd b s r done look g} _.

Lemma CanonInv_weaken bd bd' b s r done look g :
  bd <= bd' -> CanonInv bd b s r done look g -> CanonInv bd' b s r done look g.
Proof. intros H I. destruct I. constructor; try assumption. apply (regd_le bd); assumption. Qed.

(* DeleteNode(s), then s and r advance: the position r is now advanced over *)
Lemma flush_adv {b s r done c0 look' g} :
  CanonInv (lz_N - lz_F + 1) b s r done (c0 :: look') g ->
  CanonInv (lz_N - lz_F) (Canon.del b s) ((s + 1) mod lz_N) ((r + 1) mod lz_N) (done ++ [c0]) look'
    (reg_del g s).
Proof.
  intros I. pose proof (ring_s_lt (c_ring I)) as Hsl.
  destruct (c_delete b g s (c_P I) Hsl) as (Pd & Htd).
  constructor; rewrite ?Htd.
  - apply ring_adv, (c_ring I).
  - pose proof (c_lenF I) as H. rewrite lenN_cons in H. lia.
  - exact Pd.
  - apply (regd_del (lz_N - lz_F)); [exact Hsl|exact (c_reg I)].
Qed.

(* the new byte is stored after the lookahead (and in the mirror cell) *)
Definition store (b : Canon.bst) (w c : N) : Canon.bst :=
  let b2 := Canon.set_tx b w c in
  if w <? Canon.cF - 1 then Canon.set_tx b2 (w + Canon.cN) c else b2.

Lemma tx_store b w c : Canon.tx (store b w c) = store_mirror (Canon.tx b) w c.
Proof.
  unfold store, store_mirror. cbv zeta. change (Canon.cF - 1) with (lz_F - 1).
  destruct (w <? lz_F - 1); reflexivity.
Qed.

Lemma store_adv bd b s r done look g c w :
  CanonInv bd b s r done look g -> w = (lz_N - lz_F + (lenN done + lenN look)) mod lz_N ->
  lenN look < lz_F -> g w = None -> c < 256 ->
  CanonInv bd (store b w c) s r done (look ++ [c]) g.
Proof.
  intros I Hw Hl Hgw Hc. constructor.
  - rewrite tx_store. apply ring_store; [exact (c_ring I)|numerals; lia|exact Hc|exact Hw].
  - rewrite lenN_app. change (lenN [c]) with 1. lia.
  - apply (TreeOK_ext (tree_of b)); [apply (c_P I)|..];
      unfold store; cbv zeta; destruct (w <? Canon.cF - 1); reflexivity.
  - (* w is not registered *)
    intros q v Hq. destruct (c_reg I q v Hq) as (H1 & H2 & H3).
    split; [exact H1|]. split; [exact H2|]. rewrite tx_store, store_mirror_low by exact H1.
    rewrite aget_aset_other; [exact H3|]. intros E. subst q. congruence.
Qed.

(* what the match registers say after InsertNode(r) *)
Definition MatchOK (b : Canon.bst) (s r : N) : Prop :=
  Canon.mlen b <= lz_F /\
  (lz_Threshold < Canon.mlen b ->
   exists p, p < lz_N /\ (p + lz_N - s) mod lz_N < lz_N - lz_F /\
     aget (Canon.tx b) p = aget (Canon.tx b) r /\
     Z.of_N (Canon.mpos b) = (Z.of_N (maskN (Z.of_N r - Z.of_N p)) - 1)%Z /\
     forall k, 1 <= k -> k < Canon.mlen b -> aget (Canon.tx b) (r + k) = aget (Canon.tx b) (p + k)).

Lemma ins_step {b s r done look g} :
  CanonInv (lz_N - lz_F) b s r done look g -> look <> [] ->
  exists g',
    CanonInv (lz_N - lz_F + 1) (Canon.ins b r) s r done look g' /\ MatchOK (Canon.ins b r) s r.
Proof.
  intros I Hne. destruct look as [|c0 l]; [congruence|]. clear Hne.
  pose proof (c_ring I) as R. pose proof (ring_r_lt R) as Hrl.
  destruct (ring_head R) as (Hc0 & Hcb).
  pose proof (ring_rs R) as Hrs.
  destruct (c_insert b g r (c_P I) Hrl) as (g1 & Pg1 & Hg1r & Hg1o & Htb1 & HmlF & Hmatch).
  { apply (regd_free (c_reg I)). rewrite Hrs. apply N.le_refl. }
  { rewrite Hc0. exact Hcb. }
  exists g1. split.
  - constructor; rewrite ?Htb1; [exact R|exact (c_lenF I)|exact Pg1|].
    apply (regd_ins (lz_N - lz_F) (lz_N - lz_F + 1) s r (Canon.tx b) (Canon.tx b) g g1 c0 (c_reg I));
      try assumption; try reflexivity.
    + discriminate.
    + rewrite Hrs. reflexivity.
    + rewrite Hg1r, Hc0. reflexivity.
  - split; [exact HmlF|]. intros Hgt. destruct (Hmatch Hgt) as (p & Hp & Hpr & Hgp & Hmp & Hk).
    destruct (c_reg I p _ Hgp) as (H1 & H2 & H3).
    exists p. rewrite Htb1. repeat split; assumption.
Qed.

(* reduce the projections of the reference encoder's state *)
Ltac eproj := cbn [Canon.eb Canon.eh Canon.eout Canon.es Canon.er Canon.elen].

Definition feed1 (e : Canon.enc) (c : N) : Canon.enc :=
  let b1 := Canon.del (Canon.eb e) (Canon.es e) in
  let b3 := store b1 (Canon.es e) c in
  let s' := (Canon.es e + 1) mod Canon.cN in
  let r' := (Canon.er e + 1) mod Canon.cN in
  {| Canon.eb := Canon.ins b3 r'; Canon.eh := Canon.eh e; Canon.eout := Canon.eout e;
     Canon.es := s'; Canon.er := r'; Canon.elen := Canon.elen e |}.

Definition flush1 (e : Canon.enc) : Canon.enc :=
  let b1 := Canon.del (Canon.eb e) (Canon.es e) in
  let s' := (Canon.es e + 1) mod Canon.cN in
  let r' := (Canon.er e + 1) mod Canon.cN in
  let len' := Canon.elen e - 1 in
  {| Canon.eb := if len' =? 0 then b1 else Canon.ins b1 r'; Canon.eh := Canon.eh e;
     Canon.eout := Canon.eout e; Canon.es := s'; Canon.er := r'; Canon.elen := len' |}.

Definition step1 (e : Canon.enc) (input : bytes) : Canon.enc * bytes :=
  match input with
  | c :: rest => (feed1 e c, rest)
  | [] => (flush1 e, [])
  end.

Fixpoint consume (cnt : nat) (e : Canon.enc) (input : bytes) : Canon.enc * bytes :=
  match cnt with
  | O => (e, input)
  | S k => consume k (fst (step1 e input)) (snd (step1 e input))
  end.

Lemma feed_cons k e c rest : Canon.feed (S k) e (c :: rest) = Canon.feed k (feed1 e c) rest.
Proof. reflexivity. Qed.

Lemma flush_tail_S k e : Canon.flush_tail (S k) e = Canon.flush_tail k (flush1 e).
Proof. reflexivity. Qed.

Lemma feed_nil k e : Canon.feed k e [] = (e, [], k).
Proof. destruct k; reflexivity. Qed.

Lemma consume_nil : forall k e, consume k e [] = (Canon.flush_tail k e, []).
Proof.
  induction k as [|k IH]; intros e; [reflexivity|].
  cbn [consume step1 fst snd]. rewrite IH, flush_tail_S. reflexivity.
Qed.

Lemma consume_eq : forall cnt e input,
  consume cnt e input =
  (Canon.flush_tail (snd (Canon.feed cnt e input)) (fst (fst (Canon.feed cnt e input))),
   snd (fst (Canon.feed cnt e input))).
Proof.
  induction cnt as [|k IH]; intros e input; [reflexivity|].
  destruct input as [|c rest].
  - rewrite consume_nil, feed_nil. reflexivity.
  - cbn [consume step1 fst snd]. rewrite feed_cons. apply IH.
Qed.

(* the invariant at the head of an iteration, as far as trees and text are concerned *)
Record IterInv (e : Canon.enc) (input done look : bytes) (g : reg) : Prop := {
  pi_C : CanonInv (lz_N - lz_F + 1) (Canon.eb e) (Canon.es e) (Canon.er e) done look g;
  pi_len : Canon.elen e = lenN look;
  (* the look-ahead shrinks only once the input is used up, so an empty one means the end *)
  pi_full : input <> [] -> lenN look = lz_F;
  pi_match : look <> [] -> MatchOK (Canon.eb e) (Canon.es e) (Canon.er e);
  pi_input : Forall (fun x => x < 256) input
}.
Arguments pi_C {e input done look g} _.
Arguments pi_len {e input done look g} _.
Arguments pi_full {e input done look g} _ _.
Arguments pi_match {e input done look g} _ _.
Arguments pi_input {e input done look g} _.

Lemma lenN_0 l : lenN l = 0 -> l = [].
Proof. destruct l; [reflexivity|]. rewrite lenN_cons. lia. Qed.

Lemma step1_IterInv e input done c0 l g :
  IterInv e input done (c0 :: l) g ->
  exists g' ext,
    IterInv (fst (step1 e input)) (snd (step1 e input)) (done ++ [c0]) (l ++ ext) g' /\
    ext ++ snd (step1 e input) = input /\
    Canon.eh (fst (step1 e input)) = Canon.eh e /\ Canon.eout (fst (step1 e input)) = Canon.eout e.
Proof.
  intros I. pose proof (pi_C I) as IC. pose proof (pi_len I) as Hlen.
  rewrite lenN_cons in Hlen.
  pose proof (flush_adv IC) as I1.
  destruct input as [|c rest]; cbn [step1 fst snd].
  - (* no more input *)
    unfold flush1. cbv zeta. eproj. change Canon.cN with lz_N.
    destruct (N.eqb_spec (Canon.elen e - 1) 0) as [E|E].
    + assert (El : l = []) by (apply lenN_0; lia). subst l.
      exists (reg_del g (Canon.es e)), []. split; [|repeat split; reflexivity].
      constructor; eproj.
      * cbn [app]. apply (CanonInv_weaken (lz_N - lz_F)); [discriminate|exact I1].
      * cbn [app]. rewrite E. reflexivity.
      * congruence.
      * cbn [app]. congruence.
      * constructor.
    + assert (Hne : l <> []) by (intros ->; rewrite lenN_nil in Hlen; lia).
      destruct (ins_step I1 Hne) as (g' & I2 & M2).
      exists g', []. rewrite app_nil_r. split; [|repeat split; reflexivity].
      constructor; eproj.
      * exact I2.
      * lia.
      * congruence.
      * intros _. exact M2.
      * constructor.
  - (* a byte is fed *)
    pose proof (pi_full I ltac:(discriminate)) as HF. rewrite lenN_cons in HF.
    pose proof (pi_input I) as Hin. inversion Hin as [|? ? Hc Hrest]; subst.
    unfold feed1. cbv zeta. eproj. change Canon.cN with lz_N.
    assert (I2 : CanonInv (lz_N - lz_F) (store (Canon.del (Canon.eb e) (Canon.es e)) (Canon.es e) c)
                   ((Canon.es e + 1) mod lz_N) ((Canon.er e + 1) mod lz_N) (done ++ [c0]) (l ++ [c])
                   (reg_del g (Canon.es e))).
    { apply (store_adv _ _ _ _ _ _ _ _ _ I1).
      - (* done ++ [c0] and l are lenN done + F bytes: the position after them is s *)
        rewrite lenN_app. change (lenN [c0]) with 1.
        replace (lenN done + 1 + lenN l) with (lenN done + lz_F) by (numerals; lia).
        rewrite ring_r_full. exact (rg_s (c_ring IC)).
      - lia.
      - unfold reg_del. rewrite N.eqb_refl. reflexivity.
      - exact Hc. }
    assert (Hne : l ++ [c] <> []) by (destruct l; discriminate).
    destruct (ins_step I2 Hne) as (g' & I3 & M3).
    exists g', [c]. split; [|repeat split; reflexivity].
    constructor; eproj.
    + exact I3.
    + rewrite lenN_app. change (lenN [c]) with 1. lia.
    + intros _. rewrite lenN_app. change (lenN [c]) with 1. lia.
    + intros _. exact M3.
    + exact Hrest.
Qed.

Lemma consume_IterInv : forall pre e input done look g,
  IterInv e input done (pre ++ look) g ->
  exists g' ext,
    IterInv (fst (consume (length pre) e input)) (snd (consume (length pre) e input)) (done ++ pre)
      (look ++ ext) g' /\
    ext ++ snd (consume (length pre) e input) = input /\
    Canon.eh (fst (consume (length pre) e input)) = Canon.eh e /\
    Canon.eout (fst (consume (length pre) e input)) = Canon.eout e.
Proof.
  induction pre as [|c0 pre IH]; intros e input done look g I.
  - exists g, []. cbn [length consume fst snd app]. rewrite !app_nil_r. split; [exact I|]. split; [reflexivity|]. split; reflexivity.
  - cbn [app] in I. destruct (step1_IterInv _ _ _ _ _ _ I) as (g1 & ext1 & I1 & E1 & Eh1 & Eo1).
    rewrite <- app_assoc in I1.
    destruct (IH _ _ _ _ _ I1) as (g2 & ext2 & I2 & E2 & Eh2 & Eo2).
    cbn [length consume].
    exists g2, (ext1 ++ ext2). split; [|split; [|split]].
    + rewrite <- app_assoc in I2. cbn [app] in I2. rewrite app_assoc. exact I2.
    + rewrite <- app_assoc, E2. exact E1.
    + rewrite Eh2. exact Eh1.
    + rewrite Eo2. exact Eo1.
Qed.

(* h: the library's tree after the tokens emitted; the reference's tree is its image *)
Record EmitInv (e : Canon.enc) (h : huff) (toks : list token) (done : bytes) : Prop := {
  ti_em : Emitted h (rev (Canon.eout e)) toks done;
  ti_h : Canon.eh e = hf_of h
}.
Arguments ti_em {e h toks done} _.
Arguments ti_h {e h toks done} _.

Definition emit (e : Canon.enc) : Canon.enc * N :=
  let ml0 := if Canon.elen e <? Canon.mlen (Canon.eb e) then Canon.elen e else Canon.mlen (Canon.eb e) in
  if ml0 <=? Canon.cTHRESHOLD then (Canon.emit_symbol e (aget (Canon.tx (Canon.eb e)) (Canon.er e)), 1)
  else (Canon.emit_position (Canon.emit_symbol e (255 - Canon.cTHRESHOLD + ml0)) (Canon.mpos (Canon.eb e)), ml0).

Lemma enc_loop_S f e input : Canon.enc_loop (S f) e input =
  if Canon.elen e =? 0 then e
  else Canon.enc_loop f (fst (consume (N.to_nat (snd (emit e))) (fst (emit e)) input))
                        (snd (consume (N.to_nat (snd (emit e))) (fst (emit e)) input)).
Proof.
  cbn [Canon.enc_loop]. destruct (Canon.elen e =? 0); [reflexivity|].
  unfold emit. cbv zeta.
  match goal with |- context [if ?c then _ else _] => destruct c end; cbn [fst snd];
    rewrite consume_eq;
    match goal with |- context [Canon.feed ?a ?b ?c] => destruct (Canon.feed a b c) as [[e2 rest] nf] end;
    reflexivity.
Qed.

(* the token of an iteration is well formed, expands to the first bytes of the lookahead, and
   its bits are appended under the tree h *)
Lemma emit_spec e input done look h g :
  IterInv e input done look g -> Inv h -> Canon.eh e = hf_of h -> look <> [] ->
  exists t,
    tok_ok t /\ (1 <= N.to_nat (snd (emit e)) <= length look)%nat /\
    tok_step (ringw done) t =
      (wrun (ringw done) (firstn (N.to_nat (snd (emit e))) look), firstn (N.to_nat (snd (emit e))) look) /\
    Canon.eb (fst (emit e)) = Canon.eb e /\ Canon.es (fst (emit e)) = Canon.es e /\
    Canon.er (fst (emit e)) = Canon.er e /\ Canon.elen (fst (emit e)) = Canon.elen e /\
    Canon.eh (fst (emit e)) = hf_of (update h (tok_sym t)) /\
    rev (Canon.eout (fst (emit e))) = rev (Canon.eout e) ++ tok_bits h t.
Proof.
  intros I Hinv Hh Hne. destruct look as [|c0 l]; [congruence|]. clear Hne.
  pose proof (pi_C I) as IC. pose proof (c_ring IC) as R.
  destruct (pi_match I ltac:(discriminate)) as (HmlF & Hmatch).
  destruct (ring_head R) as (Hc0 & Hcb).
  destruct (ring_token (Canon.mlen (Canon.eb e)) (Z.of_N (Canon.mpos (Canon.eb e))) R HmlF)
    as (Hok & Hml & Hstep).
  { intros Hgt. destruct (Hmatch Hgt) as (p & Hp & Hpi & Hpv & Hmpv & Hcmp). exists p.
    rewrite <- (ring_old p R (c_lenF IC) Hp Hpi), Hpv, Hc0. auto. }
  cbv zeta in Hok, Hml, Hstep. rewrite <- (pi_len I), N2Z.id in Hok, Hml, Hstep.
  unfold emit. cbv zeta. change Canon.cTHRESHOLD with lz_Threshold.
  set (ml := if Canon.elen e <? _ then _ else _) in *.
  destruct (ml <=? lz_Threshold); cbn [fst snd tok_len] in *.
  - (* literal *)
    exists (TLit c0). rewrite Hc0. cbn [tok_sym].
    assert (Hc' : c0 < lz_NumChar) by (numerals; lia).
    split; [exact Hok|]. split; [exact Hml|]. split; [exact Hstep|].
    unfold Canon.emit_symbol. eproj.
    split; [reflexivity|]. split; [reflexivity|]. split; [reflexivity|]. split; [reflexivity|].
    split; [rewrite Hh; apply canon_bump; assumption|].
    rewrite Hh, sym_code_eq, rev_append_rev, rev_app_distr, rev_involutive.
    unfold tok_bits. cbn [tok_sym]. rewrite app_nil_r. reflexivity.
  - (* match *)
    exists (TMatch (Canon.mpos (Canon.eb e)) ml). cbn [tok_sym].
    assert (Hc' : 255 - lz_Threshold + ml < lz_NumChar).
    { unfold ml. clear - HmlF. destruct (N.ltb_spec (Canon.elen e) (Canon.mlen (Canon.eb e))); numerals; lia. }
    split; [exact Hok|]. split; [exact Hml|]. split; [exact Hstep|].
    unfold Canon.emit_position, Canon.emit_symbol. eproj.
    split; [reflexivity|]. split; [reflexivity|]. split; [reflexivity|]. split; [reflexivity|].
    split; [rewrite Hh; apply canon_bump; assumption|].
    rewrite Hh, sym_code_eq, pos_code_eq.
    rewrite !rev_append_rev, !rev_app_distr, !rev_involutive.
    unfold tok_bits. cbn [tok_sym]. rewrite app_assoc. reflexivity.
Qed.

Lemma enc_loop_spec : forall fuel e input done look h toks g,
  IterInv e input done look g -> EmitInv e h toks done -> (length look + length input <= fuel)%nat ->
  exists h' toks', EmitInv (Canon.enc_loop fuel e input) h' toks' (done ++ look ++ input).
Proof.
  induction fuel as [|f IH]; intros e input done look h toks g I T Hf.
  - destruct look; [|cbn [length] in Hf; lia]. destruct input; [|cbn [length] in Hf; lia].
    exists h, toks. cbn [Canon.enc_loop app]. rewrite app_nil_r. exact T.
  - rewrite enc_loop_S. pose proof (pi_len I) as Hlen.
    destruct (N.eqb_spec (Canon.elen e) 0) as [E|E].
    + assert (look = []) by (apply lenN_0; lia). subst look.
      assert (input = []).
      { destruct input; [reflexivity|]. pose proof (pi_full I ltac:(discriminate)) as H.
        rewrite lenN_nil in H. discriminate. }
      subst. exists h, toks. cbn [app]. rewrite app_nil_r. exact T.
    + assert (Hne : look <> []) by (intros ->; rewrite lenN_nil in Hlen; contradiction).
      destruct (emit_spec _ _ _ _ _ _ I (emitted_inv _ _ _ _ (ti_em T)) (ti_h T) Hne)
        as (t & Hok & Hml & Hstep & Eb & Es & Er & El & Hh & Hbits).
      set (e1 := fst (emit e)) in *. set (ml := N.to_nat (snd (emit e))) in *.
      assert (I1 : IterInv e1 input done (firstn ml look ++ skipn ml look) g).
      { rewrite firstn_skipn. destruct I. constructor; rewrite ?Eb, ?Es, ?Er, ?El; assumption. }
      destruct (consume_IterInv _ _ _ _ _ _ I1) as (g' & ext & I2 & Eext & Eh2 & Eo2).
      rewrite firstn_length, Nat.min_l in I2, Eext, Eh2, Eo2 by lia.
      set (cs := consume ml e1 input) in *.
      destruct (IH (fst cs) (snd cs) (done ++ firstn ml look) (skipn ml look ++ ext)
                  (update h (tok_sym t)) (toks ++ [t]) g' I2) as (h' & toks' & T').
      * constructor.
        -- rewrite Eo2, Hbits. apply emitted_snoc; [exact (ti_em T)|exact Hok|exact Hstep].
        -- rewrite Eh2. exact Hh.
      * assert (length input = (length ext + length (snd cs))%nat) by (rewrite <- Eext, app_length; reflexivity).
        rewrite app_length, skipn_length. lia.
      * exists h', toks'.
        replace (done ++ look ++ input) with ((done ++ firstn ml look) ++ (skipn ml look ++ ext) ++ snd cs);
          [exact T'|].
        rewrite <- Eext. rewrite <- !app_assoc. f_equal. rewrite app_assoc, firstn_skipn. reflexivity.
Qed.

Lemma fill_ahead_spec : forall n input b l0,
  lenN l0 + N.of_nat n <= lz_F -> Canon.tx b = fst (ringw l0) ->
  exists b',
    Canon.fill_ahead b (lz_N - lz_F) n (lenN l0) input =
      (b', lenN (l0 ++ firstn n input), skipn n input) /\
    Canon.tx b' = fst (ringw (l0 ++ firstn n input)) /\
    Canon.dd b' = Canon.dd b /\ Canon.ls b' = Canon.ls b /\ Canon.rs b' = Canon.rs b.
Proof.
  induction n as [|n IH]; intros input b l0 Hl Htx.
  - exists b. cbn [Canon.fill_ahead firstn skipn]. rewrite app_nil_r. auto.
  - destruct input as [|c rest].
    + exists b. cbn [Canon.fill_ahead firstn skipn]. rewrite app_nil_r. auto.
    + cbn [Canon.fill_ahead firstn skipn].
      destruct (IH rest (Canon.set_tx b (lz_N - lz_F + lenN l0) c) (l0 ++ [c]))
        as (b' & E & Ht & Ed & El & Er).
      * rewrite lenN_app. change (lenN [c]) with 1. lia.
      * unfold Canon.set_tx. bproj. rewrite ringw_snoc, Htx. cbn [fst]. f_equal.
        rewrite ringw_snd. clear - Hl. numerals. lia.
      * exists b'. rewrite lenN_app in E. change (lenN [c]) with 1 in E.
        rewrite <- app_assoc in E, Ht. cbn [app] in E, Ht.
        split; [exact E|]. split; [exact Ht|]. auto.
Qed.

(* the positions R - i, ..., R - (i + n - 1) are inserted, all of them blanks below R *)
Lemma ins_back_spec R : R <= lz_N -> forall n i b g, (1 <= i)%nat -> N.of_nat (i + n) <= R ->
  TreeOK (tree_of b) g -> (forall q, q < R -> aget (Canon.tx b) q = 32) ->
  (forall q c, g q = Some c -> R - N.of_nat i < q /\ q < R /\ aget (Canon.tx b) q = c) ->
  exists g',
    TreeOK (tree_of (Canon.ins_back b R i n)) g' /\
    Canon.tx (Canon.ins_back b R i n) = Canon.tx b /\
    (forall q c, g' q = Some c -> q < R /\ aget (Canon.tx b) q = c).
Proof.
  intros HR. induction n as [|n IH]; intros i b g Hi Hin HT H32 Hg.
  - exists g. cbn [Canon.ins_back]. split; [exact HT|]. split; [reflexivity|].
    intros q c H. apply Hg in H. tauto.
  - cbn [Canon.ins_back]. set (r0 := R - N.of_nat i).
    assert (Hr0 : r0 < R /\ R - N.of_nat (S i) < r0) by (unfold r0; lia).
    destruct Hr0 as [Hr0 Hr0'].
    destruct (c_insert b g r0 HT) as (g1 & Pg1 & Hg1r & Hg1o & Htb1 & _ & _).
    { lia. }
    { destruct (g r0) as [v|] eqn:Eg; [|reflexivity]. exfalso. apply Hg in Eg. fold r0 in Eg. lia. }
    { rewrite H32 by exact Hr0. reflexivity. }
    destruct (IH (S i) (Canon.ins b r0) g1) as (g' & P' & Ht' & Hg').
    + lia.
    + lia.
    + exact Pg1.
    + rewrite Htb1. exact H32.
    + rewrite Htb1. intros q c Hq. destruct (N.eq_dec q r0) as [E|E].
      * subst q. rewrite Hg1r in Hq. injection Hq as <-. auto.
      * destruct (Hg1o q E) as [E'|E']; rewrite E' in Hq; [|discriminate].
        apply Hg in Hq. fold r0 in Hq. destruct Hq as (H1 & H2 & H3). split; [lia|auto].
    + exists g'. rewrite Htb1 in Ht', Hg'. auto.
Qed.

Lemma encode_body_unfold x : x <> [] ->
  Canon.encode_body x =
  let '(b1, len, rest) := Canon.fill_ahead Canon.start_bst (lz_N - lz_F) 60 0 x in
  let b2 := Canon.ins (Canon.ins_back b1 (lz_N - lz_F) 1 60) (lz_N - lz_F) in
  let e := Canon.enc_loop (S (length x))
             {| Canon.eb := b2; Canon.eh := Canon.start_huff; Canon.eout := []; Canon.es := 0;
                Canon.er := lz_N - lz_F; Canon.elen := len |} rest in
  Canon.bytes_of_bits (rev' (Canon.eout e)).
Proof. destruct x; [congruence|reflexivity]. Qed.

Lemma encode_body_tokens x : Forall (fun b => b < 256) x -> x <> [] ->
  exists toks, Forall tok_ok toks /\ expand win_init toks = x /\
    Canon.encode_body x = Canon.bytes_of_bits (toks_bits huff_init toks).
Proof.
  intros Hx Hne. rewrite (encode_body_unfold x Hne).
  destruct (fill_ahead_spec 60 x Canon.start_bst []) as (b1 & E & Ht & Ed & El & Er).
  { rewrite lenN_nil. numerals. lia. }
  { reflexivity. }
  change (lenN []) with 0 in E. cbn [app] in E, Ht. rewrite E.
  set (look := firstn 60 x) in *. set (rest := skipn 60 x) in *.
  assert (Hxs : look ++ rest = x) by apply firstn_skipn.
  assert (Hlk : lenN look <= 60) by (unfold lenN, look; rewrite firstn_length; lia).
  assert (Hlkne : look <> []).
  { unfold look. destruct x; [congruence|discriminate]. }
  assert (Hbl : Forall (fun b => b < 256) look /\ Forall (fun b => b < 256) rest).
  { apply Forall_app. rewrite Hxs. exact Hx. }
  destruct Hbl as [Hbl Hbr].
  (* the text before the insertions *)
  assert (H32 : forall q, q < lz_N - lz_F -> aget (Canon.tx b1) q = 32).
  { intros q Hq. rewrite Ht. unfold ringw. rewrite wrun_other.
    - apply win_init_32. exact Hq.
    - rewrite win_init_snd. reflexivity.
    - intros i Hi. rewrite win_init_snd. unfold lenN in Hlk. clear - Hi Hlk Hq. numerals. lia. }
  assert (HT1 : TreeOK (tree_of b1) reg_empty).
  { apply (TreeOK_ext (tree_of Canon.start_bst)); [rewrite tree_of_start; apply TreeOK_init|..];
      unfold tree_of; tproj; assumption. }
  destruct (ins_back_spec (lz_N - lz_F) ltac:(discriminate) 60 1 b1 reg_empty) as (g1 & P1 & Ht1 & Hg1);
    try assumption.
  { apply le_n. }
  { discriminate. }
  { intros q c H. discriminate H. }
  set (b2 := Canon.ins_back b1 (lz_N - lz_F) 1 60) in *.
  assert (I1 : CanonInv (lz_N - lz_F) b2 0 (lz_N - lz_F) [] look g1).
  { constructor; [constructor| | |].
    - clear - Hlk. numerals. lia.
    - reflexivity.
    - reflexivity.
    - intros q Hq. rewrite Ht1, Ht. reflexivity.
    - intros q Hq H. rewrite lenN_nil in H. clear - Hlk H. numerals. lia.
    - exact Hbl.
    - exact Hlk.
    - exact P1.
    - intros q c Hq. apply Hg1 in Hq. destruct Hq as [H1 H2]. rewrite Ht1.
      split; [numerals; lia|]. split; [clear - H1; numerals; lia|exact H2]. }
  destruct (ins_step I1 Hlkne) as (g2 & I2 & M2).
  cbv zeta.
  set (e0 := {| Canon.eb := Canon.ins b2 (lz_N - lz_F); Canon.eh := Canon.start_huff; Canon.eout := [];
                Canon.es := 0; Canon.er := lz_N - lz_F; Canon.elen := lenN look |}).
  assert (P0 : IterInv e0 rest [] look g2).
  { constructor; unfold e0; eproj.
    - exact I2.
    - reflexivity.
    - intros Hr. unfold lenN, look, rest in *. rewrite firstn_length.
      assert (length (skipn 60 x) <> O) by (destruct (skipn 60 x); [congruence|discriminate]).
      rewrite skipn_length in H. numerals. lia.
    - intros _. exact M2.
    - exact Hbr. }
  assert (T0 : EmitInv e0 huff_init [] []).
  { constructor; unfold e0; eproj.
    - exact emitted_nil.
    - apply canon_start. }
  destruct (enc_loop_spec (S (length x)) e0 rest [] look huff_init [] g2 P0 T0) as (h & toks & T).
  { rewrite <- Hxs, app_length. lia. }
  cbn [app] in T. rewrite Hxs in T. pose proof (ti_em T) as Em.
  exists toks. split; [exact (em_ok Em)|]. split; [exact (em_exp Em)|].
  rewrite rev'_rev, (em_bits Em). reflexivity.
Qed.

Theorem canon_compress_format : forall (crc : bool) x,
  Forall (fun b => b < 256) x -> (Z.of_nat (length x) < 2147483648)%Z ->
  exists toks body pad,
    Forall tok_ok toks /\ expand win_init toks = x /\
    Forall (fun b => b < 256) body /\
    bytes_bits body = toks_bits huff_init toks ++ pad /\ (length pad < 8)%nat /\
    Canon.compress crc x =
      (if crc then le16 (crc_impl (le32 (N.of_nat (length x)) ++ body)) else [])
      ++ le32 (N.of_nat (length x)) ++ body.
Proof.
  intros crc x Hx _.
  assert (Hfin : forall toks, Forall tok_ok toks -> expand win_init toks = x ->
            Canon.encode_body x = Canon.bytes_of_bits (toks_bits huff_init toks) ->
            exists toks body pad,
              Forall tok_ok toks /\ expand win_init toks = x /\
              Forall (fun b => b < 256) body /\
              bytes_bits body = toks_bits huff_init toks ++ pad /\ (length pad < 8)%nat /\
              Canon.compress crc x =
                (if crc then le16 (crc_impl (le32 (N.of_nat (length x)) ++ body)) else [])
                ++ le32 (N.of_nat (length x)) ++ body).
  { intros toks Hok Hexp Hbody.
    destruct (bytes_of_bits_spec (toks_bits huff_init toks)) as (k & Hk & Hbits & Hbytes).
    exists toks, (Canon.encode_body x), (repeat false k).
    split; [exact Hok|]. split; [exact Hexp|]. rewrite Hbody.
    split; [exact Hbytes|]. split; [exact Hbits|]. split; [rewrite repeat_length; exact Hk|].
    unfold Canon.compress. cbv zeta. rewrite Hbody.
    destruct crc; [|reflexivity].
    rewrite canon_crc; [reflexivity|]. apply Forall_app. split; [apply le32_bytes|exact Hbytes]. }
  destruct x as [|c x'] eqn:Ex.
  - apply (Hfin []); [constructor|reflexivity|reflexivity].
  - rewrite <- Ex in *.
    destruct (encode_body_tokens x Hx) as (toks & Hok & Hexp & Hbody); [rewrite Ex; discriminate|].
    apply (Hfin toks); assumption.
Qed.

Theorem canon_to_lib : forall (crc : bool) (x : bytes) (bs : nat),
  Forall (fun b => b < 256) x -> (Z.of_nat (length x) < 2147483648)%Z -> (0 < bs)%nat ->
  match new_reader crc [Canon.compress crc x] with
  | Some d => let '(out, st, d') := read_all_loop (S (S (length x))) d bs [] in
              out = x /\ st = REof /\ close_reader d' = ErrNone
  | None => False
  end.
Proof.
  intros crc x bs Hx Hlen Hbs.
  destruct (canon_compress_format crc x Hx Hlen) as (toks & body & pad & Hok & Hexp & Hb & Hbits & Hpad & Hc).
  pose proof (reader_decodes_tokens crc toks body pad bs Hok Hb Hbits Hpad) as H.
  rewrite Hexp in H. specialize (H Hlen Hbs). cbv zeta in H. rewrite <- Hc in H.
  unfold read_all in H.
  destruct (new_reader crc [Canon.compress crc x]) as [d|]; [|discriminate H].
  destruct (read_all_loop (S (S (length x))) d bs []) as [[out st] d'].
  injection H as H1 H2 H3. auto.
Qed.

Print Assumptions canon_compress_format.
Print Assumptions canon_to_lib.
