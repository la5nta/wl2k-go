(* Lzhuf/DecP.v — proofs about the reader model (Lzhuf/Dec.v).  The decoding loop of Read as a
   relation: one iteration decodes one token (dec_tok: decodeChar, and decodePosition for a match)
   and delivers its expansion, which is Tokens.tok_step on the reader's window, cut at the declared
   size (copy_match_crun); loop lists what read_loop can do (read_loop_loop), and every later
   statement about Read is an induction over it.  Read by its outcome (read_RNil, read_REof,
   read_RErr: every later file opens Read through these); over any sequence of Read calls no more
   bytes are delivered than the header declares; the constructor rejects short headers and
   negative sizes; what a successful Close certifies. *)
From Coq Require Import Lia ZifyN ZifyNat ZifyBool.
From Verif Require Import Base.Bytes Base.BytesP Base.Arr Lzhuf.Huff Lzhuf.Enc Lzhuf.Crc Lzhuf.Dec
  Lzhuf.Tokens Lzhuf.TokensP gen.Tables.
From Verif Require Lzhuf.Bits.
Open Scope N_scope.

(* bytes handed to the caller so far *)
Definition delivered (d : reader) : Z := (rpos d - Z.of_nat (length (rpend d)))%Z.

Definition dec_tok (h : huff) (b : bitrd) : token * bitrd :=
  let '(c, _, b1) := decode_char h b in
  if c <? 256 then (TLit c, b1)
  else let '(p, b2) := decode_position b1 in (TMatch p (c - 255 + lz_Threshold), b2).

(* d after a stretch l of decoded bytes has gone to the caller's buffer (room left) and to the
   pending bytes (kept reversed while decoding); tree, bit reader and window are then h', b', w' *)
Definition after (d : reader) (e : rerr) (h' : huff) (b' : bitrd) (w' : window) (l : bytes) (room : nat) : reader :=
  {| rh := h'; rtext := fst w'; rbits := b'; rerr_ := e; rcrc16 := rcrc16 d; hcrc := hcrc d;
     hsize := hsize d; rpos := (rpos d + Z.of_nat (length l))%Z; rr := snd w';
     rpend := rev (skipn room l) ++ rpend d |}.

(* the copy of a match is crun, cut at the declared size, where it reports the overrun *)
Lemma copy_match_crun k : forall d i room out,
  let m := Nat.min k (Z.to_nat (hsize d - rpos d)) in
  let '(t', r', l) := crun m (rtext d) (rr d) i in
  copy_match k d i room out =
    (after d (if (m <? k)%nat then ErrChecksum else rerr_ d) (rh d) (rbits d) (t', r') l room,
     (room - m)%nat, rev (firstn room l) ++ out, (m <? k)%nat).
Proof.
  induction k as [|k IH]; intros d i room out; cbv zeta.
  - cbn [Nat.min crun copy_match Nat.ltb Nat.leb]. unfold after. cbn [length fst snd].
    rewrite skipn_nil, firstn_nil, Z.add_0_r, Nat.sub_0_r. destruct d; reflexivity.
  - cbn [copy_match]. destruct (Z.leb_spec (hsize d) (rpos d)) as [H|H].
    + replace (Z.to_nat (hsize d - rpos d)) with 0%nat by lia. rewrite Nat.min_0_r.
      cbn [crun Nat.ltb Nat.leb]. unfold after. cbn [length fst snd].
      rewrite skipn_nil, firstn_nil, Z.add_0_r, Nat.sub_0_r. reflexivity.
    + replace (Z.to_nat (hsize d - rpos d)) with (S (Z.to_nat (hsize d - (rpos d + 1)))) by lia.
      rewrite <- Nat.succ_min_distr. cbn [crun].
      set (c := aget (rtext d) (i mod lz_N)).
      (* one step (c goes to the caller's buffer or, when that is full, to the pending bytes), then
         the induction hypothesis on the reader d1 after it *)
      destruct room as [|room'].
      all: match goal with |- context [copy_match _ ?d' _ ?rm ?o] =>
             set (d1 := d'); specialize (IH d1 (i + 1) rm o) end.
      all: cbv zeta in IH; cbn [d1 rtext rr hsize rpos] in IH.
      all: destruct (crun _ _ _ _) as [[t' r'] l]; rewrite IH.
      all: unfold after; cbn [d1 rh rbits rerr_ rcrc16 hcrc hsize rpos rpend length firstn skipn rev app fst snd Nat.sub].
      all: rewrite ?firstn_O, ?skipn_O, <- ?app_assoc, Nat2Z.inj_succ, <- Z.add_assoc, Z.add_1_l.
      all: reflexivity.
Qed.

(* an iteration is entered *)
Definition Live (d : reader) : Prop := berr (rbits d) = ErrNone /\ (rpos d < hsize d)%Z.

(* loop d room out toks d' out': from d, with room left in the caller's buffer out (reversed), the
   loop decodes and delivers the tokens toks and stops in d' with out'; or the last token decoded
   would pass the declared size, is delivered up to it (l0) and the loop stops with ErrChecksum
   (the window w0 of the partial copy is left open: nothing reads it afterwards) *)
Inductive loop : reader -> nat -> bytes -> list token -> reader -> bytes -> Prop :=
  | loop_stop d room out :
      room = 0%nat \/ ~ Live d -> loop d room out [] d out
  | loop_tok d room out t b' w' l toks d' out' :
      Live d -> dec_tok (rh d) (rbits d) = (t, b') -> tok_step (rtext d, rr d) t = (w', l) ->
      (1 <= length l)%nat -> (rpos d + Z.of_nat (length l) <= hsize d)%Z ->
      loop (after d (rerr_ d) (update (rh d) (tok_sym t)) b' w' l (S room))
           (S room - length l) (rev (firstn (S room) l) ++ out) toks d' out' ->
      loop d (S room) out (t :: toks) d' out'
  | loop_over d room out t b' w0 l0 :
      Live d -> dec_tok (rh d) (rbits d) = (t, b') -> (rpos d + Z.of_nat (length l0) = hsize d)%Z ->
      (length l0 < length (snd (tok_step (rtext d, rr d) t)))%nat ->
      loop d (S room) out []
           (after d ErrChecksum (update (rh d) (tok_sym t)) b' w0 l0 (S room)) (rev (firstn (S room) l0) ++ out).

(* every iteration fills at least one byte of room, so fuel = room is enough; read gives n + 64 *)
Lemma read_loop_loop : forall fuel d room out d' out', (room <= fuel)%nat ->
  read_loop fuel d room out = (d', out') -> exists toks, loop d room out toks d' out'.
Proof.
  assert (Stop : forall d room out d' out', room = 0%nat \/ ~ Live d -> (d, out) = (d', out') ->
    exists toks, loop d room out toks d' out').
  { intros d room out d' out' C E. injection E as <- <-. exists []. apply loop_stop, C. }
  induction fuel as [|f IH]; intros d room out d' out' Hf H.
  { apply Stop; [left; lia|exact H]. }
  cbn [read_loop] in H. destruct room as [|room]; [apply Stop; [auto|exact H]|].
  destruct (berr (rbits d)) eqn:EB; try (apply Stop; [right; intros [X _]; congruence|exact H]).
  destruct (Z.ltb_spec (rpos d) (hsize d)) as [Hlt|Hge]; [|apply Stop; [right; intros [_ X]; lia|exact H]].
  assert (HL : Live d) by (unfold Live; auto).
  pose proof (eq_refl : dec_tok (rh d) (rbits d) = _) as ET. unfold dec_tok at 2 in ET.
  destruct (decode_char (rh d) (rbits d)) as [[c h'] b1] eqn:EDC.
  assert (Eh : h' = update (rh d) c).
  { unfold decode_char in EDC. destruct (dec_walk _ _ _ _). injection EDC as <- <- <-. reflexivity. }
  destruct (N.ltb_spec c 256) as [Hc|Hc].
  - (* literal *)
    apply IH in H; [|lia]. destruct H as [toks H]. exists (TLit c :: toks).
    apply (loop_tok d room out (TLit c) b1 (aset (rtext d) (rr d) c, (rr d + 1) mod lz_N) [c]);
      [exact HL|exact ET|reflexivity|cbn; lia|cbn [length]; lia|].
    unfold after. cbn [tok_sym length fst snd firstn skipn rev app Nat.sub].
    rewrite firstn_nil, skipn_nil, Nat.sub_0_r, <- Eh. exact H.
  - (* match *)
    destruct (decode_position b1) as [p b2].
    set (len := c - 255 + lz_Threshold) in *.
    assert (Es : tok_sym (TMatch p len) = c) by (unfold tok_sym, len, lz_Threshold in *; lia).
    match type of H with context [copy_match ?k ?d1 ?i ?rm ?o] =>
      pose proof (copy_match_crun k d1 i rm o) as CM end.
    cbv zeta in CM. cbn [rtext rr hsize rpos rh rbits rerr_] in CM.
    destruct (le_lt_dec (N.to_nat len) (Z.to_nat (hsize d - rpos d))) as [Fit|Over].
    + rewrite Nat.min_l, Nat.ltb_irrefl in CM by exact Fit.
      pose proof (tok_step_match (rtext d) (rr d) p len) as TS.
      destruct (crun (N.to_nat len) _ _ _) as [[t' r'] l] eqn:Ecr.
      apply crun_length in Ecr. rewrite CM in H. apply IH in H; [|unfold len, lz_Threshold in *; lia].
      destruct H as [toks H]. exists (TMatch p len :: toks).
      apply (loop_tok d room out (TMatch p len) b2 (t', r') l); try assumption.
      * unfold len, lz_Threshold in *; lia.
      * lia.
      * rewrite Es, <- Eh, Ecr. exact H.
    + rewrite Nat.min_r in CM by lia. apply Nat.ltb_lt in Over. rewrite Over in CM.
      destruct (crun _ _ _ _) as [[t' r'] l] eqn:Ecr. apply crun_length in Ecr.
      rewrite CM in H. injection H as <- <-. exists [].
      rewrite Eh, <- Es. apply (loop_over d room out (TMatch p len) b2 (t', r') l); [exact HL|exact ET|lia|].
      rewrite tok_step_match. destruct (crun (N.to_nat len) _ _ _) as [[t2 r2] l2] eqn:E2.
      apply crun_length in E2. cbn [snd]. lia.
Qed.

(* what a stretch X of decoded bytes does to the caller's buffer (out, reversed, with room
   left) and to the pending bytes (reversed while decoding) *)
Definition Deliv (room : nat) (out pend out' pend' X : bytes) : Prop :=
  rev out' = rev out ++ firstn room X /\ rev pend' = rev pend ++ skipn room X.

Lemma Deliv_nil room out pend : Deliv room out pend out pend [].
Proof. unfold Deliv. rewrite firstn_nil, skipn_nil, !app_nil_r. auto. Qed.

Lemma Deliv_app room out pend out' pend' l X :
  Deliv (room - length l) (rev (firstn room l) ++ out) (rev (skipn room l) ++ pend) out' pend' X ->
  Deliv room out pend out' pend' (l ++ X).
Proof.
  unfold Deliv. rewrite !rev_app_distr, !rev_involutive, firstn_app, skipn_app, <- !app_assoc. auto.
Qed.

Lemma Deliv_length room out pend out' pend' X : Deliv room out pend out' pend' X ->
  (length out' + length pend' = length out + length pend + length X)%nat /\
  (length out <= length out' <= length out + room)%nat.
Proof.
  intros [H1 H2]. apply (f_equal (@length N)) in H1, H2.
  rewrite app_length, !rev_length in H1, H2. rewrite firstn_length in H1. rewrite skipn_length in H2. lia.
Qed.

(* what the loop does apart from the bits: unless it stopped at the declared size inside a token,
   the expansion of toks was delivered and tree and window are those after toks *)
Lemma loop_run d room out toks d' out' : loop d room out toks d' out' ->
  hsize d' = hsize d /\ rcrc16 d' = rcrc16 d /\ hcrc d' = hcrc d /\
  exists X, Deliv room out (rpend d) out' (rpend d') X /\ rpos d' = (rpos d + Z.of_nat (length X))%Z /\
    ((rpos d <= hsize d)%Z -> (rpos d' <= hsize d)%Z) /\
    (rerr_ d' = ErrChecksum \/
     rerr_ d' = rerr_ d /\ X = expand (rtext d, rr d) toks /\ rh d' = tree_after (rh d) toks /\
     (rtext d', rr d') = win_after (rtext d, rr d) toks).
Proof.
  induction 1 as [d room out _|d room out t b' w' l toks d' out' _ _ ET _ Hfit _ IH|d room out t b' w0 l0 _ _ Hsz _].
  - repeat (split; [reflexivity|]). exists []. cbn [length expand tree_after win_after fold_left].
    rewrite Z.add_0_r. auto 10 using Deliv_nil.
  - cbn [after hsize rcrc16 hcrc rpend rpos rerr_ rh rtext rr] in IH.
    destruct IH as (E1 & E2 & E3 & X & HD & Hp & Hle & HE).
    repeat (split; [assumption|]). exists (l ++ X). rewrite app_length, Nat2Z.inj_add.
    split; [apply Deliv_app, HD|]. split; [lia|]. split; [lia|].
    destruct HE as [HE|(F1 & F2 & F3 & F4)]; [left; exact HE|right].
    rewrite expand_cons, ET. cbn [tree_after win_after fold_left fst snd]. rewrite ET.
    destruct w'. cbn [fst snd] in *. subst X. auto.
  - cbn [after hsize rcrc16 hcrc rpend rpos rerr_]. repeat (split; [reflexivity|]). exists l0.
    split; [|split; [reflexivity|split; [lia|left; reflexivity]]].
    rewrite <- (app_nil_r l0) at 3. apply Deliv_app, Deliv_nil.
Qed.

Definition set_pend (d : reader) (p : bytes) : reader :=
  {| rh := rh d; rtext := rtext d; rbits := rbits d; rerr_ := rerr_ d; rcrc16 := rcrc16 d;
     hcrc := hcrc d; hsize := hsize d; rpos := rpos d; rr := rr d; rpend := p |}.

Lemma read_RErr d n out e d' : read d n = (out, RErr e, d') ->
  out = [] /\ e <> ErrNone /\ (rerr_ d = e \/ berr (rbits d) = e) /\
  rerr_ d' = e /\ rh d' = rh d /\ rpos d' = rpos d /\ hsize d' = hsize d /\ rpend d' = rpend d.
Proof.
  unfold read. intros H. destruct (rerr_ d) eqn:Ed.
  2-5: injection H as <- <- <-; repeat split; auto; discriminate.
  destruct (berr (rbits d)) eqn:Eb; cbn [rerr_] in H.
  2-5: injection H as <- <- <-; repeat split; auto; discriminate.
  rewrite Ed in H. destruct (_ && _); [discriminate|].
  destruct (read_loop _ _ _ _). discriminate.
Qed.

Lemma read_REof d n out d' : read d n = (out, REof, d') ->
  rerr_ d = ErrNone /\ berr (rbits d) = ErrNone /\ rpos d = hsize d /\ rpend d = [] /\
  out = [] /\ d' = d.
Proof.
  unfold read. intros H. destruct (rerr_ d) eqn:Ed; try discriminate.
  destruct (berr (rbits d)) eqn:Eb; cbn [rerr_] in H; try discriminate.
  rewrite Ed in H. destruct (rpos d =? hsize d)%Z eqn:Ep; cbn [andb] in H.
  - apply Z.eqb_eq in Ep. destruct (rpend d); [injection H as <- <-; auto 8|].
    destruct (read_loop _ _ _ _). discriminate.
  - destruct (read_loop _ _ _ _). discriminate.
Qed.

Lemma read_RNil d n out d' : read d n = (out, RNil, d') ->
  rerr_ d = ErrNone /\ berr (rbits d) = ErrNone /\ ~ (rpos d = hsize d /\ rpend d = []) /\
  exists toks d3 o3,
    loop (set_pend d (rev (skipn n (rpend d)))) (n - length (firstn n (rpend d))) (rev (firstn n (rpend d)))
      toks d3 o3 /\
    out = rev o3 /\ d' = set_pend d3 (rev (rpend d3)).
Proof.
  unfold read. intros H. destruct (rerr_ d) eqn:Ed; try discriminate.
  destruct (berr (rbits d)) eqn:Eb; cbn [rerr_] in H; try discriminate.
  rewrite Ed in H. destruct (_ && _) eqn:Ec; [discriminate|].
  split; [reflexivity|]. split; [reflexivity|].
  split; [intros [X Y]; rewrite X, Y, Z.eqb_refl in Ec; discriminate|].
  unfold set_pend. rewrite Ed. rewrite !rev'_rev in H.
  destruct (read_loop _ _ _ _) as [d3 o3] eqn:EL. rewrite !rev'_rev in H. injection H as <- <-.
  apply read_loop_loop in EL; [|lia]. destruct EL as [toks L]. eauto 10.
Qed.

Theorem read_count d n out st d' :
  read d n = (out, st, d') -> (rpos d <= hsize d)%Z ->
  hsize d' = hsize d /\ (rpos d' <= hsize d')%Z /\
  (delivered d' = delivered d + Z.of_nat (length out))%Z /\ (length out <= n)%nat.
Proof.
  unfold delivered. intros H Hle. destruct st as [| |e].
  - apply read_RNil in H. destruct H as (_ & _ & _ & toks & d3 & o3 & L & -> & ->).
    apply loop_run in L. destruct L as (L1 & _ & _ & X & HD & Hp & Hq & _).
    apply Deliv_length in HD. cbn [rpos hsize rpend set_pend] in *. rewrite !rev_length in *.
    pose proof (firstn_length n (rpend d)) as F1. pose proof (skipn_length n (rpend d)) as F2.
    repeat split; lia.
  - apply read_REof in H. destruct H as (_ & _ & _ & _ & -> & ->). cbn. repeat split; lia.
  - apply read_RErr in H. destruct H as (-> & _ & _ & _ & _ & -> & -> & ->). cbn. repeat split; lia.
Qed.

Fixpoint reads (d : reader) (sizes : list nat) : list bytes * reader :=
  match sizes with
  | [] => ([], d)
  | n :: r => let '(out, _, d1) := read d n in
              let '(outs, d2) := reads d1 r in (out :: outs, d2)
  end.

Theorem reads_bounded sizes : forall d outs d',
  reads d sizes = (outs, d') -> (rpos d <= hsize d)%Z ->
  (rpos d' <= hsize d')%Z /\ hsize d' = hsize d /\
  (delivered d' = delivered d + Z.of_nat (length (concat outs)))%Z.
Proof.
  induction sizes as [|n r IH]; intros d outs d' H Hle.
  - cbn in H. injection H as <- <-. cbn. repeat split; lia.
  - cbn [reads] in H. destruct (read d n) as [[out st] d1] eqn:ER.
    destruct (reads d1 r) as [outs1 d2] eqn:ERS. injection H as <- <-.
    apply read_count in ER; [|exact Hle]. destruct ER as [R1 [R2 [R3 R4]]].
    apply IH in ERS; [|exact R2]. destruct ERS as [S1 [S2 S3]].
    cbn [concat]. rewrite app_length. repeat split; lia.
Qed.

Lemma new_reader_start crc s d :
  new_reader crc s = Some d -> rpos d = 0%Z /\ rpend d = [] /\ (0 <= hsize d)%Z /\ rerr_ d = ErrNone.
Proof.
  unfold new_reader. intros H.
  destruct (if crc then take_src _ 2 s [] else Some ([], s)) as [[cb s1]|]; [|discriminate].
  destruct (take_src _ 4 s1 []) as [[sb s2]|]; [|discriminate].
  destruct (i32_of_u32 (le_to_N sb) <? 0)%Z eqn:E; [discriminate|].
  apply Z.ltb_ge in E.
  apply (f_equal (fun o => match o with Some r => r | None => d end)) in H. cbv beta iota in H.
  subst d. cbn [rpos rpend hsize rerr_]. auto.
Qed.

Theorem output_bounded crc s d sizes outs d' :
  new_reader crc s = Some d -> reads d sizes = (outs, d') ->
  (Z.of_nat (length (concat outs)) <= hsize d)%Z.
Proof.
  intros Hn Hr. destruct (new_reader_start crc s d Hn) as [P0 [Pe [Hs _]]].
  destruct (reads_bounded sizes d outs d' Hr ltac:(lia)) as [B1 [B2 B3]].
  unfold delivered in B3. rewrite P0, Pe in B3. cbn in B3. lia.
Qed.

Lemma take_src_some : forall fuel k s acc cb s1, take_src fuel k s acc = Some (cb, s1) ->
  (length (concat s1) + k = length (concat s))%nat.
Proof.
  induction fuel as [|f IH]; intros k s acc cb s1 H.
  - destruct k; [injection H as <- <-; lia|discriminate].
  - destruct k as [|k']; [injection H as <- <-; lia|]. cbn [take_src] in H.
    destruct s as [|c r]; [discriminate|]. destruct c as [|x c'].
    + apply IH in H. cbn [concat app]. exact H.
    + apply IH in H. destruct c'; cbn [concat app length] in *; lia.
Qed.

Lemma take_src_short fuel k s acc : (length (concat s) < k)%nat -> take_src fuel k s acc = None.
Proof.
  intros H. destruct (take_src fuel k s acc) as [[cb s1]|] eqn:E; [|reflexivity].
  apply take_src_some in E. lia.
Qed.

Theorem constructor_short (crc : bool) (s : list bytes) :
  (length (concat s) < (if crc then 6%nat else 4%nat))%nat -> new_reader crc s = None.
Proof.
  intros H. unfold new_reader. destruct crc.
  - destruct (take_src (10 + length s) 2 s []) as [[cb s1]|] eqn:E; [|reflexivity].
    apply take_src_some in E. rewrite (take_src_short _ 4 s1 []) by lia. reflexivity.
  - rewrite (take_src_short _ 4 s [] H). reflexivity.
Qed.

Theorem constructor_negative crc s d : new_reader crc s = Some d -> (0 <= hsize d)%Z.
Proof. intros H. apply (new_reader_start crc s d H). Qed.

Theorem close_ok_certifies d :
  close_reader d = ErrNone ->
  rerr_ d = ErrNone /\ berr (rbits d) = ErrNone /\
  (rcrc16 d = true -> hcrc d = crc_feed (crcsum (rbits d)) [0; 0]) /\
  hsize d = delivered d.
Proof.
  unfold close_reader, delivered. intros H.
  destruct (rerr_ d); try discriminate. destruct (berr (rbits d)); try discriminate.
  destruct (rcrc16 d) eqn:Ec.
  - cbn [andb] in H. destruct (hcrc d =? crc_feed (crcsum (rbits d)) [0; 0]) eqn:E1; cbn [negb] in H; [|discriminate].
    destruct (hsize d =? rpos d - Z.of_nat (length (rpend d)))%Z eqn:E2; cbn [negb] in H; [|discriminate].
    apply N.eqb_eq in E1. apply Z.eqb_eq in E2. auto.
  - cbn [andb] in H.
    destruct (hsize d =? rpos d - Z.of_nat (length (rpend d)))%Z eqn:E2; cbn [negb] in H; [|discriminate].
    apply Z.eqb_eq in E2. repeat split; auto. discriminate.
Qed.
