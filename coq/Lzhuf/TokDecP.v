(* Lzhuf/TokDecP.v — the bit reader (Lzhuf/Dec.v) one token at a time, beside the forward statements
   of BitsRP.v.  What holds of every bit reader, whatever the bytes and their chunking: a compound
   reader is a sequence of ReadBits calls (steps), which keeps the tee (Tee: the CRC seen by Close)
   and never clears an error.  The converse statements: what lay ahead when a symbol or a position
   was read without error (the position from one check per byte of the decoding tables). *)
From Coq Require Import Lia ZifyN ZifyNat ZifyBool.
From Verif Require Import Base.Bytes Base.BytesP Base.Arr Lzhuf.Huff Lzhuf.HuffInv Lzhuf.HuffInvP Lzhuf.HuffWalkP
  Lzhuf.Enc Lzhuf.Crc Lzhuf.CrcP Lzhuf.Dec Lzhuf.DecP Lzhuf.LzP Lzhuf.Bits Lzhuf.BitsRP Lzhuf.Tokens
  Lzhuf.TokensP Lzhuf.ReadSeq gen.Tables.
Open Scope N_scope.

Definition read_all (crc : bool) (s : bytes) (bs : nat) (fuel : nat) : option (bytes * rstatus * rerr) :=
  match new_reader crc [s] with
  | None => None
  | Some d => let '(out, st, d') := read_all_loop fuel d bs [] in Some (out, st, close_reader d')
  end.

(* the caller's buffer takes the pending bytes first, then what is newly decoded; what does
   not fit stays pending in the same order *)
Lemma buf_split {A} n (p X : list A) :
  let k := (n - length (firstn n p))%nat in
  (firstn n p ++ firstn k X) ++ skipn n p ++ skipn k X = p ++ X.
Proof.
  intros k. destruct (le_lt_dec n (length p)) as [L|L].
  - assert (E : k = 0%nat) by (unfold k; rewrite firstn_length_le by exact L; lia).
    rewrite E. cbn [firstn skipn]. rewrite app_nil_r, app_assoc, firstn_skipn. reflexivity.
  - rewrite (firstn_all2 p), (skipn_all2 p) by lia. cbn [app]. rewrite <- app_assoc, firstn_skipn. reflexivity.
Qed.

(* the io.Copy loop is a sequence of Reads of one size *)
Lemma read_all_loop_seq bs : forall fuel d acc,
  read_all_loop fuel d bs acc = read_seq d (repeat bs fuel) acc.
Proof.
  induction fuel as [|f IH]; intros d acc; cbn [read_all_loop repeat read_seq]; [reflexivity|].
  destruct (read d bs) as [[got st] d1]. destruct st; [apply IH|reflexivity..].
Qed.

Lemma bytes_bits_length l : length (bytes_bits l) = (8 * length l)%nat.
Proof.
  unfold bytes_bits. induction l as [|x l IH]; [reflexivity|].
  cbn [flat_map]. rewrite app_length, IH, bits_msb_length. cbn [length]. lia.
Qed.

Lemma shift_in_snoc l x acc : shift_in (l ++ [x]) acc = 2 * shift_in l acc + N.b2n x.
Proof. unfold shift_in. rewrite fold_left_app. cbn [fold_left]. lia. Qed.

Lemma bits_msb_double n : forall a x, bits_msb (S n) (2 * a + N.b2n x) = bits_msb n a ++ [x].
Proof.
  induction n as [|n IH]; intros a x; rewrite bits_msb_S.
  - cbn [N.of_nat bits_msb app]. rewrite N.testbit_0_r. reflexivity.
  - rewrite IH, Nat2N.inj_succ, N.testbit_succ_r. reflexivity.
Qed.

Lemma bits_msb_shift_in m l : forall acc,
  bits_msb (m + length l) (shift_in l acc) = bits_msb m acc ++ l.
Proof.
  induction l as [|x l IH] using rev_ind; intros acc.
  - cbn [length shift_in fold_left]. rewrite Nat.add_0_r, app_nil_r. reflexivity.
  - rewrite shift_in_snoc, app_length, Nat.add_assoc, Nat.add_1_r, bits_msb_double, IH, app_assoc.
    reflexivity.
Qed.

Lemma bits_msb_shifted l : bits_msb (length l) (shift_in l 0) = l.
Proof. exact (bits_msb_shift_in 0 l 0). Qed.

Lemma bits_msb_skipn a m x : skipn a (bits_msb (a + m) x) = bits_msb m x.
Proof.
  rewrite bits_msb_app, skipn_app, bits_msb_length, Nat.sub_diag, skipn_all2 by (rewrite bits_msb_length; lia).
  reflexivity.
Qed.

Lemma lor_shl6 c x : N.lor (N.shiftl c 6) (N.land x 63) = c * 64 + x mod 64.
Proof.
  change 63 with (N.ones 6). rewrite N.land_ones, N.shiftl_mul_pow2. change (2 ^ 6) with 64.
  assert (H : x mod 64 < 64) by (apply N.mod_lt; discriminate).
  rewrite <- N.lxor_lor, <- N.add_nocarry_lxor; [reflexivity| |].
  all: apply N.bits_inj_0; intros k; rewrite N.land_spec; change 64 with (2 ^ 6);
    destruct (N.lt_ge_cases k 6) as [L|L];
    [rewrite N.mul_pow2_bits_low by exact L; reflexivity|
     rewrite (N.mod_pow2_bits_high x 6 k L); apply andb_false_r].
Qed.

Lemma shift_in_lt l : shift_in l 0 < 2 ^ N.of_nat (length l).
Proof.
  induction l as [|x l IH] using rev_ind; [reflexivity|].
  rewrite shift_in_snoc, app_length, Nat.add_1_r, Nat2N.inj_succ, N.pow_succ_r'.
  destruct x; cbn [N.b2n]; lia.
Qed.

Lemma shift_in_bits_msb n x : x < 2 ^ N.of_nat n -> shift_in (bits_msb n x) 0 = x.
Proof.
  intros H. apply (bits_msb_inj n); [|exact H|].
  - pose proof (shift_in_lt (bits_msb n x)) as L. rewrite bits_msb_length in L. exact L.
  - pose proof (bits_msb_shifted (bits_msb n x)) as E. rewrite bits_msb_length in E. exact E.
Qed.

Lemma shift_in_acc l : forall acc, shift_in l acc = acc * 2 ^ N.of_nat (length l) + shift_in l 0.
Proof.
  induction l as [|x l IH] using rev_ind; intros acc; [cbn; lia|].
  rewrite !shift_in_snoc, (IH acc), app_length, Nat.add_1_r, Nat2N.inj_succ, N.pow_succ_r'. ring.
Qed.

Lemma pull_concat fuel : forall s got s', pull fuel s = Some (got, s') -> got ++ concat s' = concat s.
Proof.
  induction fuel as [|f IH]; intros s got s' H; cbn [pull] in H; [discriminate|].
  destruct s as [|c r]; [discriminate|]. destruct c as [|x c].
  - apply IH in H. cbn [concat app]. exact H.
  - set (c0 := x :: c) in *. pose proof (firstn_skipn bufsize c0) as FS.
    remember (firstn bufsize c0) as g eqn:Eg. remember (skipn bufsize c0) as sk eqn:Es.
    clear Eg Es. injection H as <- <-. cbn [concat]. rewrite <- FS.
    destruct sk as [|y rest].
    + rewrite app_nil_r. reflexivity.
    + cbn [concat]. rewrite app_assoc. reflexivity.
Qed.

Lemma pull_nonempty fuel : forall s got s', pull fuel s = Some (got, s') ->
  Forall (fun c => c <> []) s -> Forall (fun c => c <> []) s'.
Proof.
  induction fuel as [|f IH]; intros s got s' H Hs; cbn [pull] in H; [discriminate|].
  destruct s as [|c r]; [discriminate|]. inversion Hs as [|? ? Hc Hr]; subst. destruct c as [|x c].
  - apply IH in H; assumption.
  - remember (firstn bufsize (x :: c)) as g eqn:Eg. remember (skipn bufsize (x :: c)) as sk eqn:Es.
    clear Eg Es. injection H as <- <-. destruct sk; [exact Hr|].
    constructor; [discriminate|exact Hr].
Qed.

(* The tee: (bytes pulled so far) ++ (chunks not yet pulled) = all, and crcsum = the CRC state c0
   (after the size field) fed with the bytes pulled so far.  decode_char_code and
   decode_position_code say nothing about src/crcsum of the bit reader they return, but every
   compound reader is a sequence of ReadBits calls (steps) and ReadBits keeps Tee (steps_tee). *)
Definition Tee (c0 : N) (all : bytes) (b : bitrd) : Prop :=
  exists pulled, pulled ++ concat (src b) = all /\ crcsum b = crc_feed c0 pulled.

Lemma Tee_ext c0 all b b' : src b' = src b -> crcsum b' = crcsum b -> Tee c0 all b -> Tee c0 all b'.
Proof. intros E1 E2 [p [H1 H2]]. exists p. rewrite E1, E2. auto. Qed.

(* ReadByte: the byte returned is the first of bufio's buffer, refilled from the source (and
   fed to the CRC) when empty; on failure nothing changes *)
Lemma read_byte_spec b :
  match read_byte b with
  | (Some x, b1) => exists pulled,
      bbuf b ++ pulled = x :: bbuf b1 /\ pulled ++ concat (src b1) = concat (src b) /\
      crcsum b1 = crc_feed (crcsum b) pulled /\
      bn b1 = bn b /\ bbits b1 = bbits b /\ berr b1 = berr b
  | (None, b1) => b1 = b
  end.
Proof.
  unfold read_byte. destruct (bbuf b) as [|y r].
  - destruct (pull 100 (src b)) as [[[|x r] s']|] eqn:E; try reflexivity.
    exists (x :: r). apply pull_concat in E. cbn [bbuf src crcsum bn bbits berr app]. auto 7.
  - exists []. cbn [bbuf src crcsum bn bbits berr app]. rewrite app_nil_r. auto 7.
Qed.

(* b' is reached from b by a sequence of ReadBits calls *)
Inductive steps : bitrd -> bitrd -> Prop :=
  | steps_refl b : steps b b
  | steps_bits b k b' : steps (snd (read_bits b k)) b' -> steps b b'.

Lemma steps_trans a b c : steps a b -> steps b c -> steps a c.
Proof. induction 1 as [|a k b H IH]; [auto|]. intros H2. apply (steps_bits a k), IH, H2. Qed.

Lemma dec_walk_steps h f : forall c b, steps b (snd (dec_walk f h c b)).
Proof.
  induction f as [|f IH]; intros c b; [apply steps_refl|].
  rewrite dec_walk_S. destruct (c <? lz_T); [|apply steps_refl].
  apply (steps_bits b 1). apply IH.
Qed.

Lemma decode_char_eq h b :
  decode_char h b =
  let w := dec_walk (S natT) h (aget (son h) lz_R) b in (fst w - lz_T, update h (fst w - lz_T), snd w).
Proof. unfold decode_char. destruct (dec_walk _ _ _ _). reflexivity. Qed.

Lemma decode_char_steps h b : steps b (snd (decode_char h b)).
Proof. rewrite decode_char_eq. apply dec_walk_steps. Qed.

Lemma pos_bits_steps n : forall i b, steps b (snd (pos_bits n i b)).
Proof.
  induction n as [|n IH]; intros i b; [apply steps_refl|].
  cbn [pos_bits]. apply (steps_bits b 1). destruct (read_bits b 1) as [bit b1]. apply IH.
Qed.

Lemma decode_position_steps b : steps b (snd (decode_position b)).
Proof.
  unfold decode_position. apply (steps_bits b 8). destruct (read_bits b 8) as [i b1]. cbn [snd].
  pose proof (pos_bits_steps (N.to_nat (nth (N.to_nat i) lz_dLen 0 - 2)) i b1) as H.
  destruct (pos_bits _ i b1) as [i2 b2]. exact H.
Qed.

Lemma steps_sticky b b' : steps b b' -> berr b' = ErrNone -> berr b = ErrNone.
Proof.
  intros H E. induction H as [|b k b' H IH]; [exact E|]. specialize (IH E). revert IH.
  unfold read_bits. cbv beta zeta. destruct (bbits b <? k); [|cbn [snd berr]; auto].
  pose proof (read_byte_spec b) as R. destruct (read_byte b) as [[x|] b1]; cbn [snd berr].
  - destruct R as [p [_ [_ [_ [_ [_ R]]]]]]. congruence.
  - discriminate.
Qed.

Lemma steps_tee c0 all b b' : steps b b' -> Tee c0 all b -> Tee c0 all b'.
Proof.
  intros H HT. induction H as [|b k b' H IH]; [exact HT|]. apply IH. clear IH H b'.
  assert (R : Tee c0 all (snd (read_byte b))).
  { pose proof (read_byte_spec b) as R. destruct (read_byte b) as [[x|] b1]; cbn [snd]; [|subst b1; exact HT].
    destruct R as [p [_ [R1 [R2 _]]]]. destruct HT as [q [H1 H2]]. exists (q ++ p).
    rewrite <- app_assoc, R1, R2, H2, crc_feed_app. auto. }
  unfold read_bits. cbv beta zeta. destruct (bbits b <? k); [|exact (Tee_ext _ _ b _ eq_refl eq_refl HT)].
  destruct (read_byte b) as [[x|] b1]; exact (Tee_ext _ _ b1 _ eq_refl eq_refl R).
Qed.

(* decode_position read backwards: from an error-free result to the bits it consumed *)
Lemma pos_bits_conv : forall n acc b, RdOK b -> berr (snd (pos_bits n acc b)) = ErrNone ->
  exists l, length l = n /\ Bits.rbits b = l ++ Bits.rbits (snd (pos_bits n acc b)) /\
    fst (pos_bits n acc b) = shift_in l acc /\ RdOK (snd (pos_bits n acc b)).
Proof.
  induction n as [|n IH]; intros acc b OK HE.
  - exists []. cbn [pos_bits fst snd length app]. auto.
  - pose proof (steps_sticky _ _ (pos_bits_steps (S n) acc b) HE) as E0.
    cbn [pos_bits] in *. pose proof (read_bit_spec b OK) as RB.
    destruct (Bits.rbits b) as [|bit r] eqn:ER.
    + destruct RB as [b1 [E [_ [_ Ee]]]]. rewrite E in HE.
      apply (steps_sticky _ _ (pos_bits_steps n _ b1)) in HE. congruence.
    + destruct RB as [b1 [E [Er [OK1 Ee]]]]. rewrite E in *.
      destruct (IH (acc * 2 + N.b2n bit) b1 OK1 HE) as [l [L1 [L2 [L3 L4]]]].
      exists (bit :: l). cbn [length app]. split; [congruence|].
      split; [rewrite <- Er, L2; reflexivity|]. split; [|exact L4].
      rewrite L3. reflexivity.
Qed.

Lemma decode_position_inv b pos b' : RdOK b -> decode_position b = (pos, b') -> berr b' = ErrNone ->
  exists v l, v < 256 /\ length l = N.to_nat (nth (N.to_nat v) lz_dLen 0 - 2) /\
    Bits.rbits b = bits_msb 8 v ++ l ++ Bits.rbits b' /\
    pos = N.lor (N.shiftl (nth (N.to_nat v) lz_dCode 0) 6) (N.land (shift_in l v) 63) /\ RdOK b'.
Proof.
  intros OK H HE.
  pose proof (decode_position_steps b) as ST. rewrite H in ST. cbn [snd] in ST.
  unfold decode_position in H.
  destruct (read_bits b 8) as [v b1] eqn:E.
  assert (E1 : berr b1 = ErrNone).
  { match type of H with context [pos_bits ?n ?i ?bb] =>
      pose proof (pos_bits_steps n i bb) as S2; destruct (pos_bits n i bb) as [i2 b2] end.
    injection H as _ <-. exact (steps_sticky _ _ S2 HE). }
  assert (R8 : v < 256 /\ Bits.rbits b = bits_msb 8 v ++ Bits.rbits b1 /\ RdOK b1).
  { destruct (rbytes b) as [|y ys] eqn:EB.
    - exfalso. destruct OK as [HB HF]. rewrite (read_bits_eof b 8 (conj HB HF) HB EB) in E.
      injection E as _ <-. discriminate.
    - destruct (read_bits_ok b 8 OK ltac:(lia)) as [v' [b1' [E' [Hv [Hr [OK1 _]]]]]].
      { right. rewrite EB. discriminate. }
      rewrite E in E'. injection E' as <- <-. auto. }
  destruct R8 as [Hv [Hr OK1]].
  match type of H with context [pos_bits ?n ?i ?bb] =>
    pose proof (pos_bits_conv n i bb OK1) as C; destruct (pos_bits n i bb) as [i2 b2] end.
  cbn [fst snd] in C. injection H as <- <-.
  destruct (C HE) as [l [L1 [L2 [L3 L4]]]]. subst i2.
  exists v, l. rewrite Hr, L2. auto 6.
Qed.

(* the decoding tables against the encoding tables: the entry of a byte names a code that has
   the byte's first bits, of the length the entry gives (one finite check over the 256 bytes) *)
Definition dtab_chk (v : N) : bool :=
  let i := nth (N.to_nat v) lz_dCode 0 in
  let len := nth (N.to_nat v) lz_dLen 0 in
  (i <? 64) && (nth (N.to_nat i) lz_pLen 0 =? len) && (2 <=? len) && (len <=? 8) &&
  if list_eq_dec Bool.bool_dec (firstn (N.to_nat len) (bits_msb 8 (nth (N.to_nat i) lz_pCode 0)))
                               (firstn (N.to_nat len) (bits_msb 8 v)) then true else false.

Lemma dtab_chk_all : forallb dtab_chk (range 256) = true.
Proof. vm_compute. reflexivity. Qed.

Lemma dtab_ok v : v < 256 ->
  let i := nth (N.to_nat v) lz_dCode 0 in
  let len := nth (N.to_nat v) lz_dLen 0 in
  i < 64 /\ nth (N.to_nat i) lz_pLen 0 = len /\ 2 <= len <= 8 /\
  firstn (N.to_nat len) (bits_msb 8 (nth (N.to_nat i) lz_pCode 0)) = firstn (N.to_nat len) (bits_msb 8 v).
Proof.
  intros Hv i len. pose proof dtab_chk_all as A. rewrite forallb_forall in A.
  specialize (A v). unfold dtab_chk in A. fold i len in A.
  rewrite !andb_true_iff, N.ltb_lt, N.eqb_eq, !N.leb_le in A.
  destruct A as [[[[A1 A2] A3] A4] A5].
  { apply in_range. exact Hv. }
  destruct (list_eq_dec _ _ _) as [A6|] in A5; [auto|discriminate].
Qed.

(* whatever byte and continuation decode_position reads, it returns a position whose code they are *)
Lemma pos_conv v l : v < 256 -> length l = N.to_nat (nth (N.to_nat v) lz_dLen 0 - 2) ->
  let pos := N.lor (N.shiftl (nth (N.to_nat v) lz_dCode 0) 6) (N.land (shift_in l v) 63) in
  pos < 4096 /\ pos_code pos = bits_msb 8 v ++ l.
Proof.
  intros Hv Hl pos. destruct (dtab_ok v Hv) as [Hi [Hp [Hlen Hpre]]].
  set (i := nth (N.to_nat v) lz_dCode 0) in *. set (len := nth (N.to_nat v) lz_dLen 0) in *.
  assert (Ex : pos = i * 64 + shift_in l v mod 64) by apply lor_shl6.
  assert (Hm : shift_in l v mod 64 < 64) by (apply N.mod_lt; discriminate).
  assert (Ei : N.shiftr pos 6 = i).
  { rewrite Ex, N.shiftr_div_pow2, N.div_add_l, N.div_small by (try discriminate; exact Hm). lia. }
  split; [lia|]. unfold pos_code. rewrite Ei, Hp, Hpre.
  rewrite <- (firstn_skipn (N.to_nat len) (bits_msb 8 v)) at 2. rewrite <- app_assoc. f_equal.
  replace (bits_msb 8 v) with (bits_msb (N.to_nat len + N.to_nat (8 - len)) v) by (f_equal; lia).
  rewrite bits_msb_skipn, <- bits_msb_shift_in.
  replace (N.to_nat (8 - len) + length l)%nat with 6%nat by lia.
  rewrite <- (bits_msb_mod 6 pos), <- (bits_msb_mod 6 (shift_in l v)). f_equal.
  change (2 ^ N.of_nat 6) with 64. rewrite Ex, N.add_comm, N.mod_add by discriminate.
  apply N.mod_mod. discriminate.
Qed.

(* The converse walk.  If the decoder's walk ends without error the bits it consumed are a path
   (HuffWalkP.down, allInt) from the root to a leaf (dec_walk_conv); walking up from the node
   reached gives back w (HuffWalkP.code_walk_down). *)
Section Down.
Variable h : huff.
Hypothesis SH : Shape h.

Lemma dec_walk_conv : forall f p b, p <= lz_R -> aget (son h) p < lz_T -> (N.to_nat p <= f)%nat ->
  RdOK b -> berr (snd (dec_walk f h (aget (son h) p) b)) = ErrNone ->
  exists bit w, allInt h p (bit :: w) /\
    Bits.rbits b = (bit :: w) ++ Bits.rbits (snd (dec_walk f h (aget (son h) p) b)) /\
    RdOK (snd (dec_walk f h (aget (son h) p) b)) /\
    fst (dec_walk f h (aget (son h) p) b) = aget (son h) (down h p (bit :: w)) /\
    lz_T <= fst (dec_walk f h (aget (son h) p) b).
Proof.
  induction f as [|f IH]; intros p b Hp Hs Hf OK HE.
  - destruct (internal_son h SH p Hp Hs). lia.
  - rewrite dec_walk_S in *. destruct (N.ltb_spec (aget (son h) p) lz_T); [|lia].
    pose proof (read_bit_spec b OK) as RB. destruct (Bits.rbits b) as [|bit r] eqn:ER.
    + destruct RB as [b1 [E [_ [_ Ee]]]]. rewrite E in HE. cbn [fst snd] in HE.
      apply (steps_sticky _ _ (dec_walk_steps h f _ b1)) in HE. congruence.
    + destruct RB as [b1 [E [Er [OK1 Ee]]]]. rewrite E in *. cbn [fst snd] in *.
      destruct (down_step h SH p (N.b2n bit) Hp Hs ltac:(destruct bit; cbn; lia)) as [Hk [HkR [Hi|Hl]]].
      * destruct (IH _ b1 HkR Hi ltac:(lia) OK1 HE) as [bit' [w' [A1 [A2 [A3 [A4 A5]]]]]].
        exists bit, (bit' :: w'). split; [split; assumption|].
        split; [rewrite <- Er, A2; reflexivity|]. auto.
      * rewrite dec_walk_stop in * by lia. cbn [fst snd] in *.
        exists bit, []. split; [cbn [allInt]; auto|]. split; [rewrite Er; reflexivity|].
        split; [exact OK1|]. split; [reflexivity|lia].
Qed.
End Down.

Lemma decode_char_conv h b c h' b' : Shape h -> RdOK b ->
  decode_char h b = (c, h', b') -> berr b' = ErrNone ->
  c < lz_NumChar /\ h' = update h c /\ Bits.rbits b = code_of h c ++ Bits.rbits b' /\ RdOK b'.
Proof.
  intros SH OK H HE. unfold decode_char in H.
  pose proof (dec_walk_symbol_fst h SH b) as [L1 L2].
  pose proof (dec_walk_conv h SH (S natT) lz_R b ltac:(lia) (sh_rootint h SH)
    ltac:(pose proof natT_val; rewrite R_val; lia) OK) as C.
  destruct (dec_walk (S natT) h (aget (son h) lz_R) b) as [x b1]. cbn [fst snd] in *.
  injection H as <- <- <-.
  destruct (C HE) as [bit [w [A1 [A2 [A3 [A4 A5]]]]]].
  assert (Hc : x - lz_T < lz_NumChar) by lia.
  split; [exact Hc|]. split; [reflexivity|]. split; [|exact A3].
  rewrite A2. f_equal. symmetry. apply (path_code h SH); [exact A1|]. rewrite <- A4. lia.
Qed.

Lemma decode_position_conv b pos b' : RdOK b ->
  decode_position b = (pos, b') -> berr b' = ErrNone ->
  pos < 4096 /\ Bits.rbits b = pos_code pos ++ Bits.rbits b' /\ RdOK b'.
Proof.
  intros OK H HE. destruct (decode_position_inv b pos b' OK H HE) as [v [l [Hv [Hl [Hr [-> OK']]]]]].
  destruct (pos_conv v l Hv Hl) as [P1 P2].
  split; [exact P1|]. split; [|exact OK']. rewrite P2, Hr, <- app_assoc. reflexivity.
Qed.

Lemma le_to_N_le16 v : v < 65536 -> le_to_N [v mod 256; (v / 256) mod 256] = v.
Proof.
  intros H. cbn [le_to_N].
  pose proof (N.div_mod v 256 ltac:(discriminate)).
  assert ((v / 256) mod 256 = v / 256) by (apply N.mod_small, N.div_lt_upper_bound; [discriminate|exact H]).
  lia.
Qed.

Lemma concat_src (body : bytes) : concat (match body with [] => [] | _ => [body] end) = body.
Proof. destruct body; [reflexivity|]. cbn [concat]. apply app_nil_r. Qed.

(* the bit reader over the body, nothing read yet; c is the CRC state after the size field *)
Definition bits_start (body : bytes) (c : N) : bitrd :=
  {| src := match body with [] => [] | _ => [body] end; bbuf := []; bn := 0; bbits := 0;
     berr := ErrNone; crcsum := c |}.

Lemma bits_start_ok body c : Forall (fun x => x < 256) body ->
  RdOK (bits_start body c) /\ Bits.rbits (bits_start body c) = bytes_bits body.
Proof.
  intros Hb. unfold RdOK, Bits.rbits, rbytes. cbn [bits_start bbits bbuf src bn app].
  rewrite concat_src. split; [|reflexivity]. split; [lia|]. split; [exact Hb|].
  destruct body; constructor; [discriminate|constructor].
Qed.

Lemma new_reader_stream (crc : bool) cb0 cb1 s0 s1 s2 s3 (body : bytes) :
  new_reader crc [(if crc then [cb0; cb1] else []) ++ [s0; s1; s2; s3] ++ body] =
  if (i32_of_u32 (le_to_N [s0; s1; s2; s3]) <? 0)%Z then None else
  Some {| rh := huff_init; rtext := afill aempty 0 (N.to_nat (lz_N - lz_F)) 32;
          Dec.rbits := bits_start body (crc_feed 0 [s0; s1; s2; s3]);
          rerr_ := ErrNone; rcrc16 := crc; hcrc := le_to_N (if crc then [cb0; cb1] else []);
          hsize := i32_of_u32 (le_to_N [s0; s1; s2; s3]); rpos := 0%Z; rr := lz_N - lz_F;
          rpend := [] |}.
Proof. destruct crc; reflexivity. Qed.

(* one token: what dec_tok reads when the bits of a token lie ahead, and what lay ahead when it
   has read without error *)
Lemma dec_tok_steps h b : steps b (snd (dec_tok h b)).
Proof.
  unfold dec_tok. pose proof (decode_char_steps h b) as S1.
  destruct (decode_char h b) as [[c h'] b1]. cbn [snd] in S1. destruct (c <? 256); [exact S1|].
  pose proof (decode_position_steps b1) as S2. destruct (decode_position b1) as [p b2].
  exact (steps_trans _ _ _ S1 S2).
Qed.

Lemma dec_tok_sym h b : Shape h -> tok_sym (fst (dec_tok h b)) < lz_NumChar.
Proof.
  intros SH. unfold dec_tok. pose proof (decode_char_symbol h b SH) as L.
  destruct (decode_char h b) as [[c h'] b1]. cbn [fst] in L.
  destruct (N.ltb_spec c 256); [exact L|]. destruct (decode_position b1).
  unfold tok_sym, lz_Threshold, fst. lia.
Qed.

Lemma dec_tok_code h b t r : Shape h -> RdOK b -> tok_ok t -> Bits.rbits b = tok_bits h t ++ r ->
  exists b', dec_tok h b = (t, b') /\ Bits.rbits b' = r /\ RdOK b' /\ berr b' = berr b.
Proof.
  intros SH OK Ht Hb. unfold tok_bits in Hb. rewrite <- app_assoc in Hb.
  destruct (decode_char_code h b _ _ SH OK (tok_sym_lt t Ht) Hb) as (b1 & E1 & R1 & OK1 & Ee1).
  unfold dec_tok. rewrite E1. destruct t as [c|pos len]; cbn [tok_sym tok_ok] in *.
  - destruct (N.ltb_spec c 256); [eauto|lia].
  - unfold lz_Threshold, lz_F, lz_N in *.
    destruct (decode_position_code b1 pos r OK1 ltac:(lia) R1) as (b2 & E2 & R2 & OK2 & Ee2).
    rewrite E2. destruct (N.ltb_spec (255 - 2 + len) 256); [lia|].
    exists b2. replace (255 - 2 + len - 255 + 2) with len by lia. rewrite Ee2. auto.
Qed.

Lemma loop_steps d room out toks d' out' : loop d room out toks d' out' -> steps (Dec.rbits d) (Dec.rbits d').
Proof.
  induction 1 as [d room out _|d room out t b' w' l toks d' out' _ ET _ _ _ _ IH|d room out t b' w0 l0 _ ET _ _].
  - apply steps_refl.
  - pose proof (dec_tok_steps (rh d) (Dec.rbits d)) as S1. rewrite ET in S1. exact (steps_trans _ _ _ S1 IH).
  - pose proof (dec_tok_steps (rh d) (Dec.rbits d)) as S1. rewrite ET in S1. exact S1.
Qed.
