(* Lzhuf/BitListP.v — bit lists (Bits.v: bits_msb, bytes_bits) against N.testbit.  Equalities of
   bit lists are reduced to pointwise equalities of bits (bw_ext, bw_join); x mod 2^n = 0 and
   x < 2^n are read as statements about the bits of x (mod0_bits; CrcP.lt_pow2_bits and
   bits_lt_pow2). *)
From Coq Require Import NArith List Lia Bool ZifyN ZifyNat.
From Verif Require Import Base.Bytes Lzhuf.Enc Lzhuf.CrcP Lzhuf.Bits.
Import ListNotations.
Open Scope N_scope.

Lemma bits_msb_S n x : bits_msb (S n) x = N.testbit x (N.of_nat n) :: bits_msb n x.
Proof. reflexivity. Qed.

Lemma bits_msb_length n x : length (bits_msb n x) = n.
Proof. induction n; cbn [bits_msb length]; congruence. Qed.

Lemma bits_msb_ext n x y :
  (forall k, k < N.of_nat n -> N.testbit x k = N.testbit y k) -> bits_msb n x = bits_msb n y.
Proof.
  induction n as [|n IH]; intros H; cbn [bits_msb]; [reflexivity|].
  f_equal; [apply H; lia|apply IH; intros k Hk; apply H; lia].
Qed.

Lemma bits_msb_mod n x : bits_msb n (x mod 2 ^ N.of_nat n) = bits_msb n x.
Proof. apply bits_msb_ext. intros k Hk. apply N.mod_pow2_bits_low. exact Hk. Qed.

Lemma bits_msb_ext_inv n x y :
  bits_msb n x = bits_msb n y -> forall k, k < N.of_nat n -> N.testbit x k = N.testbit y k.
Proof.
  induction n as [|n IH]; intros E k Hk; [lia|].
  cbn [bits_msb] in E. injection E as E0 E1.
  destruct (N.eq_dec k (N.of_nat n)) as [->|Hne]; [exact E0|].
  apply IH; [exact E1|lia].
Qed.

Lemma bits_msb_inj n x y :
  x < 2 ^ N.of_nat n -> y < 2 ^ N.of_nat n -> bits_msb n x = bits_msb n y -> x = y.
Proof.
  intros Hx Hy E. apply N.bits_inj. intros k. destruct (N.lt_ge_cases k (N.of_nat n)) as [Hk|Hk].
  - apply (bits_msb_ext_inv n); assumption.
  - rewrite (lt_pow2_bits x _ Hx k Hk), (lt_pow2_bits y _ Hy k Hk). reflexivity.
Qed.

Lemma bits_msb_app a b x :
  bits_msb (a + b) x = bits_msb a (N.shiftr x (N.of_nat b)) ++ bits_msb b x.
Proof.
  induction a as [|a IH]; cbn [Nat.add bits_msb app]; [reflexivity|].
  rewrite IH, N.shiftr_spec'. do 2 f_equal. lia.
Qed.

Lemma bytes_bits_cons y l : bytes_bits (y :: l) = bits_msb 8 y ++ bytes_bits l.
Proof. reflexivity. Qed.

(* bits_msb with the width in N, as the counts of the bit output (putlen, shift amounts) are *)
Definition bw (n x : N) : list bool := bits_msb (N.to_nat n) x.

Lemma bw_length n x : length (bw n x) = N.to_nat n.
Proof. apply bits_msb_length. Qed.

Lemma bw_ext n x y : (forall k, k < n -> N.testbit x k = N.testbit y k) -> bw n x = bw n y.
Proof. intros H. apply bits_msb_ext. intros k Hk. apply H. lia. Qed.

Lemma bw_split a b x : bw (a + b) x = bw a (N.shiftr x b) ++ bw b x.
Proof. unfold bw. rewrite N2Nat.inj_add, bits_msb_app, N2Nat.id. reflexivity. Qed.

Lemma bw_join a b x y z :
  (forall k, k < b -> N.testbit z k = N.testbit y k) ->
  (forall k, k < a -> N.testbit z (k + b) = N.testbit x k) ->
  bw a x ++ bw b y = bw (a + b) z.
Proof.
  intros H1 H2. rewrite bw_split. f_equal; apply bw_ext; intros k Hk.
  - rewrite N.shiftr_spec'. symmetry. apply H2, Hk.
  - symmetry. apply H1, Hk.
Qed.

Lemma firstn_bw n l x : l <= n -> firstn (N.to_nat l) (bw n x) = bw l (N.shiftr x (n - l)).
Proof.
  intros H. replace n with (l + (n - l)) at 1 by lia.
  rewrite bw_split, firstn_app, bw_length, Nat.sub_diag. cbn [firstn].
  rewrite app_nil_r. rewrite <- (bw_length l (N.shiftr x (n - l))) at 1. apply firstn_all.
Qed.

Lemma bw_zero n : bw n 0 = repeat false (N.to_nat n).
Proof.
  unfold bw. induction (N.to_nat n) as [|m IH]; cbn [bits_msb repeat]; [reflexivity|].
  rewrite N.bits_0, IH. reflexivity.
Qed.

Lemma bytes_bits_snoc l x : bytes_bits (l ++ [x]) = bytes_bits l ++ bw 8 x.
Proof. unfold bytes_bits. rewrite flat_map_app. cbn [flat_map]. rewrite app_nil_r. reflexivity. Qed.

Lemma tb_shiftl a n m : N.testbit (N.shiftl a n) m = if m <? n then false else N.testbit a (m - n).
Proof.
  destruct (N.ltb_spec m n); [apply N.shiftl_spec_low; assumption|apply N.shiftl_spec_high'; assumption].
Qed.

Lemma tb_window x s n k : k < n -> N.testbit (N.shiftr x s mod 2 ^ n) k = N.testbit x (k + s).
Proof. intros H. rewrite N.mod_pow2_bits_low by exact H. apply N.shiftr_spec'. Qed.

Lemma w64_testbit x k : k < 64 -> N.testbit (w64 x) k = N.testbit x k.
Proof. exact (N.mod_pow2_bits_low x 64 k). Qed.

Lemma mod0_bits x n : x mod 2 ^ n = 0 <-> (forall k, k < n -> N.testbit x k = false).
Proof.
  split.
  - intros H k Hk. rewrite <- (N.mod_pow2_bits_low x n k Hk), H. apply N.bits_0.
  - intros H. apply N.bits_inj. intros k. rewrite N.bits_0.
    destruct (N.lt_ge_cases k n) as [Hk|Hk].
    + rewrite N.mod_pow2_bits_low by exact Hk. apply H, Hk.
    + apply N.mod_pow2_bits_high, Hk.
Qed.

Lemma shiftr_lt x a b : x < 2 ^ (a + b) -> N.shiftr x a < 2 ^ b.
Proof.
  intros H. rewrite N.shiftr_div_pow2. apply N.div_lt_upper_bound; [apply N.pow_nonzero; discriminate|].
  rewrite <- N.pow_add_r. exact H.
Qed.

Lemma add_bits_disjoint x y n : x mod 2 ^ n = 0 -> y < 2 ^ n ->
  forall k, N.testbit (x + y) k = if k <? n then N.testbit y k else N.testbit x k.
Proof.
  intros Hx Hy k. pose proof (proj1 (mod0_bits _ _) Hx) as Zx. pose proof (lt_pow2_bits _ _ Hy) as Zy.
  assert (D : N.land x y = 0).
  { apply N.bits_inj. intros m. rewrite N.land_spec, N.bits_0.
    destruct (N.lt_ge_cases m n) as [Hm|Hm]; [rewrite Zx by exact Hm; reflexivity|].
    rewrite Zy by exact Hm. apply andb_false_r. }
  rewrite (N.add_nocarry_lxor _ _ D), (N.lxor_lor _ _ D), N.lor_spec.
  destruct (N.ltb_spec k n) as [Hk|Hk]; [rewrite Zx by exact Hk; reflexivity|].
  rewrite Zy by exact Hk. apply orb_false_r.
Qed.
