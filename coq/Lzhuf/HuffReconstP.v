(* Lzhuf/HuffReconstP.v — the first loop (reconst_collect, collect_spec) and the third loop
   (reconst_parents, parents_spec) of reconst (Lzhuf/Huff.v); the middle loop is in
   HuffBuildP.v and the three are assembled in HuffP.v.

   Never let Coq convert `leafsum h` with `rsum (leaf_freq h) natT` by unification
   (apply/exact): it unfolds natT and overflows the stack at Qed; rewrite with leafsum_unfold /
   leafsum_ext instead.  For the same reason collect_spec is proved through
   collected_of_cinv, which is generic in the final state and in the counters. *)
From Coq Require Import ZifyN ZifyNat ZifyBool Lia Bool FinFun.
From Verif Require Import Base.Bytes Base.Arr Lzhuf.Huff Lzhuf.HuffInv Lzhuf.HuffReconstDefs
  Lzhuf.HuffInvP gen.Tables.
Open Scope N_scope.

Lemma natC_N : N.of_nat natC = lz_NumChar. Proof. apply N2Nat.id. Qed.

Lemma half_le x : 2 * ((x + 1) / 2) <= x + 1.
Proof. apply N.mul_div_le. discriminate. Qed.
Lemma half_pos x : 1 <= x -> 1 <= (x + 1) / 2.
Proof. intros H. apply N.div_le_lower_bound; [discriminate|lia]. Qed.
Lemma half_mono x y : x <= y -> (x + 1) / 2 <= (y + 1) / 2.
Proof. intros H. apply N.div_le_mono; [discriminate|lia]. Qed.

Lemma upto_S n : upto (S n) = upto n ++ [N.of_nat n].
Proof. reflexivity. Qed.

Lemma upto_seq n : upto n = map N.of_nat (seq 0 n).
Proof.
  induction n; [reflexivity|].
  rewrite upto_S, seq_S, map_app, IHn. reflexivity.
Qed.

Lemma upto_length n : length (upto n) = n.
Proof. rewrite upto_seq, map_length, seq_length. reflexivity. Qed.

Lemma NoDup_upto n : NoDup (upto n).
Proof.
  rewrite upto_seq. apply Injective_map_NoDup; [|apply seq_NoDup].
  intros a b. apply Nat2N.inj.
Qed.

Lemma NoDup_map_on {A B} (f : A -> B) l :
  (forall x y, In x l -> In y l -> f x = f y -> x = y) -> NoDup l -> NoDup (map f l).
Proof.
  induction l; intros Hf Hn; cbn [map]; [constructor|].
  inversion Hn; subst. constructor.
  - intros Hin. apply in_map_iff in Hin. destruct Hin as (y & Hy & Hiny).
    assert (y = a) by (apply Hf; [right; auto|left; auto|auto]). subst. auto.
  - apply IHl; auto. intros; apply Hf; auto; right; auto.
Qed.

Lemma collect_S n i j h :
  reconst_collect (S n) i j h =
  if lz_T <=? aget (son h) i then
    reconst_collect n (i + 1) (j + 1)
      {| freq := aset (freq h) j ((aget (freq h) i + 1) / 2);
         son := aset (son h) j (aget (son h) i);
         prnt := prnt h |}
  else reconst_collect n (i + 1) j h.
Proof. reflexivity. Qed.

(* The first loop at source counter n and destination counter j: the cells from n on are those
   of h0; the cell q < j is the halved copy of the leaf of h0 at position prnt h0 (son h q),
   these positions are below n and increase with q, and every leaf of h0 below n has been
   copied.  That the cells are sorted, positive and hold different symbols is read off at
   the end (collected_of_cinv) from the order of h0. *)
Record CInv (h0 : huff) (n j : nat) (h : huff) : Prop := {
  ci_prnt : prnt h = prnt h0;
  ci_rest_f : forall p, N.of_nat n <= p -> aget (freq h) p = aget (freq h0) p;
  ci_rest_s : forall p, N.of_nat n <= p -> aget (son h) p = aget (son h0) p;
  ci_le : (j <= n)%nat;
  ci_cell : forall q, q < N.of_nat j ->
      lz_T <= aget (son h) q /\ aget (son h) q < lz_T + lz_NumChar /\
      aget (prnt h0) (aget (son h) q) < N.of_nat n /\
      aget (freq h) q = (aget (freq h0) (aget (prnt h0) (aget (son h) q)) + 1) / 2;
  ci_mono : forall q q', q < q' -> q' < N.of_nat j ->
      aget (prnt h0) (aget (son h) q) < aget (prnt h0) (aget (son h) q');
  ci_all : forall x, x < N.of_nat n -> lz_T <= aget (son h0) x ->
      exists q, q < N.of_nat j /\ aget (son h) q = aget (son h0) x;
  ci_total : 2 * rsum (fun p => aget (freq h) p) j <= rsum (leaf_freq h0) n + N.of_nat j
}.

Lemma collect_loop h0 : Shape h0 -> forall m n j h, N.of_nat (m + n) <= lz_T -> CInv h0 n j h ->
  exists j', CInv h0 (m + n) j' (reconst_collect m (N.of_nat n) (N.of_nat j) h).
Proof.
  intros Sh. induction m; intros n j h Hmn H.
  - exists j. exact H.
  - rewrite collect_S. replace (S m + n)%nat with (m + S n)%nat in * by lia.
    replace (N.of_nat n + 1) with (N.of_nat (S n)) by lia.
    assert (Hn : N.of_nat n <= lz_R) by tlia.
    pose proof (ci_le _ _ _ _ H) as Hjn.
    rewrite (ci_rest_s _ _ _ _ H (N.of_nat n)), (ci_rest_f _ _ _ _ H (N.of_nat n)) by lia.
    assert (Elf : leaf_freq h0 (N.of_nat n) =
                  if lz_T <=? aget (son h0) (N.of_nat n) then aget (freq h0) (N.of_nat n) else 0)
      by reflexivity.
    destruct (N.leb_spec lz_T (aget (son h0) (N.of_nat n))) as [E|E].
    + replace (N.of_nat j + 1) with (N.of_nat (S j)) by lia.
      apply IHm; [exact Hmn|].
      assert (Hlt : aget (son h0) (N.of_nat n) < lz_T + lz_NumChar)
        by (destruct (sh_son _ Sh _ Hn) as [[? _]|[_ ?]]; lia).
      pose proof (sh_leaf _ Sh _ Hn E) as Hsrc.
      constructor; cbn [freq son prnt].
      * apply (ci_prnt _ _ _ _ H).
      * intros p Hp. rewrite aget_aset_other by lia. apply (ci_rest_f _ _ _ _ H). lia.
      * intros p Hp. rewrite aget_aset_other by lia. apply (ci_rest_s _ _ _ _ H). lia.
      * lia.
      * intros q Hq. destruct (N.eq_dec q (N.of_nat j)) as [->|Eq].
        -- rewrite !aget_aset_same, Hsrc. repeat split; lia.
        -- rewrite !aget_aset_other by lia. destruct (ci_cell _ _ _ _ H q) as (A & B & C & D); [lia|].
           repeat split; (assumption || lia).
      * (* the new cell comes from n, the others from below n *)
        intros q q' Hqq Hq'. rewrite (aget_aset_other _ _ q) by lia.
        destruct (ci_cell _ _ _ _ H q) as (_ & _ & A & _); [lia|].
        destruct (N.eq_dec q' (N.of_nat j)) as [->|Eq]; [rewrite aget_aset_same, Hsrc; exact A|].
        rewrite aget_aset_other by lia. apply (ci_mono _ _ _ _ H); lia.
      * intros x Hx Hl. destruct (N.eq_dec x (N.of_nat n)) as [->|Ex].
        -- exists (N.of_nat j). split; [lia|apply aget_aset_same].
        -- destruct (ci_all _ _ _ _ H x) as (q & Hq & Eq); [lia|exact Hl|].
           exists q. split; [lia|]. rewrite aget_aset_other by lia. exact Eq.
      * cbn [rsum]. rewrite aget_aset_same, Elf.
        rewrite (rsum_ext (fun p => aget (freq h) p)) by (intros x Hx; apply aget_aset_other; lia).
        pose proof (ci_total _ _ _ _ H). pose proof (half_le (aget (freq h0) (N.of_nat n))). lia.
    + apply IHm; [exact Hmn|]. constructor.
      * apply (ci_prnt _ _ _ _ H).
      * intros p Hp. apply (ci_rest_f _ _ _ _ H). lia.
      * intros p Hp. apply (ci_rest_s _ _ _ _ H). lia.
      * lia.
      * intros q Hq. destruct (ci_cell _ _ _ _ H q Hq) as (A & B & C & D).
        repeat split; (assumption || lia).
      * exact (ci_mono _ _ _ _ H).
      * intros x Hx Hl. apply (ci_all _ _ _ _ H); [|exact Hl].
        assert (x <> N.of_nat n) by (intros ->; lia). lia.
      * cbn [rsum]. rewrite Elf. pose proof (ci_total _ _ _ _ H). lia.
Qed.

(* If every symbol has a cell there are NumChar cells, since they hold different symbols.  The
   count is a variable: see the head of the file. *)
Lemma cells_count (sn : N -> N) j m : N.of_nat m = lz_NumChar ->
  (forall q, q < N.of_nat j -> lz_T <= sn q /\ sn q < lz_T + lz_NumChar) ->
  (forall p q, p < N.of_nat j -> q < N.of_nat j -> sn p = sn q -> p = q) ->
  (forall c, c < lz_NumChar -> exists q, q < N.of_nat j /\ sn q = c + lz_T) -> j = m.
Proof.
  intros Hm Leaf Inj All.
  set (A := map sn (upto j)).
  set (B := map (fun c => c + lz_T) (upto m)).
  assert (NA : NoDup A).
  { apply NoDup_map_on; [|apply NoDup_upto]. intros x y Hx Hy. apply In_upto in Hx, Hy.
    apply Inj; assumption. }
  assert (NB : NoDup B) by (apply NoDup_map_on; [intros x y _ _; lia|apply NoDup_upto]).
  assert (AB : incl A B).
  { intros s Hs. apply in_map_iff in Hs. destruct Hs as (q & <- & Hq). apply In_upto in Hq.
    destruct (Leaf q Hq) as (L1 & L2).
    apply in_map_iff. exists (sn q - lz_T). split; [lia|apply In_upto; lia]. }
  assert (BA : incl B A).
  { intros s Hs. apply in_map_iff in Hs. destruct Hs as (c & <- & Hc). apply In_upto in Hc.
    destruct (All c) as (q & Hq & Eq); [lia|].
    apply in_map_iff. exists q. split; [exact Eq|apply In_upto, Hq]. }
  pose proof (NoDup_incl_length NA AB) as L1. pose proof (NoDup_incl_length NB BA) as L2.
  unfold A, B in L1, L2. rewrite !map_length, !upto_length in L1, L2. lia.
Qed.

(* n and the final state are variables: see the head of the file *)
Lemma collected_of_cinv h0 h1 n j :
  Inv h0 -> N.of_nat n = lz_T -> rsum (leaf_freq h0) n = aget (freq h0) lz_R ->
  CInv h0 n j h1 -> Collected h0 h1.
Proof.
  intros I Hn Etot CI.
  pose proof (inv_shape _ I) as S. pose proof (inv_freqs _ I) as F.
  consts. pose proof natC_N.
  assert (Leaf : forall q, q < N.of_nat j ->
            lz_T <= aget (son h1) q /\ aget (son h1) q < lz_T + lz_NumChar).
  { intros q Hq. destruct (ci_cell _ _ _ _ CI q Hq) as (A & B & _). split; assumption. }
  assert (Inj : forall p q, p < N.of_nat j -> q < N.of_nat j ->
            aget (son h1) p = aget (son h1) q -> p = q).
  { intros p q Hp Hq E. destruct (N.lt_trichotomy p q) as [L|[L|L]]; [|exact L|];
      [pose proof (ci_mono _ _ _ _ CI p q L Hq)|pose proof (ci_mono _ _ _ _ CI q p L Hp)];
      rewrite E in *; lia. }
  assert (All : forall c, c < lz_NumChar ->
            exists q, q < N.of_nat j /\ aget (son h1) q = c + lz_T).
  { intros c Hc. destruct (sh_sym _ S c Hc) as [Hp Es]. rewrite <- Es.
    apply (ci_all _ _ _ _ CI); lia. }
  assert (Hj : j = natC) by exact (cells_count _ j natC natC_N Leaf Inj All).
  subst j. constructor.
  - apply (ci_prnt _ _ _ _ CI).
  - intros p Hp. apply Leaf. lia.
  - intros p Hp. destruct (ci_cell _ _ _ _ CI p) as (_ & _ & A & ->); [lia|].
    apply half_pos, (fq_pos _ _ F). lia.
  - intros p Hp. destruct (ci_cell _ _ _ _ CI p) as (_ & _ & _ & ->); [lia|].
    destruct (ci_cell _ _ _ _ CI (p + 1)) as (_ & _ & A & ->); [lia|].
    pose proof (ci_mono _ _ _ _ CI p (p + 1)). apply half_mono, (fq_mono _ _ F); lia.
  - intros c Hc. destruct (All c Hc) as (q & Hq & Eq). exists q. split; [lia|exact Eq].
  - intros p q Hp Hq. apply Inj; lia.
  - pose proof (ci_total _ _ _ _ CI) as Tt. rewrite Etot in Tt. lia.
  - rewrite (ci_rest_f _ _ _ _ CI) by lia. apply (fq_sentinel _ _ F).
Qed.

Lemma leafsum_unfold h : leafsum h = rsum (leaf_freq h) natT.
Proof. unfold leafsum. reflexivity. Qed.

Lemma leafsum_ext h h' : son h = son h' -> freq h = freq h' -> leafsum h = leafsum h'.
Proof. intros Es Ef. rewrite !leafsum_unfold. unfold leaf_freq. rewrite Es, Ef. reflexivity. Qed.

Theorem collect_spec : forall h0, Inv h0 -> Collected h0 (reconst_collect natT 0 0 h0).
Proof.
  intros h0 I. destruct (collect_loop h0 (inv_shape _ I) natT 0 0 h0) as (j & CI).
  - rewrite Nat.add_0_r, natT_N. apply N.le_refl.
  - constructor; auto; try (intros; lia). cbn [rsum]. lia.
  - rewrite Nat.add_0_r in CI. apply (collected_of_cinv h0 _ natT j I).
    + apply natT_N.
    + rewrite <- leafsum_unfold. apply (inv_total _ I).
    + exact CI.
Qed.

Lemma parents_S m i h :
  reconst_parents (S m) i h =
  reconst_parents m (i + 1)
    {| freq := freq h; son := son h;
       prnt := if lz_T <=? aget (son h) i then aset (prnt h) (aget (son h) i) i
               else aset (aset (prnt h) (aget (son h) i + 1) i) (aget (son h) i) i |}.
Proof. reflexivity. Qed.

(* step i writes i into the slots of son[i] (kidb, HuffInvP.v); no two steps write the same
   slot *)
Lemma kidb_uniq h1 h2 : Built h1 h2 -> forall i i' x,
  i <= lz_R -> i' <= lz_R ->
  kidb (aget (son h2) i) x = true -> kidb (aget (son h2) i') x = true -> i = i'.
Proof.
  intros B i i' x Hi Hi' C C'. apply (bu_inj _ _ B); auto. apply kidb_spec in C, C'.
  destruct (bu_node _ _ B i Hi) as [(a & b & c & _)|(a & b)];
  destruct (bu_node _ _ B i' Hi') as [(a' & b' & c' & _)|(a' & b')]; try tlia.
  pose proof (even_succ_false _ _ b b'). pose proof (even_succ_false _ _ b' b). lia.
Qed.

Lemma pstep_val k i pr x :
  aget (if lz_T <=? k then aset pr k i else aset (aset pr (k + 1) i) k i) x =
  if kidb k x then i else aget pr x.
Proof.
  unfold kidb. destruct (N.leb_spec lz_T k), (N.ltb_spec k lz_T); try lia;
    cbn [andb]; rewrite !aget_aset.
  - rewrite orb_false_r. reflexivity.
  - destruct (x =? k), (x =? k + 1); reflexivity.
Qed.

(* prnt after n steps: a slot of some node i < n holds i, every other cell its old value *)
Definition PInv (h2 : huff) (n : nat) (pr : arr) : Prop := forall x,
  (forall i, i < N.of_nat n -> kidb (aget (son h2) i) x = true -> aget pr x = i) /\
  ((forall i, i < N.of_nat n -> kidb (aget (son h2) i) x = false) ->
   aget pr x = aget (prnt h2) x).

Lemma parents_loop h1 h2 : Built h1 h2 -> forall m n h,
  (m + n <= natT)%nat -> son h = son h2 -> freq h = freq h2 -> PInv h2 n (prnt h) ->
  son (reconst_parents m (N.of_nat n) h) = son h2 /\
  freq (reconst_parents m (N.of_nat n) h) = freq h2 /\
  PInv h2 (m + n) (prnt (reconst_parents m (N.of_nat n) h)).
Proof.
  intros B. induction m; intros n h Hmn Hs Hf HP.
  - auto.
  - rewrite parents_S. replace (N.of_nat n + 1) with (N.of_nat (S n)) by lia.
    replace (S m + n)%nat with (m + S n)%nat by lia.
    apply IHm; cbn [son freq prnt]; auto; [lia|].
    rewrite Hs. intros x. rewrite pstep_val.
    assert (Hi : N.of_nat n <= lz_R) by (pose proof natT_N; tlia).
    destruct (HP x) as [P1 P2].
    destruct (kidb (aget (son h2) (N.of_nat n)) x) eqn:E.
    + split.
      * intros i' Hi' C'. apply (kidb_uniq _ _ B (N.of_nat n) i' x); auto. lia.
      * intros Hno. rewrite Hno in E by lia. discriminate.
    + split.
      * intros i' Hi' C'. apply P1; auto.
        assert (i' <> N.of_nat n) by (intros ->; congruence). lia.
      * intros Hno. apply P2. intros i' Hi'. apply Hno. lia.
Qed.

Theorem parents_spec : forall h1 h2,
  Built h1 h2 -> aget (prnt h2) lz_R = 0 ->
  2 * aget (freq h2) lz_R <= lz_MaxFreq + lz_NumChar ->
  Inv (reconst_parents natT 0 h2) /\ aget (freq (reconst_parents natT 0 h2)) lz_R < lz_MaxFreq.
Proof.
  intros h1 h2 B Hr Hm.
  destruct (parents_loop h1 h2 B natT 0%nat h2) as (Hs & Hf & HP); [lia|auto|auto| |].
  { intros x. split; [intros i Hi; lia|auto]. }
  rewrite Nat.add_0_r in HP. change (N.of_nat 0) with 0 in *.
  set (h3 := reconst_parents natT 0 h2) in *.
  consts. pose proof natT_N.
  assert (P1 : forall i x, i <= lz_R -> x = aget (son h2) i \/
                (aget (son h2) i < lz_T /\ x = aget (son h2) i + 1) -> aget (prnt h3) x = i).
  { intros i x Hi C. apply (HP x); [lia|apply kidb_spec, C]. }
  split; [|rewrite Hf; lia].
  constructor.
  - (* Shape *)
    constructor; rewrite ?Hs.
    + intros p Hp. destruct (bu_node _ _ B p Hp) as [(a & b & c & _)|(a & b)]; auto.
    + intros p Hp Hlt. split; apply P1; auto.
    + intros p Hp Hge. apply P1; auto.
    + intros k Hk. destruct (N.Even_or_Odd k) as [[m Em]|[m Em]].
      * destruct (bu_int_all _ _ B k Hk) as (p & Hp & Ep).
        { apply N.even_spec. exists m. exact Em. }
        rewrite (P1 p k Hp) by auto.
        split; [exact Hp|]. split; [lia|auto].
      * destruct (bu_int_all _ _ B (k - 1)) as (p & Hp & Ep); [lia| |].
        { apply N.even_spec. exists m. lia. }
        rewrite (P1 p k Hp) by (right; lia).
        split; [exact Hp|]. split; [lia|right; lia].
    + intros c Hc. destruct (bu_sym_all _ _ B c Hc) as (p & Hp & Ep).
      rewrite (P1 p (c + lz_T) Hp) by auto. auto.
    + (* the root is nobody's slot *)
      rewrite (proj2 (HP lz_R)); [exact Hr|]. intros i Hi.
      apply not_true_is_false. intros K. apply kidb_spec in K.
      destruct (bu_node _ _ B i) as [(a & b & c & _)|(a & b)]; lia.
    + apply (bu_root _ _ B).
  - (* Freqs *)
    constructor; rewrite ?Hf.
    + apply (bu_sorted _ _ B).
    + apply (bu_sentinel _ _ B).
    + apply (bu_pos _ _ B).
    + lia.
  - intros p Hp. unfold sum_at. rewrite Hs, Hf. intros Hlt.
    destruct (bu_node _ _ B p Hp) as [(_ & _ & _ & E)|(a & _)]; [exact E|lia].
  - rewrite (leafsum_ext h3 h2 Hs Hf), Hf. apply (bu_total _ _ B).
Qed.

Print Assumptions collect_spec.
Print Assumptions parents_spec.
