(* Lzhuf/BitsRP.v — the bit reader (Lzhuf/Dec.v: read_byte, read_bits, dec_walk, decode_char,
   pos_bits, decode_position) against the bit-list view of Lzhuf/Bits.v (rbits, RdOK, pos_code):
   it consumes exactly the bits of a code (decode_char_code, decode_position_code), and past
   the end of input it reads zeros and records ErrUnexpectedEOF (read_bit_spec).  Stale bits of
   bn above bbits never matter and w64 stays folded (bits_msb_load); read_bits is treated for
   any width 1..8 at once, with no case split on bbits; decode_char_code runs the walk with
   fuel = length of the code (HuffWalkP.code_of_path), spare fuel is not used. *)
From Coq Require Import NArith ZArith List Bool Arith Lia ZifyN ZifyNat.
From Verif Require Import Base.Bytes Base.Arr Lzhuf.Huff Lzhuf.HuffInv Lzhuf.HuffWalkP Lzhuf.Enc Lzhuf.Crc Lzhuf.CrcP
  Lzhuf.Dec Lzhuf.LzP Lzhuf.Bits gen.Tables.
From Verif Require Export Lzhuf.BitListP.
Import ListNotations.
Open Scope N_scope.

Lemma bits_msb_load n a y : (n <= 56)%nat -> y < 256 ->
  bits_msb (n + 8) (w64 (N.lor (N.shiftl a 8) y)) = bits_msb n a ++ bits_msb 8 y.
Proof.
  intros Hn Hy. rewrite bits_msb_app. f_equal.
  - apply bits_msb_ext. intros k Hk.
    rewrite N.shiftr_spec', w64_testbit by lia.
    rewrite N.lor_spec, (lt_pow2_bits y 8 Hy) by lia.
    rewrite orb_false_r. change (N.of_nat 8) with 8.
    rewrite N.shiftl_spec_high' by lia. f_equal. lia.
  - apply bits_msb_ext. intros k Hk. change (N.of_nat 8) with 8 in Hk.
    rewrite w64_testbit by lia.
    rewrite N.lor_spec, N.shiftl_spec_low by exact Hk. reflexivity.
Qed.

Lemma pull_cons y c r :
  pull 100 ((y :: c) :: r) =
  Some (y :: firstn (pred bufsize) c,
        match skipn (pred bufsize) c with [] => r | _ :: _ => skipn (pred bufsize) c :: r end).
Proof. reflexivity. Qed.

Lemma read_byte_some b :
  Forall (fun c : bytes => c <> []) (src b) -> rbytes b <> [] ->
  exists y b1, read_byte b = (Some y, b1) /\ rbytes b = y :: rbytes b1 /\
    bn b1 = bn b /\ bbits b1 = bbits b /\ berr b1 = berr b /\
    Forall (fun c : bytes => c <> []) (src b1).
Proof.
  intros HS HN. unfold read_byte, rbytes in *. destruct (bbuf b) as [|x r] eqn:EB.
  - destruct (src b) as [|c s] eqn:ES; [cbn in HN; congruence|].
    inversion HS as [|? ? Hc Hs]; subst. destruct c as [|y c]; [congruence|].
    rewrite pull_cons. eexists _, _. split; [reflexivity|]. cbn [src bbuf bn bbits berr].
    split; [|split; [reflexivity|split; [reflexivity|split; [reflexivity|]]]].
    + cbn [app concat]. f_equal. rewrite <- (firstn_skipn (pred bufsize) c) at 1.
      rewrite <- app_assoc. f_equal.
      destruct (skipn (pred bufsize) c); reflexivity.
    + destruct (skipn (pred bufsize) c) eqn:EK; [exact Hs|]. constructor; [discriminate|exact Hs].
  - eexists _, _. split; [reflexivity|]. cbn [src bbuf bn bbits berr].
    split; [reflexivity|]. auto.
Qed.

Lemma read_byte_none b :
  Forall (fun c : bytes => c <> []) (src b) -> rbytes b = [] -> read_byte b = (None, b).
Proof.
  intros HS HN. unfold rbytes in HN. apply app_eq_nil in HN. destruct HN as (E1 & E2).
  unfold read_byte. rewrite E1. destruct HS as [|c s Hc HS]; [reflexivity|].
  cbn [concat] in E2. apply app_eq_nil in E2. tauto.
Qed.

(* the local function go of Dec.read_bits: the bits are taken from those loaded *)
Definition go_ (b : bitrd) (bits : N) : N * bitrd :=
  (N.land (N.shiftr (bn b) (bbits b - bits)) (N.ones bits),
   {| src := src b; bbuf := bbuf b; bn := bn b; bbits := bbits b - bits; berr := berr b;
      crcsum := crcsum b |}).

Lemma read_bits_eq b bits : read_bits b bits =
  if bbits b <? bits then
    match read_byte b with
    | (Some x, b1) =>
        go_ {| src := src b1; bbuf := bbuf b1; bn := w64 (N.lor (N.shiftl (bn b1) 8) x);
               bbits := bbits b1 + 8; berr := berr b1; crcsum := crcsum b1 |} bits
    | (None, b1) =>
        (0, {| src := src b1; bbuf := bbuf b1; bn := bn b1; bbits := bbits b1;
               berr := ErrUnexpectedEOF; crcsum := crcsum b1 |})
    end
  else go_ b bits.
Proof. reflexivity. Qed.

Lemma go_spec b bits : bits <= bbits b ->
  fst (go_ b bits) < 2 ^ bits /\
  rbits b = bits_msb (N.to_nat bits) (fst (go_ b bits)) ++ rbits (snd (go_ b bits)).
Proof.
  intros H. unfold go_, rbits, rbytes. cbn [fst snd src bbuf bn bbits].
  rewrite N.land_ones. split; [apply N.mod_upper_bound; apply N.pow_nonzero; lia|].
  rewrite app_assoc. f_equal.
  replace (N.to_nat (bbits b)) with (N.to_nat bits + N.to_nat (bbits b - bits))%nat by lia.
  rewrite bits_msb_app, N2Nat.id. f_equal. apply bits_msb_ext. intros k Hk.
  symmetry. apply N.mod_pow2_bits_low. lia.
Qed.

Lemma read_bits_ok b bits : RdOK b -> 1 <= bits <= 8 ->
  (bits <= bbits b \/ rbytes b <> []) ->
  exists v b', read_bits b bits = (v, b') /\ v < 2 ^ bits /\
    rbits b = bits_msb (N.to_nat bits) v ++ rbits b' /\ RdOK b' /\ berr b' = berr b.
Proof.
  intros (HB & HF & HS) Hbits Hav. rewrite read_bits_eq.
  destruct (N.ltb_spec (bbits b) bits) as [Hlt|Hge].
  - destruct Hav as [?|HN]; [lia|].
    destruct (read_byte_some b HS HN) as (y & b1 & E & ER & E1 & E2 & E3 & HS1).
    rewrite E.
    set (b2 := {| src := src b1; bbuf := bbuf b1; bn := w64 (N.lor (N.shiftl (bn b1) 8) y);
                  bbits := bbits b1 + 8; berr := berr b1; crcsum := crcsum b1 |}).
    rewrite ER in HF. inversion HF as [|? ? Hy HF1]; subst.
    assert (R2 : rbits b2 = rbits b).
    { unfold rbits. rewrite ER, bytes_bits_cons, app_assoc. f_equal.
      unfold b2. cbn [bbits bn]. rewrite E1, E2.
      replace (N.to_nat (bbits b + 8)) with (N.to_nat (bbits b) + 8)%nat by lia.
      apply bits_msb_load; [lia|exact Hy]. }
    destruct (go_spec b2 bits) as (Hv & Hr); [unfold b2; cbn [bbits]; lia|].
    exists (fst (go_ b2 bits)), (snd (go_ b2 bits)).
    split; [apply surjective_pairing|]. split; [exact Hv|]. split; [rewrite <- R2; exact Hr|].
    split; [|unfold go_, b2; cbn [snd berr]; exact E3].
    unfold RdOK, go_, b2, rbytes. cbn [snd bbits bbuf src]. split; [lia|]. split; assumption.
  - destruct (go_spec b bits Hge) as (Hv & Hr).
    exists (fst (go_ b bits)), (snd (go_ b bits)).
    split; [apply surjective_pairing|]. split; [exact Hv|]. split; [exact Hr|].
    split; [|reflexivity].
    unfold RdOK, go_, rbytes. cbn [snd bbits bbuf src]. split; [lia|]. split; assumption.
Qed.

Lemma read_bits_eof b bits : RdOK b -> bbits b < bits -> rbytes b = [] ->
  read_bits b bits =
    (0, {| src := src b; bbuf := bbuf b; bn := bn b; bbits := bbits b;
           berr := ErrUnexpectedEOF; crcsum := crcsum b |}).
Proof.
  intros (HB & HF & HS) Hlt HN. rewrite read_bits_eq.
  destruct (N.ltb_spec (bbits b) bits) as [_|?]; [|lia].
  rewrite (read_byte_none b HS HN). reflexivity.
Qed.

Lemma app_eq_len {A} : forall (a b r r' : list A),
  length a = length b -> a ++ r = b ++ r' -> a = b /\ r = r'.
Proof.
  induction a as [|x a IH]; intros [|y b] r r' L E; cbn in L; try discriminate.
  - auto.
  - cbn [app] in E. injection E as -> E. injection L as L.
    destruct (IH b r r' L E) as (-> & ->). auto.
Qed.

Lemma read_bits_spec n x b r : 1 <= n <= 8 -> x < 2 ^ n -> RdOK b ->
  rbits b = bits_msb (N.to_nat n) x ++ r ->
  exists b', read_bits b n = (x, b') /\ rbits b' = r /\ RdOK b' /\ berr b' = berr b.
Proof.
  intros Hn Hx OK ER.
  destruct (read_bits_ok b n OK Hn) as (v & b' & E & Hv & Hr & OK' & Eerr).
  { destruct (rbytes b) eqn:EB; [left|right; discriminate].
    apply (f_equal (@length bool)) in ER. unfold rbits in ER. rewrite EB in ER.
    rewrite !app_length, !bits_msb_length in ER. cbn [bytes_bits flat_map length] in ER. lia. }
  exists b'. rewrite ER in Hr.
  apply app_eq_len in Hr; [|rewrite !bits_msb_length; reflexivity].
  destruct Hr as (EL & ->). rewrite <- (N2Nat.id n) in Hx, Hv.
  apply bits_msb_inj in EL; [|exact Hx|exact Hv]. subst v. auto.
Qed.

Theorem read_bit_spec : forall b, RdOK b ->
  match rbits b with
  | bit :: r => exists b', read_bits b 1 = (N.b2n bit, b') /\ rbits b' = r /\ RdOK b' /\ berr b' = berr b
  | [] => exists b', read_bits b 1 = (0, b') /\ rbits b' = [] /\ RdOK b' /\ berr b' = ErrUnexpectedEOF
  end.
Proof.
  intros b OK. destruct (rbits b) as [|bit r] eqn:ER.
  - unfold rbits in ER. apply app_eq_nil in ER. destruct ER as (E1 & E2).
    assert (E3 : rbytes b = []) by (destruct (rbytes b); [reflexivity|discriminate]).
    assert (E0 : bbits b = 0).
    { apply (f_equal (@length bool)) in E1. rewrite bits_msb_length in E1. cbn in E1. lia. }
    rewrite (read_bits_eof b 1 OK) by (try assumption; lia).
    eexists. split; [reflexivity|].
    destruct OK as (HB & HF & HS).
    split; [|split; [|reflexivity]].
    + unfold rbits, rbytes in *. cbn [bbits bn bbuf src]. rewrite E0, E3. reflexivity.
    + unfold RdOK, rbytes in *. cbn [bbits bbuf src]. auto.
  - apply (read_bits_spec 1 (N.b2n bit) b r); [lia|destruct bit; reflexivity|exact OK|].
    rewrite ER. destruct bit; reflexivity.
Qed.

(* past the end of input both walks read zeros *)
Theorem dec_walk_refines : forall fuel h s b, RdOK b ->
  decode_walk fuel h s (rbits b) =
    (fst (dec_walk fuel h s b), rbits (snd (dec_walk fuel h s b)))
  /\ RdOK (snd (dec_walk fuel h s b)).
Proof.
  induction fuel as [|f IH]; intros h s b OK.
  - rewrite decode_walk_0, dec_walk_0. cbn [fst snd]. auto.
  - rewrite decode_walk_S, dec_walk_S. destruct (s <? lz_T); [|cbn [fst snd]; auto].
    pose proof (read_bit_spec b OK) as RB.
    destruct (rbits b) as [|bit r].
    + destruct RB as (b' & E & Er & OK' & _). rewrite E. cbn [fst snd].
      rewrite N.add_0_r, <- Er. apply IH. exact OK'.
    + destruct RB as (b' & E & Er & OK' & _). rewrite E. cbn [fst snd].
      replace (if bit then 1 else 0) with (N.b2n bit) by (destruct bit; reflexivity).
      rewrite <- Er. apply IH. exact OK'.
Qed.

(* a list walk that ends at a symbol slot within the bits that are there is what the decoder
   does: it raises no error and leaves spare fuel g unused *)
Lemma dec_walk_exact : forall f g h s b c r, RdOK b -> (f <= length (rbits b))%nat ->
  decode_walk f h s (rbits b) = (c, r) -> lz_T <= c ->
  exists b', dec_walk (f + g) h s b = (c, b') /\ rbits b' = r /\ RdOK b' /\ berr b' = berr b.
Proof.
  induction f as [|f IH]; intros g h s b c r OK Hf HW Hc.
  - rewrite decode_walk_0 in HW. injection HW as <- <-. exists b.
    rewrite dec_walk_stop by exact Hc. auto.
  - change (S f + g)%nat with (S (f + g)). rewrite decode_walk_S in HW. rewrite dec_walk_S.
    destruct (s <? lz_T); [|injection HW as <- <-; exists b; auto].
    pose proof (read_bit_spec b OK) as RB.
    destruct (rbits b) as [|bit r0]; [cbn in Hf; lia|].
    destruct RB as (b1 & E & Er & OK1 & Ee). rewrite E. cbn [fst snd].
    replace (N.b2n bit) with (if bit then 1 else 0) by (destruct bit; reflexivity).
    rewrite <- Ee. apply IH; [exact OK1|rewrite Er; cbn in Hf; lia|rewrite Er; exact HW|exact Hc].
Qed.

Theorem decode_char_code : forall h b c r, Shape h -> RdOK b -> c < lz_NumChar ->
  rbits b = code_of h c ++ r ->
  exists b', decode_char h b = (c, update h c, b') /\ rbits b' = r /\ RdOK b' /\ berr b' = berr b.
Proof.
  intros h b c r SH OK Hc ER.
  destruct (code_of_path h SH c Hc) as (bit & w & E & A & Hs). rewrite E in ER.
  pose proof (down_le h SH _ _ (N.le_refl _) A) as L. set (d := length (bit :: w)) in *.
  pose proof (decode_down h (bit :: w) lz_R 0 r A) as Hdec.
  rewrite Hs, decode_walk_0, Nat.add_0_r, <- ER in Hdec. fold d in Hdec.
  destruct (dec_walk_exact d (S natT - d) h (aget (son h) lz_R) b (c + lz_T) r OK) as (b' & EW & Er & OK' & Ee);
    [rewrite ER, app_length; fold d; lia|exact Hdec|lia|].
  replace (d + (S natT - d))%nat with (S natT) in EW by (pose proof natT_val; rewrite R_val in L; lia).
  unfold decode_char. rewrite EW. exists b'.
  replace (c + lz_T - lz_T) with c by lia. auto.
Qed.

(* shifting a list of bits into an accumulator, as pos_bits does *)
Definition shift_in (l : list bool) (acc : N) : N :=
  fold_left (fun a bit => a * 2 + N.b2n bit) l acc.

Lemma pos_bits_spec : forall l acc b r, RdOK b -> rbits b = l ++ r ->
  exists b', pos_bits (length l) acc b = (shift_in l acc, b') /\ rbits b' = r /\ RdOK b' /\
             berr b' = berr b.
Proof.
  induction l as [|bit l IH]; intros acc b r OK ER.
  - exists b. cbn. auto.
  - cbn [length pos_bits]. pose proof (read_bit_spec b OK) as RB. rewrite ER in RB.
    cbn [app] in RB. destruct RB as (b1 & E & Er & OK1 & Ee). rewrite E.
    destruct (IH (acc * 2 + N.b2n bit) b1 r OK1 Er) as (b' & E' & Er' & OK' & Ee').
    exists b'. rewrite E'. unfold shift_in. cbn [fold_left]. rewrite <- Ee. auto.
Qed.

(* pos_bits multiplies by two and adds: the bits read enter below those of the accumulator *)
Lemma shift_in_bits : forall n x acc k,
  N.testbit (shift_in (bits_msb n x) acc) k =
  if k <? N.of_nat n then N.testbit x k else N.testbit acc (k - N.of_nat n).
Proof.
  induction n as [|n IH]; intros x acc k.
  - cbn [bits_msb shift_in fold_left N.of_nat]. rewrite N.sub_0_r.
    destruct (N.ltb_spec k 0); [lia|reflexivity].
  - cbn [bits_msb shift_in fold_left].
    fold (shift_in (bits_msb n x) (acc * 2 + N.b2n (N.testbit x (N.of_nat n)))). rewrite IH, N.mul_comm.
    destruct (N.ltb_spec k (N.of_nat n)), (N.ltb_spec k (N.of_nat (S n))); [reflexivity|lia| |].
    + replace k with (N.of_nat n) by lia. rewrite N.sub_diag. apply N.testbit_0_r.
    + replace (k - N.of_nat n) with (N.succ (k - N.of_nat (S n))) by lia. apply N.testbit_succ_r.
Qed.

(* What decode_position sees of the code of pos = i * 64 + low.  The code is the pLen[i] top bits
   of the byte pCode[i], then the six bits of low.  Its first 8 bits are the byte
   v = pCode[i] + t, t the top 8 - pLen[i] bits of low; the tables give back dCode[v] = i and
   dLen[v] = pLen[i] (LzP.tables_inverse), so pLen[i] - 2 bits of low remain, and shifting them
   into v puts all of low into the six low bits. *)
Lemma pos_code_split pos : pos < 4096 ->
  exists v l2, v < 256 /\ pos_code pos = bits_msb 8 v ++ l2 /\
    length l2 = N.to_nat (nth (N.to_nat v) lz_dLen 0 - 2) /\
    N.lor (N.shiftl (nth (N.to_nat v) lz_dCode 0) 6) (N.land (shift_in l2 v) 63) = pos.
Proof.
  intros Hpos. unfold pos_code. cbv zeta.
  pose proof (shiftr_lt pos 6 6 Hpos) as Hi.
  destruct (ptab _ Hi) as (Hpl & Hpc & Hpm).
  pose proof (fun t => tables_inverse (N.shiftr pos 6) t Hi) as TI. cbv zeta in TI.
  set (pl := nth (N.to_nat (N.shiftr pos 6)) lz_pLen 0) in *.
  set (pc := nth (N.to_nat (N.shiftr pos 6)) lz_pCode 0) in *. clearbody pl pc.
  set (t := N.shiftr pos (pl - 2) mod 2 ^ (8 - pl)).
  assert (Ht : t < 2 ^ (8 - pl)) by (apply N.mod_upper_bound, N.pow_nonzero; discriminate).
  destruct (TI t Ht) as (TC & TL).
  assert (V : forall k, N.testbit (pc + t) k =
                        if k <? 8 - pl then N.testbit pos (k + (pl - 2)) else N.testbit pc k).
  { intros k. rewrite (add_bits_disjoint pc t (8 - pl) Hpm Ht).
    destruct (N.ltb_spec k (8 - pl)) as [Hk|Hk]; [apply tb_window, Hk|reflexivity]. }
  pose proof (lt_pow2_bits pc 8 Hpc) as Zc. clear Hpm Hpc Ht TI Hpos.
  set (v := pc + t) in *. clearbody v. clear t.
  exists v, (bw (pl - 2) pos). split; [|split; [|split]].
  - apply (bits_lt_pow2 v 8). intros k Hk. rewrite V.
    destruct (N.ltb_spec k (8 - pl)); [lia|]. apply Zc, Hk.
  - change (bits_msb 8) with (bw 8). change (bits_msb 6 pos) with (bw 6 pos). rewrite firstn_bw by lia.
    replace (bw 8 v) with (bw (pl + (8 - pl)) v) by (f_equal; lia).
    replace (bw 6 pos) with (bw (8 - pl + (pl - 2)) pos) by (f_equal; lia).
    rewrite !bw_split, <- app_assoc. f_equal; [|f_equal]; apply bw_ext; intros k Hk; rewrite !N.shiftr_spec', V.
    + destruct (N.ltb_spec (k + (8 - pl)) (8 - pl)); [lia|reflexivity].
    + destruct (N.ltb_spec k (8 - pl)); [reflexivity|lia].
  - rewrite bw_length, TL. reflexivity.
  - rewrite TC. apply N.bits_inj. intros k. change 63 with (N.ones 6).
    rewrite N.lor_spec, tb_shiftl, N.land_ones. destruct (N.ltb_spec k 6) as [Hk|Hk].
    + rewrite N.mod_pow2_bits_low by exact Hk. unfold bw. rewrite shift_in_bits, N2Nat.id. cbn [orb].
      destruct (N.ltb_spec k (pl - 2)); [reflexivity|]. rewrite V.
      destruct (N.ltb_spec (k - (pl - 2)) (8 - pl)); [f_equal; lia|lia].
    + rewrite N.mod_pow2_bits_high, orb_false_r, N.shiftr_spec' by exact Hk. f_equal. lia.
Qed.

Theorem decode_position_code : forall b pos r, RdOK b -> pos < 4096 ->
  rbits b = pos_code pos ++ r ->
  exists b', decode_position b = (pos, b') /\ rbits b' = r /\ RdOK b' /\ berr b' = berr b.
Proof.
  intros b pos r OK Hp ER. destruct (pos_code_split pos Hp) as (v & l2 & Hv & EC & EL & EP).
  rewrite EC, <- app_assoc in ER.
  destruct (read_bits_spec 8 v b _ ltac:(lia) Hv OK ER) as (b1 & E1 & R1 & OK1 & Ee1).
  destruct (pos_bits_spec _ v b1 r OK1 R1) as (b2 & E2 & R2 & OK2 & Ee2).
  unfold decode_position. rewrite E1, <- EL, E2, EP. exists b2.
  rewrite Ee2, Ee1. auto.
Qed.

Print Assumptions read_bit_spec.
Print Assumptions dec_walk_refines.
Print Assumptions decode_char_code.
Print Assumptions decode_position_code.
