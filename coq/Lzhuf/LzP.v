(* Lzhuf/LzP.v — the LZHUF model's tables are the canonical ones; Write chunking; what Close
   puts out (compress_eq: CRC, size field, the bytes of the bit output) and the header theorem
   that follows (compress_header). *)
From Coq Require Import Lia ZifyN ZifyNat ZifyBool.
From Verif Require Import Base.Bytes Base.BytesP Base.Arr Lzhuf.Huff Lzhuf.Enc Lzhuf.Crc Lzhuf.CrcP Lzhuf.Dec
  Lzhuf.Canon gen.Tables.
Open Scope N_scope.

Theorem constants_canonical :
  lz_N = Canon.cN /\ lz_F = Canon.cF /\ lz_Threshold = Canon.cTHRESHOLD /\ lz_NIL = Canon.cNIL
  /\ lz_NumChar = 256 - lz_Threshold + lz_F /\ lz_T = lz_NumChar * 2 - 1 /\ lz_R = lz_T - 1
  /\ lz_T = Canon.cT /\ lz_MaxFreq = Canon.cMAX_FREQ.
Proof. repeat split; reflexivity. Qed.

Theorem encode_tables_canonical :
  lz_pCode = map fst Canon.p_table /\ lz_pLen = map snd Canon.p_table.
Proof. split; vm_compute; reflexivity. Qed.

Definition p_decode_entry (b : N) : bool :=
  let '(idx, len) := Canon.d_lookup b in
  (nth (N.to_nat b) lz_dCode 0 =? idx) && (nth (N.to_nat b) lz_dLen 0 =? len).
Lemma decode_tables_all : forall b, In b (range 256) -> p_decode_entry b = true.
Proof. apply forallb_forall. vm_compute. reflexivity. Qed.

Theorem decode_tables_canonical b :
  b < 256 -> Canon.d_lookup b = (nth (N.to_nat b) lz_dCode 0, nth (N.to_nat b) lz_dLen 0).
Proof.
  intros H. pose proof (decode_tables_all b (in_range 256 b H)) as C. unfold p_decode_entry in C.
  destruct (Canon.d_lookup b) as [idx len]. apply andb_true_iff in C. destruct C as [C1 C2].
  apply N.eqb_eq in C1. apply N.eqb_eq in C2. rewrite C1, C2. reflexivity.
Qed.

(* dCode/dLen invert pCode/pLen: for each of the 64 prefixes and every completion of the byte *)
Definition p_inverse (i : N) : bool :=
  let code := nth (N.to_nat i) lz_pCode 0 in
  let len := nth (N.to_nat i) lz_pLen 0 in
  forallb (fun low => let b := code + low in
                      (nth (N.to_nat b) lz_dCode 0 =? i) && (nth (N.to_nat b) lz_dLen 0 =? len))
          (range (N.to_nat (2 ^ (8 - len)))).
Lemma tables_inverse_all : forall i, In i (range 64) -> p_inverse i = true.
Proof. apply forallb_forall. vm_compute. reflexivity. Qed.

Theorem tables_inverse i low :
  i < 64 -> low < 2 ^ (8 - nth (N.to_nat i) lz_pLen 0) ->
  let b := nth (N.to_nat i) lz_pCode 0 + low in
  nth (N.to_nat b) lz_dCode 0 = i /\ nth (N.to_nat b) lz_dLen 0 = nth (N.to_nat i) lz_pLen 0.
Proof.
  intros Hi Hl b. pose proof (tables_inverse_all i (in_range 64 i Hi)) as C. unfold p_inverse in C.
  rewrite forallb_forall in C. specialize (C low).
  assert (Hin : In low (range (N.to_nat (2 ^ (8 - nth (N.to_nat i) lz_pLen 0))))) by (apply in_range; lia).
  specialize (C Hin). cbv zeta in C. apply andb_true_iff in C. destruct C as [C1 C2].
  apply N.eqb_eq in C1. apply N.eqb_eq in C2. split; assumption.
Qed.

(* every pCode entry is a byte whose pLen (3..8) top bits carry the code *)
Definition ptab_ok (i : N) : bool :=
  let pl := nth (N.to_nat i) lz_pLen 0 in
  let pc := nth (N.to_nat i) lz_pCode 0 in
  (3 <=? pl) && (pl <=? 8) && (pc <? 256) && (pc mod 2 ^ (8 - pl) =? 0).

Lemma ptab_all : forallb ptab_ok (range 64) = true.
Proof. vm_compute. reflexivity. Qed.

Lemma ptab i : i < 64 ->
  3 <= nth (N.to_nat i) lz_pLen 0 <= 8 /\ nth (N.to_nat i) lz_pCode 0 < 2 ^ 8 /\
  nth (N.to_nat i) lz_pCode 0 mod 2 ^ (8 - nth (N.to_nat i) lz_pLen 0) = 0.
Proof.
  intros H. pose proof (proj1 (forallb_forall _ _) ptab_all i (in_range 64 i H)) as P.
  unfold ptab_ok in P. cbv zeta in P. rewrite !andb_true_iff in P.
  destruct P as [[[P1 P2] P3] P4].
  apply N.leb_le in P1, P2. apply N.ltb_lt in P3. apply N.eqb_eq in P4.
  change (2 ^ 8) with 256. auto.
Qed.

Theorem write_chunks w chunks : fold_left write chunks w = write w (concat chunks).
Proof.
  revert w. induction chunks as [|c cs IH]; intros w; [reflexivity|].
  cbn [fold_left concat]. rewrite IH. unfold write. rewrite fold_left_app. reflexivity.
Qed.

Theorem compress_chunking crc chunks :
  close_writer crc (fold_left write chunks writer_init) = compress crc (concat chunks).
Proof. unfold compress. rewrite write_chunks. reflexivity. Qed.

Definition obytes (o : bitout) : Prop := Forall (fun b => b < 256) (obuf o).

Lemma mod256_lt x : x mod 256 < 256.
Proof. apply N.mod_upper_bound. discriminate. Qed.

Lemma put_code_obytes o l c : obytes o -> obytes (put_code o l c).
Proof.
  intros H. unfold put_code, obytes in *.
  destruct ((putlen o + l) mod 256 <? 8); [exact H|].
  destruct (8 <=? (putlen o + l) mod 256 - 8); cbn [obuf]; repeat constructor; try apply mod256_lt; exact H.
Qed.

Lemma put_groups_obytes fuel o i j : obytes o -> obytes (put_groups fuel o i j).
Proof.
  revert o i j. induction fuel as [|f IH]; intros o i j H; [exact H|].
  cbn [put_groups]. destruct (16 <? j); [apply IH|]; apply put_code_obytes; exact H.
Qed.

Lemma encode_char_obytes h o c : obytes o -> obytes (snd (encode_char h o c)).
Proof.
  intros H. unfold encode_char. destruct (enc_walk natT h (aget (prnt h) (c + lz_T)) 0 0) as [i j].
  cbn [snd]. apply put_groups_obytes. exact H.
Qed.

Lemma encode_position_obytes o c : obytes o -> obytes (encode_position o c).
Proof. intros H. unfold encode_position. apply put_code_obytes, put_code_obytes. exact H. Qed.

(* what encode, advance and drain leave as it is on the way to Close (compress_eq) *)
Definition keeps (w w' : writer) : Prop :=
  fileSize w' = fileSize w /\ (obytes (wo w) -> obytes (wo w')).

Lemma encode_keeps w : keeps w (encode w).
Proof.
  unfold encode. destruct (wlen w =? 0); [split; auto|].
  destruct (_ <=? lz_Threshold); destruct (encode_char (wh w) (wo w) _) as [h' o'] eqn:E;
    apply (f_equal snd) in E; cbn [snd] in E; subst o'; (split; [reflexivity|]);
    cbn [wo]; intros H; [|apply encode_position_obytes]; apply encode_char_obytes, H.
Qed.

Lemma advance_keeps w c : keeps w (advance w c).
Proof.
  unfold advance. destruct c as [b|]; cbv zeta beta iota;
    (destruct (_ =? 0)%Z; cbn [fileSize wo]; [exact (encode_keeps _)|split; auto]).
Qed.

Lemma write_byte_keeps w b :
  fileSize (write_byte w b) = wrap_i32 (fileSize w + 1) /\
  (obytes (wo w) -> obytes (wo (write_byte w b))).
Proof.
  unfold write_byte. destruct (preFilled w); cbn [fileSize wo]; [|auto].
  destruct (advance_keeps w (Some b)) as [-> H]. auto.
Qed.

(* Write counts its bytes in the size counter (an int32) *)
Lemma write_keeps p : forall w z, fileSize w = wrap_i32 z ->
  fileSize (write w p) = wrap_i32 (z + Z.of_nat (length p)) /\
  (obytes (wo w) -> obytes (wo (write w p))).
Proof.
  induction p as [|b p IH]; intros w z H.
  - cbn. rewrite H, Z.add_0_r. auto.
  - destruct (write_byte_keeps w b) as [E1 H1].
    destruct (IH (write_byte w b) (z + 1)%Z) as [E2 H2].
    { rewrite E1, H. unfold wrap_i32. lia. }
    unfold write in *. cbn [fold_left length]. rewrite E2. split; [f_equal; lia|auto].
Qed.

Lemma drain_keeps fuel : forall w, keeps w (drain fuel w).
Proof.
  induction fuel as [|f IH]; intros w; [split; auto|].
  cbn [drain]. destruct (wlen w =? 0); [split; auto|].
  destruct (IH (advance w None)) as [E1 H1]. destruct (advance_keeps w None) as [E2 H2].
  split; [congruence|auto].
Qed.

Lemma encode_end_obytes o : obytes o -> obytes (encode_end o).
Proof.
  intros H. unfold encode_end. destruct (putlen o =? 0); [exact H|].
  unfold obytes. cbn [obuf]. constructor; [apply mod256_lt|exact H].
Qed.

Lemma u32_wrap z : u32_of_i32 (wrap_i32 z) = Z.to_N (z mod 4294967296).
Proof. unfold u32_of_i32, wrap_i32. f_equal. lia. Qed.

(* the compressed body: everything after the 4-byte size field of the header-less stream *)
Definition body_of (x : bytes) : bytes := skipn 4 (compress false x).
Definition size_field (x : bytes) : bytes := le32 (N.of_nat (length x) mod 4294967296).

Lemma le32_length n : length (le32 n) = 4%nat. Proof. reflexivity. Qed.

(* Close, spelled out: the size field, then the bytes of the bit output, all of them bytes *)
Lemma compress_eq crc x :
  let o := encode_end (wo (encode (drain (S natF) (write writer_init x)))) in
  compress crc x =
    (if crc then le16 (crc_impl (size_field x ++ rev (obuf o))) else []) ++ size_field x ++ rev (obuf o)
  /\ obytes o.
Proof.
  intros o. unfold compress, close_writer. fold o. rewrite rev'_rev.
  destruct (write_keeps x writer_init 0 eq_refl) as [Es Hw].
  rewrite (proj1 (encode_keeps _)), (proj1 (drain_keeps _ _)), Es, u32_wrap.
  rewrite Z.add_0_l, <- (N2Z.inj_pos 4294967296), <- nat_N_Z, <- N2Z.inj_mod, N2Z.id.
  split; [reflexivity|].
  apply encode_end_obytes, encode_keeps, drain_keeps, Hw. constructor.
Qed.

Theorem compress_header x :
  compress false x = size_field x ++ body_of x /\
  compress true x = le16 (xmodem (size_field x ++ body_of x)) ++ size_field x ++ body_of x /\
  Forall (fun b => b < 256) (body_of x).
Proof.
  unfold body_of. destruct (compress_eq false x) as [E0 Hob]. destruct (compress_eq true x) as [E1 _].
  cbv zeta in *. set (o := encode_end _) in *. rewrite E0, E1. cbn [app].
  assert (Hskip : skipn 4 (size_field x ++ rev (obuf o)) = rev (obuf o)).
  { change 4%nat with (length (size_field x)). rewrite skipn_app, skipn_all, Nat.sub_diag. reflexivity. }
  rewrite Hskip. apply Forall_rev in Hob.
  split; [reflexivity|]. split; [|exact Hob].
  rewrite crc_impl_xmodem; [reflexivity|].
  apply Forall_app. split; [apply le32_bytes|exact Hob].
Qed.
