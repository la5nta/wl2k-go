(* Lzhuf/DecTermP.v — termination of reading an LZHUF stream to its end (model: Lzhuf/Dec.v): for
   ANY byte stream in ANY chunking (empty chunks included: pull gives up after 100 empty chunks
   in a row and the bit reader then reports ErrUnexpectedEOF) and any positive buffer size, the
   io.Copy loop ends with REof or RErr within a number of Read calls linear in the input length
   (read_all_terminates), by a potential: Phi d = 60 * mu (rbits d) + length (rpend d) drops by
   the number of bytes returned at every Read that returns RNil, and that number is at least 1.
   The per-call fuel n + 64 of read_loop inside read plays no role in the argument beyond being at
   least the room (DecP.read_loop_loop).  read_seq_fuel is the same for any sequence of positive
   buffer sizes. *)
From Coq Require Import Lia ZifyN ZifyNat ZifyBool.
From Verif Require Import Base.Bytes Base.Arr Lzhuf.Huff Lzhuf.HuffInv Lzhuf.HuffInvP Lzhuf.HuffWalkP
  Lzhuf.HuffP Lzhuf.Enc Lzhuf.Crc Lzhuf.Dec Lzhuf.DecP Lzhuf.Tokens Lzhuf.TokensP Lzhuf.ReadSeq Lzhuf.TokDecP gen.Tables.
Open Scope N_scope.

(* mu b = 8 * (bytes not yet loaded) + bbits + [berr = ErrNone].  Every iteration of read_loop
   starts with berr = ErrNone, its first read_bits strictly decreases mu, no other read_bits
   increases it, and an iteration delivers at most F = 60 bytes because the symbol is
   < NumChar: rpos + 60 * mu never increases (loop_pot). *)
Definition err_ind (e : rerr) : nat := match e with ErrNone => 1 | _ => 0 end.

Definition mu (b : bitrd) : nat :=
  (8 * length (bbuf b ++ concat (src b)) + N.to_nat (bbits b) + err_ind (berr b))%nat.

Lemma read_bits_mu b bits :
  (mu (snd (read_bits b bits)) <= mu b)%nat /\
  (1 <= bits -> berr b = ErrNone -> (mu (snd (read_bits b bits)) < mu b)%nat).
Proof.
  unfold read_bits. destruct (N.ltb_spec (bbits b) bits) as [Hlt|Hge].
  - pose proof (read_byte_spec b) as R. destruct (read_byte b) as [[x|] b1].
    + destruct R as [p [R1 [R2 [_ [_ [R3 R4]]]]]].
      assert (E : length (bbuf b ++ concat (src b)) = S (length (bbuf b1 ++ concat (src b1)))).
      { rewrite <- R2, app_assoc, R1. reflexivity. }
      cbn [snd]. unfold mu. cbn [src bbuf bbits berr]. rewrite E, R3, R4. split; intros; lia.
    + subst b1. cbn [snd]. unfold mu. cbn [src bbuf bbits berr err_ind]. split; [lia|].
      intros _ E. rewrite E. cbn [err_ind]. lia.
  - cbn [snd]. unfold mu. cbn [src bbuf bbits berr]. split; intros; lia.
Qed.

Lemma steps_mu b b' : steps b b' -> (mu b' <= mu b)%nat.
Proof.
  intros H. induction H as [|b k b' H IH]; [lia|]. pose proof (proj1 (read_bits_mu b k)). lia.
Qed.

(* decodeChar reads at least one bit, because son[R] is an internal node *)
Lemma decode_char_mu h b : Shape h -> berr b = ErrNone -> (mu (snd (decode_char h b)) < mu b)%nat.
Proof.
  intros SH E. rewrite decode_char_eq. cbv zeta. cbn [snd]. rewrite dec_walk_S.
  pose proof (sh_rootint h SH) as Hr.
  destruct (N.ltb_spec (aget (son h) lz_R) lz_T) as [_|]; [|lia].
  pose proof (steps_mu _ _ (dec_walk_steps h natT (aget (son h) (aget (son h) lz_R + fst (read_bits b 1)))
                (snd (read_bits b 1)))) as H1.
  pose proof (proj2 (read_bits_mu b 1) ltac:(lia) E). lia.
Qed.

Lemma firstn_nil_inv {A} n (l : list A) : firstn (S n) l = [] -> l = [].
Proof. destruct l; [reflexivity|discriminate]. Qed.

(* an iteration decodes a token: at least one bit is read, at most F = 60 bytes come out *)
Lemma dec_tok_mu h b : Shape h -> berr b = ErrNone -> (mu (snd (dec_tok h b)) < mu b)%nat.
Proof.
  intros SH E. pose proof (decode_char_mu h b SH E) as M. unfold dec_tok.
  destruct (decode_char h b) as [[c h'] b1]. cbn [snd] in M. destruct (c <? 256); [exact M|].
  pose proof (steps_mu _ _ (decode_position_steps b1)) as M2. destruct (decode_position b1). cbn [snd] in *. lia.
Qed.

Lemma tok_step_length w t : tok_sym t < lz_NumChar -> (length (snd (tok_step w t)) <= 60)%nat.
Proof.
  destruct w as [text r]. destruct t as [c|p len]; intros H; [cbn; lia|].
  rewrite tok_step_match. destruct (crun _ _ _ _) as [[t' r'] l] eqn:E. apply crun_length in E.
  unfold tok_sym, lz_NumChar, lz_Threshold in H. cbn [snd]. lia.
Qed.

Lemma loop_pot d room out toks d' out' : loop d room out toks d' out' -> Inv (rh d) ->
  Inv (rh d') /\
  (rpos d' + 60 * Z.of_nat (mu (rbits d')) <= rpos d + 60 * Z.of_nat (mu (rbits d)))%Z.
Proof.
  assert (Tok : forall e t b', Live e -> dec_tok (rh e) (rbits e) = (t, b') -> Inv (rh e) ->
    Inv (update (rh e) (tok_sym t)) /\ (mu b' < mu (rbits e))%nat /\
    (length (snd (tok_step (rtext e, rr e) t)) <= 60)%nat).
  { intros e t b' [HB _] ET HI. pose proof (inv_shape _ HI) as SH.
    pose proof (dec_tok_sym (rh e) (rbits e) SH) as Hs. pose proof (dec_tok_mu _ _ SH HB) as Hm.
    rewrite ET in Hs, Hm. auto using update_inv, tok_step_length. }
  induction 1 as [d room out _|d room out t b' w' l toks d' out' HL ET ES _ _ _ IH|d room out t b' w0 l0 HL ET Hsz Hl0];
    intros HI.
  - split; [exact HI|lia].
  - destruct (Tok d t b' HL ET HI) as (HI1 & Hm & Hl). rewrite ES in Hl.
    destruct (IH HI1) as [I1 P]. cbn [after rpos rbits snd] in *. split; [exact I1|lia].
  - destruct (Tok d t b' HL ET HI) as (HI1 & Hm & Hl). cbn [after rh rpos rbits]. split; [exact HI1|lia].
Qed.

Theorem read_productive d n out d' :
  read d n = (out, RNil, d') -> (0 < n)%nat -> (rpos d <= hsize d)%Z -> (1 <= length out)%nat.
Proof.
  intros H Hn Hle. destruct (read_RNil _ _ _ _ H) as (Ed & Eb & Hne & toks & d3 & o3 & L & -> & _).
  rewrite rev_length. destruct n as [|n']; [lia|].
  pose proof (loop_run _ _ _ _ _ _ L) as (_ & _ & _ & X & HD & Hp & _). apply Deliv_length in HD.
  destruct (firstn (S n') (rpend d)) as [|g got] eqn:Eg; [|rewrite rev_length in HD; cbn [length] in *; lia].
  apply firstn_nil_inv in Eg. cbn [length] in L. rewrite Nat.sub_0_r in L.
  (* nothing was pending: the loop is entered, and its first iteration delivers *)
  inversion L as [? ? ? [C|C]|? ? ? t b' w' l ? ? ? _ _ _ Hl _ L2|? ? ? t b' w0 l0 [_ Hlt] _ Hsz _]; subst.
  - discriminate.
  - exfalso. apply C. split; [exact Eb|]. cbn [rpos hsize set_pend].
    destruct (Z.eq_dec (rpos d) (hsize d)) as [E|E]; [exfalso; apply Hne; auto|lia].
  - apply loop_run in L2. destruct L2 as (_ & _ & _ & X2 & HD2 & _). apply Deliv_length in HD2.
    rewrite app_length, rev_length, firstn_length in HD2. lia.
  - rewrite app_length, rev_length, firstn_length. cbn [rpos hsize set_pend] in *. lia.
Qed.

(* with HuffWalkP.decode_char_symbol: every decoded symbol is in range, so update's index
   prnt[c+T] and the copy indices are in range *)
Theorem read_keeps_inv : forall d n out st d',
  Inv (rh d) -> read d n = (out, st, d') -> Inv (rh d').
Proof.
  intros d n out st d' HI H.
  destruct st as [| |e].
  - apply read_RNil in H. destruct H as (_ & _ & _ & toks & d3 & o3 & L & _ & ->).
    apply loop_pot in L; [|exact HI]. apply L.
  - apply read_REof in H. destruct H as (_ & _ & _ & _ & _ & ->). exact HI.
  - apply read_RErr in H. destruct H as (_ & _ & _ & _ & -> & _). exact HI.
Qed.

Definition Phi (d : reader) : nat := (60 * mu (rbits d) + length (rpend d))%nat.

Lemma read_step d n out d' :
  read d n = (out, RNil, d') -> Inv (rh d) -> (rpos d <= hsize d)%Z ->
  Inv (rh d') /\ (rpos d' <= hsize d')%Z /\ (Phi d' + length out <= Phi d)%nat.
Proof.
  intros H HI Hle.
  destruct (read_count _ _ _ _ _ H Hle) as (R1 & R2 & R3 & R4).
  destruct (read_RNil _ _ _ _ H) as (_ & _ & _ & toks & d3 & o3 & EL & _ & ->).
  apply loop_pot in EL; [|exact HI]. destruct EL as [HI' P].
  cbn [rh rpos rbits rpend set_pend hsize] in *.
  split; [exact HI'|]. split; [exact R2|]. unfold delivered, set_pend in R3. unfold Phi, set_pend.
  cbn [rbits rpend rpos] in *. rewrite rev_length in *. lia.
Qed.

(* any sequence of positive buffer sizes longer than the potential ends *)
Lemma read_seq_fuel : forall sizes d acc,
  Forall (fun n => (0 < n)%nat) sizes -> Inv (rh d) -> (rpos d <= hsize d)%Z -> (Phi d < length sizes)%nat ->
  match read_seq d sizes acc with (_, st, _) => st <> RNil end.
Proof.
  induction sizes as [|n rest IH]; intros d acc Hs HI Hle Hf; [cbn [length] in Hf; lia|].
  cbn [read_seq]. destruct (read d n) as [[got st] d1] eqn:ER.
  destruct st; try discriminate.
  destruct (read_step _ _ _ _ ER HI Hle) as (HI1 & Hle1 & HP).
  pose proof (read_productive _ _ _ _ ER (Forall_inv Hs) Hle) as Hg.
  apply IH; [exact (Forall_inv_tail Hs)|exact HI1|exact Hle1|cbn [length] in Hf; lia].
Qed.

Lemma read_all_fuel : forall fuel d bs acc,
  (0 < bs)%nat -> Inv (rh d) -> (rpos d <= hsize d)%Z -> (Phi d < fuel)%nat ->
  match read_all_loop fuel d bs acc with (_, st, _) => st <> RNil end.
Proof.
  intros fuel d bs acc Hbs HI Hle Hf. rewrite read_all_loop_seq. apply read_seq_fuel; try assumption.
  - apply Forall_forall. intros n Hn. apply repeat_spec in Hn. subst n. exact Hbs.
  - rewrite repeat_length. exact Hf.
Qed.

(* the first premise is not used *)
Lemma new_reader_init (U : forall h c, Inv h -> c < lz_NumChar -> Inv (update h c)) crc s d :
  new_reader crc s = Some d ->
  rh d = huff_init /\
  (mu (rbits d) + 8 * (if crc then 6 else 4) = 8 * length (concat s) + 1)%nat.
Proof.
  unfold new_reader. intros H.
  destruct (if crc then take_src _ 2 s [] else Some ([], s)) as [[cb s1]|] eqn:E1; [|discriminate].
  destruct (take_src _ 4 s1 []) as [[sb s2]|] eqn:E2; [|discriminate].
  destruct (i32_of_u32 (le_to_N sb) <? 0)%Z; [discriminate|].
  (* projections instead of injection: injection would normalise the initial tree and text *)
  pose proof (f_equal (fun o => match o with Some r => rh r | None => huff_init end) H) as H1.
  pose proof (f_equal (fun o => match o with Some r => mu (rbits r) | None => 0%nat end) H) as H2.
  cbn [rh rbits] in H1, H2. rewrite <- H1, <- H2. clear H H1 H2.
  split; [reflexivity|].
  unfold mu. cbn [src bbuf bbits berr err_ind app].
  apply take_src_some in E2.
  destruct crc.
  - apply take_src_some in E1. lia.
  - injection E1 as _ <-. lia.
Qed.

(* the tight form: the header bytes are not decoded; every fuel above the bound ends *)
Theorem read_all_terminates_tight : forall (crc : bool) (s : list bytes) (d : reader) (bs : nat),
  new_reader crc s = Some d -> (0 < bs)%nat ->
  forall fuel,
    (60 * (8 * (length (concat s) - (if crc then 6 else 4)) + 1) + 1 <= fuel)%nat ->
    match read_all_loop fuel d bs [] with (_, st, _) => st <> RNil end.
Proof.
  intros crc s d bs Hn Hbs fuel Hf.
  destruct (new_reader_start crc s d Hn) as (P0 & Pe & Hs & _).
  destruct (new_reader_init update_inv crc s d Hn) as (Eh & Em).
  apply read_all_fuel; [exact Hbs|rewrite Eh; exact huff_init_inv|lia|].
  unfold Phi. rewrite Pe. cbn [length]. destruct crc; lia.
Qed.

Theorem read_all_terminates : forall (crc : bool) (s : list bytes) (d : reader) (bs : nat),
  new_reader crc s = Some d -> (0 < bs)%nat ->
  exists fuel, (fuel <= 60 * (8 * length (concat s) + 8) + 2)%nat /\
    match read_all_loop fuel d bs [] with (_, st, _) => st <> RNil end.
Proof.
  intros crc s d bs Hn Hbs.
  exists (60 * (8 * (length (concat s) - (if crc then 6 else 4)) + 1) + 1)%nat.
  split; [destruct crc; lia|].
  apply (read_all_terminates_tight crc s d bs Hn Hbs). lia.
Qed.

Print Assumptions read_keeps_inv.
Print Assumptions read_productive.
Print Assumptions read_all_terminates_tight.
Print Assumptions read_all_terminates.
