(* Lzhuf/WriterP.v — the encoder half of the LZHUF round trip at the token level: whatever the
   match search trees find (any P satisfying SearchSpec), the writer of Enc.v emits the bits
   of a sequence of valid tokens that EXPANDS (Tokens.expand, the arithmetic of the reader) to
   the input (write_tokens).  ss_insert's premise `aget (textBuf t) r < 256` is discharged from
   the Forall hypothesis on the input, and from the initial space 32 for the nodes inserted
   during pre-fill.  Ring, Regd and Emitted are stated over a text array and shared with the
   reference encoder (CanonEncP.v); WriterInv is the invariant of the library's writer. *)
From Coq Require Import Lia ZifyN ZifyNat ZifyBool.
From Verif Require Import Base.Bytes Base.Arr Lzhuf.Huff Lzhuf.HuffInv Lzhuf.HuffInvP Lzhuf.HuffWalkP
  Lzhuf.HuffP Lzhuf.HuffDepthP Lzhuf.Enc Lzhuf.Crc Lzhuf.Dec Lzhuf.Bits Lzhuf.BitsWP Lzhuf.Tokens
  Lzhuf.TokensP Lzhuf.Search gen.Tables.
Import ListNotations.
Open Scope N_scope.

(* lia does not unfold the constants; it knows mod by a numeral *)
Ltac numerals :=
  change lz_N with 2048 in *; change lz_F with 60 in *; change lz_Threshold with 2 in *;
  change lz_NIL with 2048 in *; change lz_NumChar with 314 in *.

Definition wstep (w : window) (b : N) : window := (aset (fst w) (snd w) b, (snd w + 1) mod lz_N).
Definition wrun (w : window) (l : bytes) : window := fold_left wstep l w.
Definition ringw (l : bytes) : window := wrun win_init l.
Definition lenN (l : bytes) : N := N.of_nat (length l).

Lemma wrun_nil w : wrun w [] = w.
Proof. reflexivity. Qed.

Lemma wrun_cons w b l : wrun w (b :: l) = wrun (wstep w b) l.
Proof. reflexivity. Qed.

Lemma wrun_app w a b : wrun w (a ++ b) = wrun (wrun w a) b.
Proof. apply fold_left_app. Qed.

Lemma wstep_snd_lt w b : snd (wstep w b) < lz_N.
Proof. unfold wstep. cbn [snd]. apply N.mod_upper_bound. discriminate. Qed.

Lemma wrun_snd : forall l w, snd w < lz_N ->
  snd (wrun w l) = (snd w + lenN l) mod lz_N.
Proof.
  induction l as [|a l IH]; intros w Hw.
  - rewrite wrun_nil. unfold lenN. cbn [length]. numerals. lia.
  - rewrite wrun_cons, IH by apply wstep_snd_lt. unfold wstep, lenN. cbn [snd length]. numerals. lia.
Qed.

Lemma wrun_snd_lt l w : snd w < lz_N -> snd (wrun w l) < lz_N.
Proof. intros H. rewrite wrun_snd by exact H. apply N.mod_upper_bound. discriminate. Qed.

Lemma wrun_other : forall l w q, snd w < lz_N ->
  (forall i, (i < length l)%nat -> (snd w + N.of_nat i) mod lz_N <> q) ->
  aget (fst (wrun w l)) q = aget (fst w) q.
Proof.
  induction l as [|a l IH]; intros w q Hw H; [reflexivity|].
  rewrite wrun_cons, IH.
  - unfold wstep. cbn [fst]. apply aget_aset_other.
    specialize (H O). cbn [length] in H. numerals. lia.
  - apply wstep_snd_lt.
  - intros i Hi. specialize (H (S i)). cbn [length] in H. unfold wstep. cbn [snd]. numerals. lia.
Qed.

Lemma wrun_at : forall l w k, snd w < lz_N -> (k < length l)%nat -> lenN l <= lz_N ->
  aget (fst (wrun w l)) ((snd w + N.of_nat k) mod lz_N) = nth k l 0.
Proof.
  induction l as [|a l IH]; intros w k Hw Hk Hl; [cbn [length] in Hk; lia|].
  rewrite wrun_cons. unfold lenN in Hl. cbn [length] in Hk, Hl. destruct k as [|k].
  - rewrite wrun_other.
    + unfold wstep. cbn [fst nth]. replace ((snd w + N.of_nat 0) mod lz_N) with (snd w) by (numerals; lia).
      apply aget_aset_same.
    + apply wstep_snd_lt.
    + intros i Hi. unfold wstep. cbn [snd]. numerals. lia.
  - cbn [nth]. replace ((snd w + N.of_nat (S k)) mod lz_N) with ((snd (wstep w a) + N.of_nat k) mod lz_N)
      by (unfold wstep; cbn [snd]; numerals; lia).
    apply IH; [apply wstep_snd_lt|lia|unfold lenN; lia].
Qed.

Lemma wstep_pair t r c : wstep (t, r) c = (aset t r c, (r + 1) mod lz_N).
Proof. reflexivity. Qed.

Lemma crun_wrun : forall k t r i t' r' l, crun k t r i = (t', r', l) -> wrun (t, r) l = (t', r').
Proof.
  induction k as [|k IH]; intros t r i t' r' l H; cbn [crun] in H.
  - injection H as <- <- <-. reflexivity.
  - destruct (crun k _ _ _) as [[t1 r1] l1] eqn:E. injection H as <- <- <-.
    rewrite wrun_cons, wstep_pair. exact (IH _ _ _ _ _ _ E).
Qed.

Lemma tok_step_wrun W t : fst (tok_step W t) = wrun W (snd (tok_step W t)).
Proof.
  destruct W as [tx r]. destruct t as [b|pos len]; [reflexivity|].
  rewrite tok_step_match. destruct (crun _ _ _ _) as [[t' r'] l] eqn:E.
  symmetry. exact (crun_wrun _ _ _ _ _ _ _ E).
Qed.

Lemma win_after_wrun : forall a W, win_after W a = wrun W (expand W a).
Proof.
  induction a as [|t a IH]; intros W; [reflexivity|].
  cbn [win_after fold_left expand]. pose proof (tok_step_wrun W t) as E.
  destruct (tok_step W t) as [w' out]. cbn [fst snd] in E.
  rewrite wrun_app, <- E. apply IH.
Qed.

(* the copy of a match yields the bytes l if it reads them, each after the ones before are written *)
Lemma crun_valid : forall l t r i,
  (forall k, (k < length l)%nat ->
     aget (fst (wrun (t, r) (firstn k l))) ((i + N.of_nat k) mod lz_N) = nth k l 0) ->
  crun (length l) t r i = (fst (wrun (t, r) l), snd (wrun (t, r) l), l).
Proof.
  induction l as [|c l IH]; intros t r i H; [reflexivity|].
  cbn [length crun].
  assert (E : aget t (i mod lz_N) = c).
  { specialize (H O). cbn [length firstn nth] in H. rewrite wrun_nil in H. cbn [fst] in H.
    replace (i + N.of_nat 0) with i in H by lia. apply H. lia. }
  rewrite E, IH.
  - rewrite wrun_cons, wstep_pair. reflexivity.
  - intros k Hk. specialize (H (S k)). cbn [length firstn nth] in H.
    rewrite wrun_cons, wstep_pair in H.
    replace (i + 1 + N.of_nat k) with (i + N.of_nat (S k)) by lia. apply H. lia.
Qed.

Lemma tok_step_lit W b : tok_step W (TLit b) = (wrun W [b], [b]).
Proof. destruct W as [t r]. reflexivity. Qed.

Lemma tok_step_copy W pos len l :
  length l = N.to_nat len ->
  (forall k, (k < length l)%nat ->
     aget (fst (wrun W (firstn k l)))
          ((maskN (Z.of_N (snd W) - Z.of_N pos - 1) + N.of_nat k) mod lz_N) = nth k l 0) ->
  tok_step W (TMatch pos len) = (wrun W l, l).
Proof.
  destruct W as [t r]. cbn [snd]. intros Hl H.
  rewrite tok_step_match, <- Hl, crun_valid by exact H. rewrite <- surjective_pairing. reflexivity.
Qed.

Lemma win_init_32 q : q < lz_N - lz_F -> aget (fst win_init) q = 32.
Proof.
  intros H. unfold win_init. cbn [fst]. rewrite aget_afill, N2Nat.id.
  destruct (N.leb_spec 0 q), (N.ltb_spec q (0 + (lz_N - lz_F))); cbn [andb]; try reflexivity; lia.
Qed.

Lemma win_init_snd : snd win_init = lz_N - lz_F.
Proof. reflexivity. Qed.

Lemma nth_firstn_lt {A} : forall (l : list A) n k d, (k < n)%nat -> nth k (firstn n l) d = nth k l d.
Proof.
  induction l as [|a l IH]; intros n k d H.
  - rewrite firstn_nil. reflexivity.
  - destruct n as [|n]; [lia|]. destruct k as [|k]; [reflexivity|]. cbn [firstn nth]. apply IH. lia.
Qed.

(* W: the reader's window when it is about to decode the position; lk: the bytes to come
   (the writer's lookahead); tb: the writer's text, which holds the window after ALL of lk;
   p: the node found.  Then copying byte by byte from p reproduces lk. *)
Lemma match_valid W lk tb p ml :
  snd W < lz_N -> lenN lk <= lz_F + 1 -> (ml <= length lk)%nat -> p < lz_N ->
  (forall q, q < lz_N -> aget tb q = aget (fst (wrun W lk)) q) ->
  (forall k, (1 <= k < ml)%nat -> lz_N <= p + N.of_nat k ->
     aget tb (p + N.of_nat k) = aget tb (p + N.of_nat k - lz_N)) ->
  (forall k, (k < ml)%nat -> aget tb (snd W + N.of_nat k) = nth k lk 0) ->
  aget (fst W) p = nth 0 lk 0 ->
  (forall k, (1 <= k < ml)%nat -> aget tb (snd W + N.of_nat k) = aget tb (p + N.of_nat k)) ->
  (forall i, i < lz_F -> (snd W + i) mod lz_N <> p) ->
  forall k, (k < ml)%nat ->
    aget (fst (wrun W (firstn k lk))) ((p + N.of_nat k) mod lz_N) = nth k lk 0.
Proof.
  intros HW Hlk Hml Hp Htext Hmir Hlook Hfirst Hcmp Hint k Hk.
  destruct k as [|k].
  - cbn [firstn]. rewrite wrun_nil. replace ((p + N.of_nat 0) mod lz_N) with p by (numerals; lia).
    exact Hfirst.
  - remember (S k) as k' eqn:Ek. unfold lenN in Hlk.
    rewrite <- Hlook by lia. rewrite Hcmp by lia.
    assert (E : aget tb (p + N.of_nat k') = aget tb ((p + N.of_nat k') mod lz_N)).
    { destruct (N.ltb_spec (p + N.of_nat k') lz_N) as [Hlt|Hge].
      - rewrite N.mod_small by exact Hlt. reflexivity.
      - rewrite Hmir by (try exact Hge; lia). f_equal. numerals. lia. }
    rewrite E, Htext by (apply N.mod_upper_bound; discriminate).
    replace (wrun W lk) with (wrun W (firstn k' lk ++ skipn k' lk)) by (rewrite firstn_skipn; reflexivity).
    rewrite wrun_app. symmetry. apply wrun_other.
    + apply wrun_snd_lt, HW.
    + intros i Hi. rewrite wrun_snd by exact HW. unfold lenN.
      rewrite skipn_length in Hi. rewrite firstn_length, Nat.min_l by lia.
      specialize (Hint (N.of_nat i)). rewrite N.add_mod_idemp_l by discriminate.
      clear - HW Hp Hint Hi Hlk Hk Hml Ek. numerals. lia.
Qed.

Lemma mod_N_lt m : m mod lz_N < lz_N.
Proof. apply N.mod_upper_bound. discriminate. Qed.

Lemma ringw_snd l : snd (ringw l) = (lz_N - lz_F + lenN l) mod lz_N.
Proof. unfold ringw. rewrite wrun_snd; reflexivity. Qed.

Lemma ringw_snd_lt l : snd (ringw l) < lz_N.
Proof. rewrite ringw_snd. apply mod_N_lt. Qed.

Lemma ringw_app a b : ringw (a ++ b) = wrun (ringw a) b.
Proof. apply wrun_app. Qed.

Lemma ringw_snoc l b :
  ringw (l ++ [b]) = (aset (fst (ringw l)) (snd (ringw l)) b, (snd (ringw l) + 1) mod lz_N).
Proof. rewrite ringw_app. reflexivity. Qed.

Lemma lenN_app a b : lenN (a ++ b) = lenN a + lenN b.
Proof. unfold lenN. rewrite app_length. lia. Qed.

Lemma lenN_cons a l : lenN (a :: l) = lenN l + 1.
Proof. unfold lenN. cbn [length]. lia. Qed.

Lemma lenN_nil : lenN [] = 0.
Proof. reflexivity. Qed.

(* Ring arithmetic (N = 2048, F = 60): after m bytes the write position is r = (N - F + m) mod N
   and the oldest position is s = m mod N; the registered positions are the p with
   (p + N - s) mod N < N - F. *)
Lemma ring_r_off m : ((lz_N - lz_F + m) mod lz_N + lz_N - m mod lz_N) mod lz_N = lz_N - lz_F.
Proof. numerals. lia. Qed.

Lemma ring_r_full m : (lz_N - lz_F + (m + lz_F)) mod lz_N = m mod lz_N.
Proof. numerals. lia. Qed.

Lemma ring_off_pred q s : q < lz_N -> s < lz_N -> q <> s ->
  (q + lz_N - (s + 1) mod lz_N) mod lz_N + 1 = (q + lz_N - s) mod lz_N.
Proof. numerals. lia. Qed.

Lemma A2 q s : q < 2048 -> s < 2048 -> q <> s -> (q + 2048 - s) mod 2048 < 1988 ->
  (q + 2048 - (s + 1) mod 2048) mod 2048 < 1988.
Proof. intros Hq Hs Hne H. pose proof (ring_off_pred q s Hq Hs Hne) as E. numerals. lia. Qed.

(* the F positions from r on are not registered *)
Lemma ring_ahead m p i : p < lz_N -> (p + lz_N - m mod lz_N) mod lz_N < lz_N - lz_F -> i < lz_F ->
  ((lz_N - lz_F + m) mod lz_N + i) mod lz_N <> p.
Proof. numerals. lia. Qed.

(* a registered position p: the mirror cells that a comparison from p reaches are written *)
Lemma ring_mirror_reach m p k wl : p < lz_N -> (p + lz_N - m mod lz_N) mod lz_N < lz_N - lz_F ->
  k < wl -> lz_N <= p + k -> p + k - lz_N + lz_F < m + wl.
Proof. numerals. lia. Qed.

(* the match position as the reader undoes it *)
Lemma mask_pos r p : r < lz_N -> p < lz_N -> p <> r ->
  (0 <= Z.of_N (maskN (Z.of_N r - Z.of_N p)) - 1 < Z.of_N lz_N)%Z /\
  maskN (Z.of_N r - Z.of_N (Z.to_N (Z.of_N (maskN (Z.of_N r - Z.of_N p)) - 1)) - 1) = p.
Proof. unfold maskN. numerals. lia. Qed.

(* tb: the text array; s, r: the ring positions; done: the bytes at the positions already
   advanced over; look: the lookahead (bytes consumed but not advanced over).  A mirror cell
   textBuf[N+q], q < F-1, equals textBuf[q] once it has been written: when q + F < number of
   bytes consumed. *)
Record Ring (tb : arr) (s r : N) (done look : bytes) : Prop := {
  rg_lenF : lenN look <= lz_F + 1;
  rg_r : r = (lz_N - lz_F + lenN done) mod lz_N;
  rg_s : s = lenN done mod lz_N;
  rg_text : forall q, q < lz_N -> aget tb q = aget (fst (ringw (done ++ look))) q;
  rg_mirror : forall q, q < lz_F - 1 -> q + lz_F < lenN done + lenN look ->
      aget tb (q + lz_N) = aget tb q;
  rg_bytes : Forall (fun b => b < 256) (done ++ look)
}.
Arguments rg_lenF {tb s r done look} _.
Arguments rg_r {tb s r done look} _.
Arguments rg_s {tb s r done look} _.
Arguments rg_text {tb s r done look} _ _ _.
Arguments rg_mirror {tb s r done look} _ _ _ _.
Arguments rg_bytes {tb s r done look} _.

Lemma ring_init : Ring (afill aempty 0 (N.to_nat (lz_N - lz_F)) 32) 0 (lz_N - lz_F) [] [].
Proof.
  constructor.
  - discriminate.
  - reflexivity.
  - reflexivity.
  - intros q _. unfold ringw, win_init. cbn [app wrun fold_left fst]. reflexivity.
  - intros q _ H. rewrite lenN_nil in H. lia.
  - constructor.
Qed.

Lemma ring_snd {tb s r done look} : Ring tb s r done look -> snd (ringw done) = r.
Proof. intros R. rewrite ringw_snd. symmetry. exact (rg_r R). Qed.

Lemma ring_r_lt {tb s r done look} : Ring tb s r done look -> r < lz_N.
Proof. intros R. rewrite (rg_r R). apply mod_N_lt. Qed.

Lemma ring_s_lt {tb s r done look} : Ring tb s r done look -> s < lz_N.
Proof. intros R. rewrite (rg_s R). apply mod_N_lt. Qed.

Lemma ring_rs {tb s r done look} : Ring tb s r done look -> (r + lz_N - s) mod lz_N = lz_N - lz_F.
Proof. intros R. rewrite (rg_r R), (rg_s R). apply ring_r_off. Qed.

(* the lookahead as the comparisons read it (extended indices) *)
Lemma ring_look_at {tb s r done look} k :
  Ring tb s r done look -> (k < length look)%nat -> N.of_nat k < lz_F ->
  aget tb (r + N.of_nat k) = nth k look 0.
Proof.
  intros R Hk HkF. pose proof (rg_lenF R) as HF. pose proof (ring_r_lt R) as Hr.
  pose proof (wrun_at look (ringw done) k (ringw_snd_lt done) Hk) as A.
  rewrite <- ringw_app, (ring_snd R) in A.
  rewrite <- A by (numerals; lia).
  destruct (N.ltb_spec (r + N.of_nat k) lz_N) as [Hlt|Hge].
  - rewrite N.mod_small by exact Hlt. apply (rg_text R), Hlt.
  - replace ((r + N.of_nat k) mod lz_N) with (r + N.of_nat k - lz_N) by (clear - Hr HkF Hge; numerals; lia).
    replace (r + N.of_nat k) with ((r + N.of_nat k - lz_N) + lz_N) at 1 by lia.
    rewrite (rg_mirror R).
    + apply (rg_text R). numerals. lia.
    + numerals. lia.
    + pose proof (rg_r R) as Er. unfold lenN in *. clear - Er Hk Hge. numerals. lia.
Qed.

Lemma ring_head {tb s r done c l} : Ring tb s r done (c :: l) -> aget tb r = c /\ c < 256.
Proof.
  intros R. split.
  - pose proof (ring_look_at O R) as H. cbn [length nth] in H.
    replace (r + N.of_nat 0) with r in H by lia. apply H; [lia|reflexivity].
  - pose proof (rg_bytes R) as H. apply Forall_app in H. destruct H as [_ H].
    inversion H. assumption.
Qed.

(* a registered position still holds what the reader's window holds there, as long as the
   lookahead is not longer than F *)
Lemma ring_old {tb s r done look} p :
  Ring tb s r done look -> lenN look <= lz_F -> p < lz_N -> (p + lz_N - s) mod lz_N < lz_N - lz_F ->
  aget tb p = aget (fst (ringw done)) p.
Proof.
  intros R HL Hp Hpi. rewrite (rg_text R) by exact Hp. rewrite ringw_app.
  apply wrun_other; [apply ringw_snd_lt|].
  intros i Hi. rewrite ringw_snd. rewrite (rg_s R) in Hpi.
  apply ring_ahead; [exact Hp|exact Hpi|]. unfold lenN in HL. lia.
Qed.

(* a byte is stored at the position that follows the lookahead, and in its mirror cell *)
Definition store_mirror (tb : arr) (w c : N) : arr :=
  let t1 := aset tb w c in if w <? lz_F - 1 then aset t1 (w + lz_N) c else t1.

Lemma store_mirror_low tb w c q : q < lz_N -> aget (store_mirror tb w c) q = aget (aset tb w c) q.
Proof.
  intros Hq. unfold store_mirror. cbv zeta.
  destruct (w <? lz_F - 1); [apply aget_aset_other; lia|reflexivity].
Qed.

Lemma store_mirror_high tb w c q : w < lz_N -> q <> w ->
  aget (store_mirror tb w c) (q + lz_N) = aget tb (q + lz_N).
Proof.
  intros Hw Hne. unfold store_mirror. cbv zeta.
  destruct (w <? lz_F - 1); rewrite ?aget_aset_other by lia; reflexivity.
Qed.

Lemma store_mirror_new tb w c : w < lz_F - 1 -> aget (store_mirror tb w c) (w + lz_N) = c.
Proof.
  intros H. unfold store_mirror. cbv zeta. destruct (N.ltb_spec w (lz_F - 1)); [|lia].
  apply aget_aset_same.
Qed.

Lemma store_mirror_far tb w c : lz_F - 1 <= w -> store_mirror tb w c = aset tb w c.
Proof. intros H. unfold store_mirror. cbv zeta. destruct (N.ltb_spec w (lz_F - 1)); [lia|reflexivity]. Qed.

Lemma ring_store tb s r done look w c :
  Ring tb s r done look -> lenN look <= lz_F -> c < 256 ->
  w = (lz_N - lz_F + (lenN done + lenN look)) mod lz_N ->
  Ring (store_mirror tb w c) s r done (look ++ [c]).
Proof.
  intros R HL Hc Hw.
  assert (Hwl : w < lz_N) by (rewrite Hw; apply mod_N_lt).
  assert (Hpos : snd (ringw (done ++ look)) = w).
  { rewrite ringw_snd, lenN_app. symmetry. exact Hw. }
  constructor.
  - rewrite lenN_app. change (lenN [c]) with 1. lia.
  - exact (rg_r R).
  - exact (rg_s R).
  - intros q Hq. rewrite store_mirror_low by exact Hq. rewrite app_assoc, ringw_snoc, Hpos. cbn [fst].
    destruct (N.eq_dec w q) as [E|E].
    + rewrite E, !aget_aset_same. reflexivity.
    + rewrite !aget_aset_other by exact E. apply (rg_text R), Hq.
  - intros q Hq H. rewrite lenN_app in H. change (lenN [c]) with 1 in H.
    destruct (N.eq_dec q w) as [E|E].
    + subst q. rewrite store_mirror_new by exact Hq. rewrite store_mirror_low by exact Hwl.
      rewrite aget_aset_same. reflexivity.
    + rewrite store_mirror_high by assumption. rewrite store_mirror_low by (numerals; lia).
      rewrite aget_aset_other by (intro E'; apply E; symmetry; exact E').
      apply (rg_mirror R); [exact Hq|].
      (* q + F = done + look would make q the position w *)
      rewrite Hw in E. clear - Hq H E. numerals. lia.
  - rewrite app_assoc. apply Forall_app. split; [exact (rg_bytes R)|].
    constructor; [exact Hc|constructor].
Qed.

Lemma ring_adv tb s r done c look :
  Ring tb s r done (c :: look) ->
  Ring tb ((s + 1) mod lz_N) ((r + 1) mod lz_N) (done ++ [c]) look.
Proof.
  intros R.
  assert (Happ : (done ++ [c]) ++ look = done ++ c :: look) by (rewrite <- app_assoc; reflexivity).
  assert (Hl1 : lenN (done ++ [c]) = lenN done + 1) by (rewrite lenN_app; reflexivity).
  constructor.
  - pose proof (rg_lenF R) as H. rewrite lenN_cons in H. lia.
  - rewrite Hl1, (rg_r R). clear. numerals. lia.
  - rewrite Hl1, (rg_s R). clear. numerals. lia.
  - rewrite Happ. exact (rg_text R).
  - intros q Hq H. apply (rg_mirror R); [exact Hq|]. rewrite lenN_cons. lia.
  - rewrite Happ. exact (rg_bytes R).
Qed.

(* a registered position p holding the first byte of the lookahead, whose string agrees with
   the lookahead on the bytes 1 .. ml-1 (what InsertNode reports): the match token is valid
   and expands to the first ml bytes of the lookahead *)
Lemma ring_match {tb s r done look} p mp ml :
  Ring tb s r done look -> p < lz_N -> (p + lz_N - s) mod lz_N < lz_N - lz_F ->
  mp = (Z.of_N (maskN (Z.of_N r - Z.of_N p)) - 1)%Z ->
  lz_Threshold < ml -> ml <= lz_F -> (N.to_nat ml <= length look)%nat ->
  aget (fst (ringw done)) p = nth 0 look 0 ->
  (forall k, 1 <= k -> k < ml -> aget tb (r + k) = aget tb (p + k)) ->
  tok_ok (TMatch (Z.to_N mp) ml) /\
  tok_step (ringw done) (TMatch (Z.to_N mp) ml) =
    (wrun (ringw done) (firstn (N.to_nat ml) look), firstn (N.to_nat ml) look).
Proof.
  intros R Hp Hpi Hmp Hgt HmlF Hmln Hfirst Hcmp.
  pose proof (ring_r_lt R) as Hrl. pose proof (ring_snd R) as Hsnd.
  assert (Hpr : p <> r).
  { intros ->. rewrite (ring_rs R) in Hpi. exact (N.lt_irrefl _ Hpi). }
  rewrite (rg_s R) in Hpi.
  destruct (mask_pos r p Hrl Hp Hpr) as [Ha Hb]. rewrite <- Hmp in Ha, Hb.
  split; [split; [clear - Ha; lia|split; assumption]|].
  apply tok_step_copy.
  - rewrite firstn_length. clear - Hmln. lia.
  - rewrite firstn_length, Nat.min_l by exact Hmln. rewrite Hsnd, Hb.
    intros k Hk. rewrite firstn_firstn, Nat.min_l by (clear - Hk; lia).
    rewrite nth_firstn_lt by exact Hk. revert k Hk.
    apply (match_valid (ringw done) look tb p (N.to_nat ml)).
    + apply ringw_snd_lt.
    + exact (rg_lenF R).
    + exact Hmln.
    + exact Hp.
    + intros q Hq. rewrite <- ringw_app. apply (rg_text R), Hq.
    + intros k Hk Hge.
      replace (p + N.of_nat k) with ((p + N.of_nat k - lz_N) + lz_N) at 1 by (clear - Hge; lia).
      apply (rg_mirror R); [clear - Hp Hk HmlF; numerals; lia|].
      apply ring_mirror_reach; [exact Hp|exact Hpi| |exact Hge]. unfold lenN. clear - Hk Hmln. lia.
    + intros k Hk. rewrite Hsnd. apply (ring_look_at k R); [clear - Hk Hmln; lia|clear - Hk HmlF; lia].
    + exact Hfirst.
    + intros k Hk. rewrite Hsnd. apply Hcmp; clear - Hk; lia.
    + intros i Hi. rewrite Hsnd, (rg_r R). apply ring_ahead; assumption.
Qed.

Definition tok_len (t : token) : N := match t with TLit _ => 1 | TMatch _ l => l end.

(* The token for the head of the lookahead, chosen from the match registers ML, mp that
   InsertNode(r) left: a literal, or the match cut to the lookahead.  It is valid and expands to
   the next tok_len bytes of the lookahead. *)
Lemma ring_token {tb s r done c look'} ML mp :
  Ring tb s r done (c :: look') -> ML <= lz_F ->
  (lz_Threshold < ML -> exists p, p < lz_N /\ (p + lz_N - s) mod lz_N < lz_N - lz_F /\
     aget (fst (ringw done)) p = c /\ mp = (Z.of_N (maskN (Z.of_N r - Z.of_N p)) - 1)%Z /\
     forall k, 1 <= k -> k < ML -> aget tb (r + k) = aget tb (p + k)) ->
  let len := lenN (c :: look') in
  let ml := if len <? ML then len else ML in
  let t := if ml <=? lz_Threshold then TLit c else TMatch (Z.to_N mp) ml in
  tok_ok t /\ (1 <= N.to_nat (tok_len t) <= length (c :: look'))%nat /\
  tok_step (ringw done) t =
    (wrun (ringw done) (firstn (N.to_nat (tok_len t)) (c :: look')),
     firstn (N.to_nat (tok_len t)) (c :: look')).
Proof.
  intros R HmlF Hmatch len ml t.
  assert (Hml : ml <= len /\ ml <= ML) by (unfold ml; destruct (N.ltb_spec len ML); lia).
  destruct Hml as [Hml1 Hml2].
  unfold t. destruct (N.leb_spec ml lz_Threshold) as [Hle|Hgt]; cbn [tok_len].
  - split; [exact (proj2 (ring_head R))|]. split; [cbn [length]; lia|apply tok_step_lit].
  - assert (Hmln : (N.to_nat ml <= length (c :: look'))%nat) by (unfold len, lenN in Hml1; lia).
    destruct (Hmatch ltac:(lia)) as (p & Hp & Hpi & Hpv & Hmpv & Hcmp).
    destruct (ring_match p mp ml R Hp Hpi Hmpv Hgt ltac:(lia) Hmln Hpv) as [Hok Hstep].
    { intros k Hk1 Hk. apply Hcmp; [exact Hk1|lia]. }
    split; [exact Hok|]. split; [clear - Hgt Hmln; numerals; lia|exact Hstep].
Qed.

(* the registered positions lie in the ring interval [s, s + bd) and hold in a the byte they
   are registered under *)
Definition Regd (bd s : N) (a : arr) (g : reg) : Prop :=
  forall q c, g q = Some c -> q < lz_N /\ (q + lz_N - s) mod lz_N < bd /\ aget a q = c.

Lemma regd_free {bd s a g r} : Regd bd s a g -> bd <= (r + lz_N - s) mod lz_N -> g r = None.
Proof.
  intros G H. destruct (g r) as [v|] eqn:E; [|reflexivity].
  destruct (G r v E) as (_ & H' & _). apply N.lt_nge in H'. contradiction.
Qed.

Lemma regd_le bd bd' s a g : bd <= bd' -> Regd bd s a g -> Regd bd' s a g.
Proof.
  intros H G q c Hq. destruct (G q c Hq) as (H1 & H2 & H3).
  split; [exact H1|]. split; [eapply N.lt_le_trans; eassumption|exact H3].
Qed.

(* InsertNode(r): r becomes registered, at most other positions are dropped *)
Lemma regd_ins bd bd' s r a a' g g' c :
  Regd bd s a g -> bd <= bd' -> r < lz_N -> (r + lz_N - s) mod lz_N < bd' ->
  g' r = Some c -> (forall q, q <> r -> g' q = g q \/ g' q = None) ->
  aget a' r = c -> (forall q, q <> r -> aget a' q = aget a q) ->
  Regd bd' s a' g'.
Proof.
  intros G Hbd Hr Hri Hgr Hgo Har Hao q v Hq. destruct (N.eq_dec q r) as [E|E].
  - subst q. rewrite Hgr in Hq. injection Hq as <-. auto.
  - destruct (Hgo q E) as [E'|E']; rewrite E' in Hq; [|discriminate].
    destruct (G q v Hq) as (H1 & H2 & H3). split; [exact H1|]. split.
    + eapply N.lt_le_trans; eassumption.
    + rewrite Hao by exact E. exact H3.
Qed.

(* DeleteNode(s), then s advances *)
Lemma regd_del bd s a g : s < lz_N -> Regd (bd + 1) s a g ->
  Regd bd ((s + 1) mod lz_N) a (reg_del g s).
Proof.
  intros Hs G q v Hq. unfold reg_del in Hq. destruct (N.eqb_spec q s) as [E|E]; [discriminate|].
  destruct (G q v Hq) as (H1 & H2 & H3). split; [exact H1|]. split; [|exact H3].
  rewrite <- (ring_off_pred q s H1 Hs E) in H2. lia.
Qed.

(* toks are valid and expand to out; h is the tree and bits are the bits after them *)
Record Emitted (h : huff) (bits : list bool) (toks : list token) (out : bytes) : Prop := {
  em_ok : Forall tok_ok toks;
  em_exp : expand win_init toks = out;
  em_h : h = tree_after huff_init toks;
  em_bits : bits = toks_bits huff_init toks
}.
Arguments em_ok {h bits toks out} _.
Arguments em_exp {h bits toks out} _.
Arguments em_h {h bits toks out} _.
Arguments em_bits {h bits toks out} _.

Lemma emitted_nil : Emitted huff_init [] [] [].
Proof. constructor; [constructor|reflexivity..]. Qed.

Lemma emitted_snoc h bits toks out t l :
  Emitted h bits toks out -> tok_ok t -> tok_step (ringw out) t = (wrun (ringw out) l, l) ->
  Emitted (update h (tok_sym t)) (bits ++ tok_bits h t) (toks ++ [t]) (out ++ l).
Proof.
  intros E Hok Hstep. constructor.
  - apply Forall_app. split; [exact (em_ok E)|constructor; [exact Hok|constructor]].
  - rewrite expand_app, win_after_wrun, (em_exp E). change (wrun win_init out) with (ringw out).
    cbn [expand]. rewrite Hstep, app_nil_r. reflexivity.
  - rewrite tree_after_app, <- (em_h E). reflexivity.
  - rewrite toks_bits_app, <- (em_bits E), <- (em_h E). cbn [toks_bits]. unfold tok_bits.
    rewrite app_nil_r. reflexivity.
Qed.

Lemma emitted_inv h bits toks out : Emitted h bits toks out -> Inv h.
Proof.
  intros E. rewrite (em_h E). generalize (em_ok E). clear E.
  induction toks as [|t toks IH] using rev_ind; intros Hok; [apply huff_init_inv|].
  apply Forall_app in Hok. destruct Hok as [Hok Ht]. inversion Ht. subst.
  rewrite tree_after_app. apply update_inv; [exact (IH Hok)|apply tok_sym_lt; assumption].
Qed.

(* reduce the projections of a writer / of a tree written out as a record *)
Ltac wproj := cbn [wt wh wo wlen wr ws lastMatchLength preFilled fileSize].
Ltac tproj := cbn [dad lson rson textBuf matchLength matchPosition].

Section WriterTokens.
  Variable P : tree -> reg -> Prop.
  Hypothesis HP : SearchSpec P.

  (* the invariant between operations.  toks: the tokens emitted, which cover the bytes
     advanced over and the first lastMatchLength - 1 bytes of the lookahead; g: the registry
     of the search trees.  wi_reg speaks of the READER's window content at a registered position,
     so that the entry for position s, whose text cell is overwritten before DeleteNode(s),
     stays right. *)
  Record WriterInv (w : writer) (done look : bytes) (toks : list token) (g : reg) : Prop := {
    wi_len : wlen w = lenN look;
    wi_ring : Ring (textBuf (wt w)) (ws w) (wr w) done look;
    wi_P : P (wt w) g;
    wi_reg : Regd (lz_N - lz_F) (ws w) (fst (ringw done)) g;
    wi_L1 : look <> [] -> (1 <= lastMatchLength w)%Z;
    wi_L2 : (lastMatchLength w - 1 <= Z.of_nat (length look))%Z;
    wi_em : Emitted (wh w) (obits (wo w)) toks
              (done ++ firstn (Z.to_nat (lastMatchLength w - 1)) look);
    wi_ob : ObOK (wo w)
  }.
  Arguments wi_len {w done look toks g} _.
  Arguments wi_ring {w done look toks g} _.
  Arguments wi_P {w done look toks g} _.
  Arguments wi_reg {w done look toks g} _.
  Arguments wi_L1 {w done look toks g} _ _.
  Arguments wi_L2 {w done look toks g} _.
  Arguments wi_em {w done look toks g} _.
  Arguments wi_ob {w done look toks g} _.

  (* the additional invariant of the Write phase *)
  Definition WritePhase (w : writer) (done look : bytes) (g : reg) : Prop :=
    if preFilled w then lenN look = lz_F
    else done = [] /\ lenN look < lz_F /\ (lastMatchLength w <= 1)%Z /\
         (* pre-fill registers one position per byte, downwards from N - F: the next one is free *)
         forall q, g q <> None -> lz_N - lz_F - lenN look <= q.

  Lemma init_WriterInv : WriterInv writer_init [] [] [] reg_empty.
  Proof.
    constructor; unfold writer_init, tree_init; wproj; tproj.
    - reflexivity.
    - exact ring_init.
    - apply (ss_init _ HP).
    - intros q c H. discriminate H.
    - intros H. contradiction H. reflexivity.
    - cbn [length]. lia.
    - exact emitted_nil.
    - apply ObOK_init.
  Qed.

  Lemma init_WritePhase : WritePhase writer_init [] [] reg_empty.
  Proof.
    unfold WritePhase, writer_init. wproj. split; [reflexivity|]. split; [reflexivity|]. split; [lia|].
    intros q H. contradiction H. reflexivity.
  Qed.

  Lemma prefill_step w look toks g b :
    WriterInv w [] look toks g -> WritePhase w [] look g -> preFilled w = false -> b < 256 ->
    exists g', WriterInv (write_byte w b) [] (look ++ [b]) toks g' /\
               WritePhase (write_byte w b) [] (look ++ [b]) g'.
  Proof.
    intros I W Hpf Hb. unfold WritePhase in W. rewrite Hpf in W. destruct W as (_ & HlF & HL & Hdom).
    pose proof (wi_len I) as Hlen. pose proof (wi_ring I) as R.
    assert (Hr : wr w = lz_N - lz_F) by (rewrite (rg_r R); reflexivity).
    assert (Hs : ws w = 0) by (rewrite (rg_s R); reflexivity).
    unfold write_byte. rewrite Hpf.
    set (t1 := set_text (wt w) (wr w + wlen w) b).
    set (r := wr w - (wlen w + 1)).
    assert (Hrv : r + lenN look + 1 = lz_N - lz_F) by (unfold r; rewrite Hr, Hlen; numerals; lia).
    assert (R1 : Ring (textBuf t1) (ws w) (wr w) [] (look ++ [b])).
    { unfold t1, set_text. tproj. rewrite <- store_mirror_far by (rewrite Hr; numerals; lia).
      apply ring_store; [exact R|lia|exact Hb|].
      rewrite Hr, Hlen, lenN_nil, N.mod_small by (numerals; lia). reflexivity. }
    (* the new node lies before the bytes written, where the window still holds its spaces *)
    assert (Ht1r : aget (textBuf t1) r = 32).
    { rewrite (ring_old r R1), win_init_32; try reflexivity; rewrite ?Hs, ?lenN_app;
        change (lenN [b]) with 1; numerals; lia. }
    assert (P1 : P t1 g).
    { apply (ss_ext _ HP (wt w)); [apply (wi_P I)|reflexivity..]. }
    destruct (ss_insert _ HP t1 g r P1) as (g' & Pg' & Hg'r & Hg'o & Htb & _ & _).
    - numerals. lia.
    - destruct (g r) as [c|] eqn:Eg; [|reflexivity]. exfalso.
      assert (Hn : g r <> None) by congruence. apply Hdom in Hn. lia.
    - rewrite Ht1r. reflexivity.
    - rewrite Ht1r in Hg'r. exists g'. split.
      + constructor; wproj.
        * rewrite lenN_app, Hlen. reflexivity.
        * rewrite Htb. exact R1.
        * exact Pg'.
        * apply (regd_ins _ _ _ r _ _ _ _ 32 (wi_reg I) (N.le_refl _)); try assumption.
          -- numerals. lia.
          -- rewrite Hs. numerals. lia.
          -- apply win_init_32. numerals. lia.
          -- reflexivity.
        * intros _. lia.
        * lia.
        * pose proof (wi_em I) as E. replace (Z.to_nat (lastMatchLength w - 1)) with O in E by lia.
          exact E.
        * apply (wi_ob I).
      + unfold WritePhase. wproj. destruct (N.eqb_spec (wlen w + 1) lz_F) as [E|E].
        * rewrite lenN_app, <- Hlen. exact E.
        * split; [reflexivity|]. rewrite lenN_app. change (lenN [b]) with 1.
          split; [lia|]. split; [lia|].
          intros q Hq. destruct (N.eq_dec q r) as [E1|E1]; [lia|].
          destruct (Hg'o q E1) as [E'|E']; rewrite E' in Hq; [|contradiction].
          apply Hdom in Hq. lia.
  Qed.

  (* advance: the byte, then insert / encode / delete / shift *)
  Definition adv_pre (w : writer) (b : N) : writer :=
    let t1 := set_text (wt w) (ws w) b in
    let t2 := if ws w <? lz_F - 1 then set_text t1 (ws w + lz_N) b else t1 in
    {| wt := t2; wh := wh w; wo := wo w; wlen := wlen w + 1; wr := wr w; ws := ws w;
       lastMatchLength := lastMatchLength w; preFilled := preFilled w; fileSize := fileSize w |}.

  Lemma advance_Some w b : advance w (Some b) = advance (adv_pre w b) None.
  Proof. reflexivity. Qed.

  Lemma adv_pre_inv w done look toks g b :
    WriterInv w done look toks g -> lenN look = lz_F -> b < 256 ->
    WriterInv (adv_pre w b) done (look ++ [b]) toks g.
  Proof.
    intros I HlF Hb. pose proof (wi_L2 I) as HL2.
    assert (Et : textBuf (wt (adv_pre w b)) = store_mirror (textBuf (wt w)) (ws w) b).
    { unfold adv_pre, store_mirror. wproj. destruct (ws w <? lz_F - 1); reflexivity. }
    constructor.
    - unfold adv_pre. wproj. rewrite lenN_app, (wi_len I). reflexivity.
    - rewrite Et. apply ring_store; [exact (wi_ring I)|rewrite HlF; apply N.le_refl|exact Hb|].
      rewrite HlF, ring_r_full. exact (rg_s (wi_ring I)).
    - apply (ss_ext _ HP (wt w)); [apply (wi_P I)|..];
        unfold adv_pre; wproj; destruct (ws w <? lz_F - 1); reflexivity.
    - exact (wi_reg I).
    - intros _. apply (wi_L1 I). intros E. rewrite E in HlF. discriminate HlF.
    - unfold adv_pre. wproj. rewrite app_length. lia.
    - unfold adv_pre. wproj. rewrite firstn_app.
      replace (Z.to_nat (lastMatchLength w - 1) - length look)%nat with O by (clear - HL2; lia).
      cbn [firstn]. rewrite app_nil_r. exact (wi_em I).
    - exact (wi_ob I).
  Qed.

  Lemma encode_step w1 :
    wlen w1 <> 0 -> Inv (wh w1) -> ObOK (wo w1) -> aget (textBuf (wt w1)) (wr w1) < 256 ->
    matchLength (wt w1) <= lz_F ->
    (lz_Threshold < matchLength (wt w1) -> (0 <= matchPosition (wt w1) < Z.of_N lz_N)%Z) ->
    let ml := if wlen w1 <? matchLength (wt w1) then wlen w1 else matchLength (wt w1) in
    let t := if ml <=? lz_Threshold then TLit (aget (textBuf (wt w1)) (wr w1))
             else TMatch (Z.to_N (matchPosition (wt w1))) ml in
    let w2 := encode w1 in
    dad (wt w2) = dad (wt w1) /\ lson (wt w2) = lson (wt w1) /\ rson (wt w2) = rson (wt w1) /\
    textBuf (wt w2) = textBuf (wt w1) /\
    wh w2 = update (wh w1) (tok_sym t) /\ ObOK (wo w2) /\
    obits (wo w2) = obits (wo w1) ++ tok_bits (wh w1) t /\
    wlen w2 = wlen w1 /\ wr w2 = wr w1 /\ ws w2 = ws w1 /\ preFilled w2 = preFilled w1 /\
    lastMatchLength w2 = Z.of_N (tok_len t) /\ tok_sym t < lz_NumChar.
  Proof.
    intros Hlen Hinv Hob Hc HmlF Hmp ml t w2. unfold w2, encode.
    destruct (N.eqb_spec (wlen w1) 0) as [E|_]; [contradiction|]. cbv zeta.
    change (if wlen w1 <? matchLength (wt w1) then wlen w1 else matchLength (wt w1)) with ml.
    assert (Hml : ml <= matchLength (wt w1)).
    { unfold ml. destruct (N.ltb_spec (wlen w1) (matchLength (wt w1))); lia. }
    unfold t. destruct (N.leb_spec ml lz_Threshold) as [Hle|Hgt].
    - set (c := aget (textBuf (wt w1)) (wr w1)) in *.
      assert (Hc' : c < lz_NumChar) by (numerals; lia).
      destruct (encode_char_bits (wh w1) (wo w1) c (inv_shape _ Hinv) Hob Hc'
                  (code_length_64 _ _ Hinv Hc')) as (E1 & E2 & E3).
      destruct (encode_char (wh w1) (wo w1) c) as [h' o']. cbn [fst snd] in E1, E2, E3.
      wproj. tproj. unfold tok_bits. cbn [tok_sym tok_len]. rewrite app_nil_r.
      repeat (split; [first [reflexivity|assumption]|]); assumption.
    - set (c := 255 - lz_Threshold + ml).
      assert (Hc' : c < lz_NumChar) by (unfold c; numerals; lia).
      destruct (encode_char_bits (wh w1) (wo w1) c (inv_shape _ Hinv) Hob Hc'
                  (code_length_64 _ _ Hinv Hc')) as (E1 & E2 & E3).
      destruct (encode_char (wh w1) (wo w1) c) as [h' o1]. cbn [fst snd] in E1, E2, E3.
      assert (Hpos : Z.to_N (matchPosition (wt w1)) < 4096).
      { assert (H : lz_Threshold < matchLength (wt w1)) by lia. apply Hmp in H. numerals. lia. }
      destruct (encode_position_bits o1 _ E2 Hpos) as (E4 & E5).
      wproj. tproj. unfold tok_bits. cbn [tok_sym tok_len]. fold c.
      rewrite E5, E3, <- app_assoc.
      repeat (split; [first [reflexivity|assumption]|]); assumption.
  Qed.

  Definition ins_w (w : writer) : writer :=
    {| wt := insert_node (wt w) (wr w); wh := wh w; wo := wo w; wlen := wlen w; wr := wr w;
       ws := ws w; lastMatchLength := lastMatchLength w - 1; preFilled := preFilled w;
       fileSize := fileSize w |}.

  Definition fin_w (w2 : writer) : writer :=
    {| wt := delete_node (wt w2) (ws w2); wh := wh w2; wo := wo w2; wlen := wlen w2 - 1;
       wr := (wr w2 + 1) mod lz_N; ws := (ws w2 + 1) mod lz_N;
       lastMatchLength := lastMatchLength w2; preFilled := preFilled w2; fileSize := fileSize w2 |}.

  Lemma advance_None w : advance w None =
    fin_w (if (lastMatchLength w - 1 =? 0)%Z then encode (ins_w w) else ins_w w).
  Proof. reflexivity. Qed.

  (* delete and shift, from the state w2 after insert (and encode) *)
  Lemma fin_step w done c look' toks g w2 toks2 g1 :
    WriterInv w done (c :: look') toks g ->
    P (wt w2) g1 -> textBuf (wt w2) = textBuf (wt w) ->
    g1 (wr w) = Some c -> (forall q, q <> wr w -> g1 q = g q \/ g1 q = None) ->
    wlen w2 = wlen w -> wr w2 = wr w -> ws w2 = ws w ->
    (1 <= lastMatchLength w2)%Z -> (lastMatchLength w2 - 1 <= Z.of_nat (length look'))%Z ->
    Emitted (wh w2) (obits (wo w2)) toks2
      ((done ++ [c]) ++ firstn (Z.to_nat (lastMatchLength w2 - 1)) look') ->
    ObOK (wo w2) ->
    WriterInv (fin_w w2) (done ++ [c]) look' toks2 (reg_del g1 (ws w)).
  Proof.
    intros I P2 Htb Hg1r Hg1o Hwl Hwr Hws HL1 HL2 Hem Hob.
    pose proof (wi_ring I) as R. pose proof (ring_snd R) as Hsnd.
    pose proof (ring_r_lt R) as Hrl. pose proof (ring_s_lt R) as Hsl.
    destruct (ss_delete _ HP (wt w2) g1 (ws w) P2 Hsl) as (Pd & Htd & _ & _).
    constructor; unfold fin_w; wproj; rewrite ?Hws, ?Hwr, ?Hwl; try assumption.
    - pose proof (wi_len I) as Hlen. rewrite lenN_cons in Hlen. lia.
    - rewrite Htd, Htb. apply ring_adv, R.
    - apply regd_del; [exact Hsl|].
      apply (regd_ins _ _ _ (wr w) _ _ _ _ c (wi_reg I)); try assumption.
      + lia.
      + rewrite (ring_rs R). lia.
      + rewrite ringw_snoc, Hsnd. apply aget_aset_same.
      + intros q Hq. rewrite ringw_snoc, Hsnd. apply aget_aset_other.
        intro E. apply Hq. symmetry. exact E.
    - intros _. exact HL1.
  Qed.

  Lemma adv_core w done c look' toks g :
    WriterInv w done (c :: look') toks g ->
    exists toks' g', WriterInv (advance w None) (done ++ [c]) look' toks' g' /\
                     preFilled (advance w None) = preFilled w.
  Proof.
    intros I. rewrite advance_None.
    pose proof (wi_ring I) as R. pose proof (ring_r_lt R) as Hrl.
    pose proof (wi_len I) as Hlen. rewrite lenN_cons in Hlen.
    destruct (ring_head R) as [Hc0 Hcb].
    assert (HL1 : (1 <= lastMatchLength w)%Z) by (apply (wi_L1 I); discriminate).
    pose proof (wi_L2 I) as HL2. cbn [length] in HL2.
    destruct (ss_insert _ HP (wt w) g (wr w) (wi_P I) Hrl)
      as (g1 & Pg1 & Hg1r & Hg1o & Htb1 & HmlF & Hmatch).
    { apply (regd_free (wi_reg I)). rewrite (ring_rs R). apply N.le_refl. }
    { rewrite Hc0. exact Hcb. }
    rewrite Hc0 in Hg1r, Hmatch.
    change (matchLength (insert_node (wt w) (wr w))) with (matchLength (wt (ins_w w))) in HmlF, Hmatch.
    change (matchPosition (insert_node (wt w) (wr w))) with (matchPosition (wt (ins_w w))) in Hmatch.
    change (textBuf (insert_node (wt w) (wr w))) with (textBuf (wt (ins_w w))) in Htb1.
    pose proof (wi_em I) as Hem.
    destruct (Z.eqb_spec (lastMatchLength w - 1) 0) as [EL|EL].
    2:{ (* the position is covered by an earlier match *)
      exists toks, (reg_del g1 (ws w)). split; [|reflexivity].
      apply (fin_step w done c look' toks g (ins_w w) toks g1 I); unfold ins_w; wproj;
        try reflexivity; try assumption; try lia; [|exact (wi_ob I)].
      replace (Z.to_nat (lastMatchLength w - 1)) with (S (Z.to_nat (lastMatchLength w - 1 - 1))) in Hem
        by (clear - HL1 EL; lia).
      cbn [firstn] in Hem. rewrite <- app_assoc. exact Hem. }
    (* a token is emitted for this position *)
    rewrite EL in Hem. cbn [Z.to_nat firstn] in Hem. rewrite app_nil_r in Hem.
    assert (Hmp : lz_Threshold < matchLength (wt (ins_w w)) ->
                  (0 <= matchPosition (wt (ins_w w)) < Z.of_N lz_N)%Z).
    { intros H. destruct (Hmatch H) as (p & Hp & Hpr & _ & Hmp & _).
      rewrite Hmp. apply mask_pos; assumption. }
    pose proof (encode_step (ins_w w)) as ES. rewrite Htb1 in ES.
    change (wr (ins_w w)) with (wr w) in ES. change (wlen (ins_w w)) with (wlen w) in ES.
    change (wh (ins_w w)) with (wh w) in ES. change (wo (ins_w w)) with (wo w) in ES.
    change (ws (ins_w w)) with (ws w) in ES. change (preFilled (ins_w w)) with (preFilled w) in ES.
    rewrite Hc0 in ES.
    specialize (ES ltac:(clear - Hlen; lia) (emitted_inv _ _ _ _ (wi_em I)) (wi_ob I) Hcb HmlF Hmp).
    cbv zeta in ES.
    assert (Hm : lz_Threshold < matchLength (wt (ins_w w)) -> exists p, p < lz_N /\
              (p + lz_N - ws w) mod lz_N < lz_N - lz_F /\ aget (fst (ringw done)) p = c /\
              matchPosition (wt (ins_w w)) = (Z.of_N (maskN (Z.of_N (wr w) - Z.of_N p)) - 1)%Z /\
              forall k, 1 <= k -> k < matchLength (wt (ins_w w)) ->
                aget (textBuf (wt w)) (wr w + k) = aget (textBuf (wt w)) (p + k)).
    { intros H. destruct (Hmatch H) as (p & Hp & _ & Hgp & Hmpv & Hcmp).
      destruct (wi_reg I p c Hgp) as (_ & Hpi & Hpv). exists p. auto 6. }
    destruct (ring_token _ _ R HmlF Hm) as (Htok2 & Htok1 & Htok3).
    cbv zeta in Htok1, Htok2, Htok3. rewrite <- (wi_len I) in Htok1, Htok2, Htok3.
    set (t := if _ <=? lz_Threshold then TLit c else _) in *.
    destruct ES as (Ed & El & Er & Et & Eh & Eob & Ebits & Ewl & Ewr & Ews & Epf & EL2 & Esym).
    exists (toks ++ [t]), (reg_del g1 (ws w)). split; [|unfold fin_w; wproj; exact Epf].
    apply (fin_step w done c look' toks g (encode (ins_w w)) (toks ++ [t]) g1 I); try assumption.
    - apply (ss_ext _ HP (wt (ins_w w))); assumption.
    - rewrite EL2. clear - Htok1. lia.
    - rewrite EL2. cbn [length] in Htok1. clear - Htok1. lia.
    - rewrite Eh, Ebits, EL2.
      pose proof (emitted_snoc _ _ _ _ t _ Hem Htok2 Htok3) as E.
      replace (N.to_nat (tok_len t)) with (S (Z.to_nat (Z.of_N (tok_len t) - 1))) in E
        by (clear - Htok1; lia).
      cbn [firstn] in E. rewrite <- app_assoc. exact E.
  Qed.

  Lemma WI_ext w w' done look toks g :
    wt w' = wt w -> wh w' = wh w -> wo w' = wo w -> wlen w' = wlen w -> wr w' = wr w ->
    ws w' = ws w -> lastMatchLength w' = lastMatchLength w ->
    WriterInv w done look toks g -> WriterInv w' done look toks g.
  Proof.
    intros Et Eh Eo El Er Es EL I. destruct I.
    constructor; rewrite ?Et, ?Eh, ?Eo, ?El, ?Er, ?Es, ?EL; assumption.
  Qed.

  Lemma write_step w done look toks g b :
    WriterInv w done look toks g -> WritePhase w done look g -> b < 256 ->
    exists done' look' toks' g', done' ++ look' = done ++ look ++ [b] /\
      WriterInv (write_byte w b) done' look' toks' g' /\ WritePhase (write_byte w b) done' look' g'.
  Proof.
    intros I W Hb. destruct (preFilled w) eqn:Hpf.
    - unfold WritePhase in W. rewrite Hpf in W.
      pose proof (adv_pre_inv w done look toks g b I W Hb) as I1.
      destruct look as [|c l]; [rewrite lenN_nil in W; discriminate W|].
      change ((c :: l) ++ [b]) with (c :: (l ++ [b])) in I1.
      destruct (adv_core _ _ _ _ _ _ I1) as (toks' & g' & I2 & Hpf2).
      rewrite <- advance_Some in I2, Hpf2.
      exists (done ++ [c]), (l ++ [b]), toks', g'. split; [rewrite <- app_assoc; reflexivity|].
      unfold write_byte. rewrite Hpf. split.
      + revert I2. apply WI_ext; reflexivity.
      + unfold WritePhase. wproj. rewrite lenN_app. rewrite lenN_cons in W. change (lenN [b]) with 1. exact W.
    - pose proof W as W'. unfold WritePhase in W'. rewrite Hpf in W'. destruct W' as (Hd & _). subst done.
      destruct (prefill_step w look toks g b I W Hpf Hb) as (g' & I1 & W1).
      exists [], (look ++ [b]), toks, g'. split; [reflexivity|]. split; assumption.
  Qed.

  Lemma write_inv : forall x w done look toks g,
    WriterInv w done look toks g -> WritePhase w done look g -> Forall (fun b => b < 256) x ->
    exists done' look' toks' g', done' ++ look' = done ++ look ++ x /\
      WriterInv (write w x) done' look' toks' g' /\ WritePhase (write w x) done' look' g'.
  Proof.
    induction x as [|b x IH]; intros w done look toks g I W Hx.
    - exists done, look, toks, g. rewrite app_nil_r. split; [reflexivity|]. split; assumption.
    - inversion Hx as [|b' x' Hb Hx']. subst.
      destruct (write_step w done look toks g b I W Hb) as (d1 & l1 & t1 & g1 & E1 & I1 & W1).
      destruct (IH (write_byte w b) d1 l1 t1 g1 I1 W1 Hx') as (d2 & l2 & t2 & g2 & E2 & I2 & W2).
      exists d2, l2, t2, g2. split; [|split; assumption].
      rewrite E2, app_assoc, E1, <- !app_assoc. reflexivity.
  Qed.

  Lemma drain_inv : forall fuel w done look toks g,
    WriterInv w done look toks g -> (length look <= fuel)%nat ->
    exists toks' g', WriterInv (drain fuel w) (done ++ look) [] toks' g'.
  Proof.
    induction fuel as [|f IH]; intros w done look toks g I Hf.
    - destruct look; [|cbn [length] in Hf; lia]. exists toks, g. rewrite app_nil_r. exact I.
    - cbn [drain]. pose proof (wi_len I) as Hlen.
      destruct (N.eqb_spec (wlen w) 0) as [E|E].
      + destruct look; [|rewrite lenN_cons in Hlen; lia]. exists toks, g. rewrite app_nil_r. exact I.
      + destruct look as [|c l]; [rewrite lenN_nil in Hlen; contradiction|].
        destruct (adv_core _ _ _ _ _ _ I) as (t1 & g1 & I1 & _).
        destruct (IH _ _ _ _ _ I1) as (t2 & g2 & I2); [cbn [length] in Hf; lia|].
        exists t2, g2. rewrite <- app_assoc in I2. exact I2.
  Qed.

  Theorem write_tokens : forall x, Forall (fun b => b < 256) x ->
    let w := drain (S natF) (write writer_init x) in
    exists toks, Forall tok_ok toks /\ expand win_init toks = x /\
      ObOK (wo w) /\ obits (wo w) = toks_bits huff_init toks /\ wlen w = 0.
  Proof.
    intros x Hx w.
    destruct (write_inv x writer_init [] [] [] reg_empty init_WriterInv init_WritePhase Hx)
      as (d & l & t & g & E & I & W).
    cbn [app] in E.
    assert (Hl : (length l <= S natF)%nat).
    { unfold WritePhase in W. unfold natF, lenN in *. destruct (preFilled (write writer_init x)); lia. }
    destruct (drain_inv (S natF) _ _ _ _ _ I Hl) as (toks & g' & I').
    rewrite E in I'. fold w in I'. exists toks. pose proof (wi_em I') as Em.
    rewrite firstn_nil, app_nil_r in Em.
    split; [exact (em_ok Em)|]. split; [exact (em_exp Em)|].
    split; [exact (wi_ob I')|]. split; [exact (em_bits Em)|exact (wi_len I')].
  Qed.
End WriterTokens.

Print Assumptions write_tokens.
