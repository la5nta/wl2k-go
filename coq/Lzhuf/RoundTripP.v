(* Lzhuf/RoundTripP.v — the round trip: decompressing, with any Read buffer size, what the
   compressor produced for any input gives back the input, io.EOF and a nil Close.
   Assembly of the layers: writer -> tokens (WriterP), tokens -> reader (ReadSeqP), header
   (LzP.compress_eq). *)
From Coq Require Import Lia ZifyN ZifyNat ZifyBool.
From Verif Require Import Base.Bytes Base.Arr Lzhuf.Huff Lzhuf.HuffInv Lzhuf.Enc
  Lzhuf.Crc Lzhuf.CrcP Lzhuf.Dec Lzhuf.LzP Lzhuf.Bits Lzhuf.BitsWP Lzhuf.Tokens Lzhuf.Search Lzhuf.SearchP
  Lzhuf.TokDecP Lzhuf.WriterP Lzhuf.ReadSeqP gen.Tables.
Open Scope N_scope.

(* whatever the search trees find, the writer emits the bits of a token sequence that
   expands to its input *)
Theorem writer_emits_tokens : forall x, Forall (fun b => b < 256) x ->
  let w := drain (S natF) (write writer_init x) in
  exists toks, Forall tok_ok toks /\ expand win_init toks = x /\
    ObOK (wo w) /\ obits (wo w) = toks_bits huff_init toks /\ wlen w = 0.
Proof. exact (write_tokens TreeOK search_spec). Qed.

Theorem compress_tokens : forall (crc : bool) x,
  Forall (fun b => b < 256) x -> (Z.of_nat (length x) < 2147483648)%Z ->
  exists toks body pad,
    Forall tok_ok toks /\ expand win_init toks = x /\
    Forall (fun b => b < 256) body /\
    bytes_bits body = toks_bits huff_init toks ++ pad /\ (length pad < 8)%nat /\
    compress crc x =
      (if crc then le16 (crc_impl (le32 (N.of_nat (length x)) ++ body)) else [])
      ++ le32 (N.of_nat (length x)) ++ body.
Proof.
  intros crc x Hx Hlen.
  destruct (writer_emits_tokens x Hx) as (toks & Htok & Hexp & Hok & Hbits & Hwl).
  destruct (compress_eq crc x) as [E Hob]. cbv zeta in E, Hob.
  set (w1 := drain (S natF) (write writer_init x)) in *.
  assert (He : encode w1 = w1) by (unfold encode; rewrite Hwl; reflexivity).
  rewrite He in E, Hob. set (o := encode_end (wo w1)) in *.
  exists toks, (rev (obuf o)), (repeat false (N.to_nat ((8 - putlen (wo w1)) mod 8))).
  split; [exact Htok|]. split; [exact Hexp|].
  split; [apply Forall_rev; exact Hob|].
  split; [unfold o; rewrite (encode_end_bits (wo w1) Hok), Hbits; reflexivity|].
  split.
  { rewrite repeat_length. destruct Hok as [Hpl _].
    assert ((8 - putlen (wo w1)) mod 8 < 8) by (apply N.mod_lt; lia). lia. }
  rewrite E. unfold size_field. rewrite N.mod_small by lia. reflexivity.
Qed.

Theorem lzhuf_roundtrip : forall (crc : bool) (x : bytes) (bs : nat),
  Forall (fun b => b < 256) x -> (Z.of_nat (length x) < 2147483648)%Z -> (0 < bs)%nat ->
  read_all crc (compress crc x) bs (S (S (length x))) = Some (x, REof, ErrNone).
Proof.
  intros crc x bs Hx Hlen Hbs.
  destruct (compress_tokens crc x Hx Hlen) as (toks & body & pad & Htok & Hexp & Hb & Hbits & Hpad & Hc).
  rewrite Hc.
  pose proof (read_all_tokens crc toks body pad bs Htok Hb Hbits Hpad) as H.
  rewrite Hexp in H. apply H; assumption.
Qed.
