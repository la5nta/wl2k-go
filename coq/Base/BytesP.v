(* What every directory shares: lemmas about the functions of Base/Bytes.v (byte-string equality,
   prefixes, little- and big-endian numbers, decimal digits, split_at, split_on and join_with) and
   about TrimSpace of Base/Utf8.v on a string with ASCII ends; list lemmas the standard library
   does not have (firstn and skipn, NoDup of an append, invariants of fold_left); match_lit_* for a
   match against a byte literal; insertion sort by a boolean order (insert_by, isort_by: defined
   here, with permutation and sortedness). *)
From Coq Require Import Lia Sorting.Permutation Sorting.Sorted.
From Verif Require Import Base.Bytes Base.Utf8.
Open Scope N_scope.

Lemma beq_bytes_spec a b : reflect (a = b) (beq_bytes a b).
Proof.
  revert b. induction a as [|x a IH]; intros [|y b]; cbn [beq_bytes]; try (constructor; congruence).
  destruct (N.eqb_spec x y) as [->|Hxy]; [|constructor; congruence].
  destruct (IH b) as [->|Hab]; constructor; congruence.
Qed.

Lemma beq_bytes_refl a : beq_bytes a a = true.
Proof. destruct (beq_bytes_spec a a); congruence. Qed.

Lemma beq_bytes_true a b : beq_bytes a b = true -> a = b.
Proof. destruct (beq_bytes_spec a b); congruence. Qed.

Lemma beq_bytes_false a b : beq_bytes a b = false -> a <> b.
Proof. destruct (beq_bytes_spec a b); congruence. Qed.

Lemma beq_bytes_neq a b : a <> b -> beq_bytes a b = false.
Proof. destruct (beq_bytes_spec a b); congruence. Qed.

Lemma existsb_beq_In x l : existsb (beq_bytes x) l = true <-> In x l.
Proof.
  rewrite existsb_exists. split.
  - intros (y&Hy&E). apply beq_bytes_true in E. subst. exact Hy.
  - intros H. exists x. split; [exact H|apply beq_bytes_refl].
Qed.

Lemma prefixb_iff p l : prefixb p l = true <-> exists m, l = p ++ m.
Proof.
  revert l. induction p as [|x p IH]; intros l; [split; [exists l; reflexivity|reflexivity]|].
  destruct l as [|y l]; cbn [prefixb app]; [split; [discriminate|intros [m E]; discriminate]|].
  rewrite andb_true_iff, N.eqb_eq, IH. split.
  - intros [-> [m ->]]. exists m. reflexivity.
  - intros [m E]. injection E as -> ->. split; [reflexivity|exists m; reflexivity].
Qed.

Lemma suffixb_iff p l : suffixb p l = true <-> exists m, l = m ++ p.
Proof.
  unfold suffixb. rewrite prefixb_iff. split; intros [m E]; exists (rev m).
  - rewrite <- (rev_involutive l), E, rev_app_distr, rev_involutive. reflexivity.
  - rewrite E, rev_app_distr. reflexivity.
Qed.

(* Where the model matches a byte against a literal, the match is a tree over the binary digits of
   the byte: for a byte other than the literal every leaf reached is the default branch.  The
   literal cannot be a variable of the statement, hence one lemma per literal; [lit_default c] walks
   the tree for the byte c. *)
Ltac lit_default c :=
  destruct c as [|p]; [reflexivity|]; repeat (destruct p as [p|p|]; try reflexivity); congruence.
Lemma match_lit_10 {A} c (a b : A) : c <> 10 -> match c with 10 => a | _ => b end = b.
Proof. intros H. lit_default c. Qed.

Lemma match_lit_13 {A} c (a b : A) : c <> 13 -> match c with 13 => a | _ => b end = b.
Proof. intros H. lit_default c. Qed.

Lemma match_lit_47 {A} c (a b : A) : c <> 47 -> match c with 47 => a | _ => b end = b.
Proof. intros H. lit_default c. Qed.

Lemma match_lit_45_43 {A} c (a a' b : A) :
  c <> 45 -> c <> 43 -> match c with 45 => a | 43 => a' | _ => b end = b.
Proof. intros H H'. lit_default c. Qed.

Lemma match_lit_32 {A} c (a b : A) : c <> 32 -> match c with 32 => a | _ => b end = b.
Proof. intros H. lit_default c. Qed.

Lemma match_lit_62 {A} c (a b : A) : c <> 62 -> match c with 62 => a | _ => b end = b.
Proof. intros H. lit_default c. Qed.

Lemma match_lit_70 {A} c (a b : A) : c <> 70 -> match c with 70 => a | _ => b end = b.
Proof. intros H. lit_default c. Qed.

Lemma match_lit_83 {A} c (a b : A) : c <> 83 -> match c with 83 => a | _ => b end = b.
Proof. intros H. lit_default c. Qed.

Lemma match_lit_2_4 {A} c (a a' b : A) : c <> 2 -> c <> 4 -> match c with 2 => a | 4 => a' | _ => b end = b.
Proof. intros H H'. lit_default c. Qed.

Lemma match_lit_59 {A} c (a b : A) : c <> 59 -> match c with 59 => a | _ => b end = b.
Proof. intros H. lit_default c. Qed.

Lemma rev'_rev {A} (l : list A) : rev' l = rev l.
Proof. unfold rev'. symmetry. apply rev_alt. Qed.

Lemma firstn_app_exact {A} (a b : list A) n : length a = n -> firstn n (a ++ b) = a.
Proof. intros <-. rewrite firstn_app, firstn_all, Nat.sub_diag. cbn. apply app_nil_r. Qed.

Lemma skipn_app_exact {A} (a b : list A) n : length a = n -> skipn n (a ++ b) = b.
Proof. intros <-. rewrite skipn_app, skipn_all, Nat.sub_diag. reflexivity. Qed.

Lemma lastn_app_exact {A} (a b : list A) n : length b = n -> lastn n (a ++ b) = b.
Proof.
  intros <-. unfold lastn. rewrite app_length, Nat.add_sub. apply skipn_app_exact. reflexivity.
Qed.

Lemma Forall_firstn {A} (P : A -> Prop) n l : Forall P l -> Forall P (firstn n l).
Proof.
  intros H. rewrite <- (firstn_skipn n l) in H. apply Forall_app in H. apply H.
Qed.

Lemma Forall_skipn {A} (P : A -> Prop) n l : Forall P l -> Forall P (skipn n l).
Proof.
  intros H. rewrite <- (firstn_skipn n l) in H. apply Forall_app in H. apply H.
Qed.

Lemma In_firstn {A} (x : A) n l : In x (firstn n l) -> In x l.
Proof. intros H. rewrite <- (firstn_skipn n l). apply in_or_app. left. exact H. Qed.

Lemma NoDup_app_iff {A} (a b : list A) :
  NoDup (a ++ b) <-> NoDup a /\ NoDup b /\ (forall x, In x a -> In x b -> False).
Proof.
  induction a as [|x a IH]; cbn [app].
  - split; [intros H; repeat split; [constructor|exact H|intros ? []] | intros (_ & H & _); exact H].
  - rewrite !NoDup_cons_iff, IH, in_app_iff. split.
    + intros (Hx & Ha & Hb & Hd). repeat split; auto.
      intros y [->|Hy] Hyb; [tauto|eauto].
    + intros ((Hx & Ha) & Hb & Hd). repeat split; auto.
      * intros [H|H]; [tauto|]. apply (Hd x); [left; reflexivity|exact H].
      * intros y Hy Hyb. apply (Hd y); [right; exact Hy|exact Hyb].
Qed.

Lemma filter_all {A} (f : A -> bool) l : (forall x, In x l -> f x = true) -> filter f l = l.
Proof.
  induction l as [|a l IH]; intros H; [reflexivity|]. cbn [filter]. rewrite (H a (or_introl eq_refl)).
  f_equal. apply IH. intros x Hx. apply H. right. exact Hx.
Qed.

Lemma fold_left_inv {A B} (P : A -> Prop) (f : A -> B -> A) :
  (forall a b, P a -> P (f a b)) -> forall l a, P a -> P (fold_left f l a).
Proof. intros Hf. induction l as [|b l IH]; intros a Ha; [exact Ha|]. apply IH, Hf, Ha. Qed.

Lemma fold_left_inv_on {A B} (P : A -> Prop) (Q : B -> Prop) (f : A -> B -> A) :
  (forall a b, Q b -> P a -> P (f a b)) -> forall l, Forall Q l -> forall a, P a -> P (fold_left f l a).
Proof. intros Hf l. induction 1 as [|b l Hb Hl IH]; intros a Ha; [exact Ha|]. apply IH, Hf; assumption. Qed.

Lemma neg_mod256 x : (x + (256 - x mod 256) mod 256) mod 256 = 0.
Proof.
  rewrite <- (N.add_mod_idemp_l x) by discriminate.
  pose proof (N.mod_upper_bound x 256 ltac:(discriminate)) as Hm. set (m := x mod 256) in *. clearbody m.
  destruct (N.eq_dec m 0) as [->|E]; [reflexivity|].
  rewrite (N.mod_small (256 - m)) by lia. replace (m + (256 - m)) with 256 by lia. reflexivity.
Qed.

(* a decidable property of bytes holds of every byte once it has been evaluated on all 256 *)
Lemma byte_sweep (P : N -> bool) : forallb P (map N.of_nat (seq 0 256)) = true -> forall n, n < 256 -> P n = true.
Proof.
  intros H n Hn. rewrite forallb_forall in H. apply H, in_map_iff. exists (N.to_nat n).
  split; [apply N2Nat.id|]. apply in_seq. lia.
Qed.

Lemma le32_bytes n : Forall (fun b => b < 256) (le32 n).
Proof. unfold le32. repeat constructor; apply N.mod_upper_bound; discriminate. Qed.

(* without ZifyN, which this file does not import, lia takes N's div and mod for atoms: the
   equations between them are given by hand *)
Lemma le32_roundtrip n : n < 4294967296 -> le_to_N (le32 n) = n.
Proof.
  intros H. unfold le32. cbn [le_to_N].
  pose proof (N.div_mod n 256 ltac:(discriminate)).
  pose proof (N.div_mod (n / 256) 256 ltac:(discriminate)).
  pose proof (N.div_mod (n / 65536) 256 ltac:(discriminate)).
  assert (n / 256 / 256 = n / 65536) by (rewrite N.div_div by discriminate; reflexivity).
  assert (n / 65536 / 256 = n / 16777216) by (rewrite N.div_div by discriminate; reflexivity).
  assert (n / 16777216 < 256) by (apply N.div_lt_upper_bound; [discriminate|exact H]).
  rewrite (N.mod_small (n / 16777216) 256) by assumption. lia.
Qed.

Lemma be16_roundtrip n : n < 65536 -> be_to_N (be16 n) = n.
Proof.
  intros H. unfold be16, be_to_N. cbn [be_to_N_acc].
  rewrite (N.mod_small (n / 256)) by (apply N.div_lt_upper_bound; [discriminate|exact H]).
  rewrite N.add_0_l, N.mul_comm. symmetry. apply N.div_mod. discriminate.
Qed.

Lemma digitsk_shape k n : length (digitsk k n) = k /\ Forall (fun b => 48 <= b <= 57) (digitsk k n).
Proof.
  unfold digitsk. split.
  - rewrite map_length, rev_length, seq_length. reflexivity.
  - apply Forall_forall. intros b Hb. apply in_map_iff in Hb. destruct Hb as [i [<- _]].
    unfold digit_char. pose proof (N.mod_upper_bound (n / 10 ^ N.of_nat i) 10 ltac:(lia)) as Hy.
    set (y := (n / 10 ^ N.of_nat i) mod 10) in *. clearbody y. lia.
Qed.

Lemma ndigits_aux_le f : forall w n, (1 <= w <= f)%nat -> n < 10 ^ N.of_nat w ->
  (ndigits_aux f n <= w)%nat.
Proof.
  induction f as [|f IH]; intros w n Hw Hn; [lia|]. cbn [ndigits_aux].
  destruct (n <? 10) eqn:E; [lia|]. apply N.ltb_ge in E.
  destruct w as [|[|w]]; [lia|change (10 ^ N.of_nat 1) with 10 in Hn; lia|].
  apply le_n_S. apply IH; [lia|]. apply N.div_lt_upper_bound; [discriminate|].
  rewrite <- N.pow_succ_r'. replace (N.succ (N.of_nat (S w))) with (N.of_nat (S (S w))) by lia. exact Hn.
Qed.

Lemma ndigits_le w n : (1 <= w <= 40)%nat -> n < 10 ^ N.of_nat w -> (ndigits n <= w)%nat.
Proof. apply ndigits_aux_le. Qed.

Lemma fmt_0wd_N w n : (1 <= w <= 40)%nat -> n < 10 ^ N.of_nat w -> fmt_0wd w (Z.of_N n) = digitsk w n.
Proof.
  intros Hw Hn. pose proof (ndigits_le w n Hw Hn) as H.
  unfold fmt_0wd. destruct n as [|p]; cbn [Z.of_N Z.to_N]; rewrite Nat.max_l by exact H; reflexivity.
Qed.

Lemma forallb_notin {A} (f : A -> bool) c m : forallb f m = true -> f c = false -> ~ In c m.
Proof. intros H Hc Hi. rewrite forallb_forall in H. rewrite (H c Hi) in Hc. discriminate. Qed.

Lemma digitsk_succ k n :
  digitsk (S k) n = digit_char ((n / 10 ^ N.of_nat k) mod 10) :: digitsk k n.
Proof.
  unfold digitsk. rewrite seq_S. cbn [Nat.add]. rewrite rev_app_distr. reflexivity.
Qed.

Lemma digitsk_all_digits k n : forallb is_digit (digitsk k n) = true.
Proof.
  apply forallb_forall. intros x Hx.
  pose proof (proj1 (Forall_forall _ _) (proj2 (digitsk_shape k n)) x Hx) as H. cbv beta in H.
  apply andb_true_intro. split; apply N.leb_le, H.
Qed.

Lemma ndigits_pos n : exists k, ndigits n = S k.
Proof.
  unfold ndigits. generalize 39%nat as f. intros f. cbn [ndigits_aux]. destruct (n <? 10); eexists; reflexivity.
Qed.

Lemma dec_of_N_nonempty n : dec_of_N n <> [].
Proof. unfold dec_of_N. destruct (ndigits_pos n) as [k ->]. rewrite digitsk_succ. discriminate. Qed.

Lemma dec_digits n : forallb is_digit (dec_of_N n) = true.
Proof. apply digitsk_all_digits. Qed.

Lemma dec_notin c n : is_digit c = false -> ~ In c (dec_of_N n).
Proof. apply forallb_notin, dec_digits. Qed.

Lemma split_at_skip c s t : ~ In c s ->
  split_at c (s ++ t) = (s ++ fst (split_at c t), snd (split_at c t)).
Proof.
  induction s as [|x s IH]; intros Hn; cbn [app split_at]; [destruct (split_at c t); reflexivity|].
  destruct (N.eqb_spec x c) as [->|_]; [exfalso; apply Hn; left; reflexivity|].
  rewrite IH by (intros Hin; apply Hn; right; exact Hin). reflexivity.
Qed.

Lemma split_at_app c s rest : ~ In c s -> split_at c (s ++ c :: rest) = (s, Some rest).
Proof.
  intros Hn. rewrite split_at_skip by exact Hn. cbn [split_at]. rewrite N.eqb_refl. cbn. rewrite app_nil_r. reflexivity.
Qed.

Lemma split_at_none c s : ~ In c s -> split_at c s = (s, None).
Proof. intros Hn. rewrite <- (app_nil_r s) at 1. rewrite split_at_skip by exact Hn. cbn. rewrite app_nil_r. reflexivity. Qed.

Lemma split_at_spec c s :
  match split_at c s with
  | (a, Some r) => s = a ++ c :: r /\ ~ In c a
  | (a, None) => a = s /\ ~ In c s
  end.
Proof.
  induction s as [|x s IH]; cbn [split_at]; [split; [reflexivity|intros []]|].
  destruct (N.eqb_spec x c) as [->|Hx]; [split; [reflexivity|intros []]|].
  destruct (split_at c s) as [a [r|]]; destruct IH as [E Hn]; subst; (split; [reflexivity|]);
    intros [H|H]; auto.
Qed.

Lemma split_at_Some c s a r : split_at c s = (a, Some r) <-> s = a ++ c :: r /\ ~ In c a.
Proof.
  split; [intros H; pose proof (split_at_spec c s) as Hs; rewrite H in Hs; exact Hs|].
  intros [-> Hn]. apply split_at_app, Hn.
Qed.

Lemma In_split_first (c : N) l : In c l -> exists a b, l = a ++ c :: b /\ ~ In c a.
Proof.
  intros H. pose proof (split_at_spec c l) as Hs. destruct (split_at c l) as [a [b|]]; [exists a, b; exact Hs|].
  destruct Hs as [_ Hn]. contradiction.
Qed.

Lemma split_on_nonempty c a : split_on c a <> [].
Proof.
  destruct a as [|x a]; [discriminate|]. cbn [split_on].
  destruct (split_on c a); destruct (x =? c); discriminate.
Qed.

Lemma split_on_cons_sep c b : split_on c (c :: b) = [] :: split_on c b.
Proof.
  cbn [split_on]. rewrite N.eqb_refl.
  destruct (split_on c b) eqn:E; [exfalso; exact (split_on_nonempty c b E)|reflexivity].
Qed.

Lemma split_on_sep_app c a b : split_on c (a ++ c :: b) = split_on c a ++ split_on c b.
Proof.
  induction a as [|x a IH].
  - apply split_on_cons_sep.
  - cbn [app split_on]. rewrite IH.
    destruct (split_on c a) as [|h t] eqn:E; [exfalso; exact (split_on_nonempty c a E)|].
    cbn [app]. destruct (x =? c); reflexivity.
Qed.

Lemma split_on_nosep c s : Forall (fun b => b <> c) s -> split_on c s = [s].
Proof.
  induction s as [|x s IH]; intros H; [reflexivity|].
  inversion H as [|? ? Hx Hs]; subst. cbn [split_on]. rewrite IH by assumption.
  destruct (N.eqb_spec x c); [contradiction|reflexivity].
Qed.

Lemma split_on_parts c s : Forall (fun seg => Forall (fun b => b <> c) seg) (split_on c s).
Proof.
  induction s as [|x s IH]; [repeat constructor|].
  cbn [split_on]. destruct (split_on c s) as [|h t]; destruct (N.eqb_spec x c) as [_|Hx];
    repeat constructor; try assumption; inversion IH; assumption.
Qed.

Lemma split_on_other c x b : x <> c ->
  split_on c (x :: b) = match split_on c b with [] => [[x]] | h :: t => (x :: h) :: t end.
Proof. intros H. apply N.eqb_neq in H. cbn [split_on]. rewrite H. reflexivity. Qed.

Lemma notin_Forall (c : N) a : ~ In c a -> Forall (fun x => x <> c) a.
Proof. intros H. apply Forall_forall. intros x Hx ->. exact (H Hx). Qed.

Lemma split_on_notin c a : ~ In c a -> split_on c a = [a].
Proof. intros H. apply split_on_nosep, notin_Forall, H. Qed.

Lemma split_on_app c a b : ~ In c a -> split_on c (a ++ c :: b) = a :: split_on c b.
Proof. intros H. rewrite split_on_sep_app, split_on_notin by exact H. reflexivity. Qed.

Lemma split_on_pieces c l : Forall (fun p => ~ In c p) (split_on c l).
Proof.
  eapply Forall_impl; [|apply split_on_parts]. intros p Hp Hi. exact (proj1 (Forall_forall _ _) Hp c Hi eq_refl).
Qed.

Lemma join_split c : forall l, join_with c (split_on c l) = l.
Proof.
  induction l as [|x r IH]; [reflexivity|]. cbn [split_on]. pose proof (split_on_nonempty c r) as Hn.
  destruct (split_on c r) as [|h t]; [congruence|]. destruct (N.eqb_spec x c) as [->|Hx].
  - change (join_with c ([] :: h :: t)) with (c :: join_with c (h :: t)). rewrite IH. reflexivity.
  - rewrite <- IH. destruct t; reflexivity.
Qed.

Lemma split_on_join c es : es <> [] -> split_on c (join_with c es) = flat_map (split_on c) es.
Proof.
  induction es as [|e r IH]; intros H; [congruence|]. destruct r as [|e2 r'].
  - cbn [join_with flat_map]. symmetry. apply app_nil_r.
  - change (join_with c (e :: e2 :: r')) with (e ++ c :: join_with c (e2 :: r')).
    rewrite split_on_sep_app, IH by discriminate. reflexivity.
Qed.

Lemma split_join c ds :
  ds <> [] -> Forall (fun d => Forall (fun x => x <> c) d) ds ->
  split_on c (join_with c ds) = ds.
Proof.
  intros Hne H. rewrite split_on_join by exact Hne. clear Hne.
  induction H as [|d r Hd _ IH]; [reflexivity|]. cbn [flat_map]. rewrite split_on_nosep, IH by exact Hd. reflexivity.
Qed.

Lemma join_snoc c ds t :
  join_with c (ds ++ [t]) = match ds with [] => t | _ => join_with c ds ++ c :: t end.
Proof.
  induction ds as [|d r IH]; [reflexivity|].
  destruct r as [|d2 r'].
  - reflexivity.
  - change ((d :: d2 :: r') ++ [t]) with (d :: (d2 :: r') ++ [t]).
    change (join_with c (d :: (d2 :: r') ++ [t])) with (d ++ c :: join_with c ((d2 :: r') ++ [t])).
    rewrite IH. change (join_with c (d :: d2 :: r')) with (d ++ c :: join_with c (d2 :: r')).
    rewrite <- app_assoc. reflexivity.
Qed.

(* strings.TrimSpace leaves alone a string that begins and ends with an ASCII byte that is not
   white space: each end is decoded as a one-byte rune *)
Lemma trim_left_ascii a r fuel : a < 128 -> is_space_rune a = false -> trim_left_space fuel (a :: r) = a :: r.
Proof.
  intros Ha Hs. destruct fuel; [reflexivity|]. cbn [trim_left_space]. unfold decode_rune.
  apply N.ltb_lt in Ha. rewrite Ha, Hs. reflexivity.
Qed.

Lemma trim_right_ascii z r fuel : z < 128 -> is_space_rune z = false -> trim_right_space_rev fuel (z :: r) = z :: r.
Proof.
  intros Hz Hs. destruct fuel; [reflexivity|]. cbn [trim_right_space_rev]. unfold decode_last_rune.
  apply N.ltb_lt in Hz. rewrite Hz, Hs. reflexivity.
Qed.

Lemma trim_space_go_id s :
  (forall a r, s = a :: r -> a < 128 /\ is_space_rune a = false) ->
  (forall i z, s = i ++ [z] -> z < 128 /\ is_space_rune z = false) -> trim_space_go s = s.
Proof.
  intros Hf Hl. unfold trim_space_go. destruct s as [|a r]; [reflexivity|].
  rewrite trim_left_ascii by (eapply Hf; reflexivity).
  destruct (exists_last (l := a :: r)) as [i [z E]]; [discriminate|].
  rewrite E. rewrite !rev'_rev, rev_app_distr. cbn [rev app].
  rewrite trim_right_ascii by (eapply Hl; exact E).
  cbn [rev]. rewrite rev_involutive. reflexivity.
Qed.

Section InsertionSort.
  Context {A : Type} (leb : A -> A -> bool).

  Fixpoint insert_by (x : A) (l : list A) : list A :=
    match l with
    | [] => [x]
    | y :: r => if leb x y then x :: l else y :: insert_by x r
    end.
  Definition isort_by (l : list A) : list A := fold_right insert_by [] l.

  Lemma insert_by_perm x l : Permutation (x :: l) (insert_by x l).
  Proof.
    induction l as [|y r IH]; [apply Permutation_refl|]. cbn [insert_by].
    destruct (leb x y); [apply Permutation_refl|].
    eapply perm_trans; [apply perm_swap|]. apply perm_skip. exact IH.
  Qed.

  Lemma isort_by_perm l : Permutation l (isort_by l).
  Proof.
    induction l as [|x l IH]; [apply perm_nil|]. cbn [isort_by fold_right].
    eapply perm_trans; [apply perm_skip; exact IH|]. apply insert_by_perm.
  Qed.

  Hypothesis leb_total : forall a b, leb a b = true \/ leb b a = true.

  Lemma insert_by_sorted x l :
    LocallySorted (fun a b => leb a b = true) l -> LocallySorted (fun a b => leb a b = true) (insert_by x l).
  Proof.
    assert (Hgt : forall a, leb x a = false -> leb a x = true)
      by (intros a E; destruct (leb_total x a); congruence).
    intros H. induction H as [|a|a b l Hl IH Hab]; cbn [insert_by] in *.
    - constructor.
    - destruct (leb x a) eqn:E; constructor; auto; constructor.
    - destruct (leb x a) eqn:E; [constructor; [constructor; assumption|exact E]|].
      destruct (leb x b); constructor; auto.
  Qed.

  Lemma isort_by_sorted l : LocallySorted (fun a b => leb a b = true) (isort_by l).
  Proof.
    induction l as [|x l IH]; [constructor|]. cbn [isort_by fold_right]. apply insert_by_sorted. exact IH.
  Qed.
End InsertionSort.
