(* Base/Arr.v — functional arrays indexed by N, backed by PositiveMap (O(log n) in the
   extracted code).  Unset cells read as the default 0 (Go arrays are zero initialised). *)
From Coq Require Import NArith Bool FMapPositive List Lia.
Import ListNotations.
Open Scope N_scope.

Definition arr := PositiveMap.t N.
Definition aempty : arr := PositiveMap.empty N.

Definition aget (a : arr) (i : N) : N :=
  match PositiveMap.find (N.succ_pos i) a with Some v => v | None => 0 end.

Definition aset (a : arr) (i : N) (v : N) : arr := PositiveMap.add (N.succ_pos i) v a.

(* fill a[from .. from+len) with v *)
Fixpoint afill (a : arr) (from : N) (len : nat) (v : N) : arr :=
  match len with
  | O => a
  | S k => afill (aset a from v) (N.succ from) k v
  end.

(* a[from .. from+len) as a list *)
Fixpoint aslice (a : arr) (from : N) (len : nat) : list N :=
  match len with
  | O => []
  | S k => aget a from :: aslice a (N.succ from) k
  end.

Lemma succ_pos_inj i j : N.succ_pos i = N.succ_pos j -> i = j.
Proof.
  intros H. apply (f_equal Npos) in H. rewrite !N.succ_pos_spec in H. apply N.succ_inj. exact H.
Qed.

(* These laws say what an array reads, not which array it is: two that read alike everywhere need
   not be equal (a cell set to 0 and an unset one; the tries are not normalised). *)
Lemma aget_aset_same a i v : aget (aset a i v) i = v.
Proof. unfold aget, aset. rewrite PositiveMap.gss. reflexivity. Qed.

Lemma aget_aset_other a i j v : i <> j -> aget (aset a i v) j = aget a j.
Proof.
  intros H. unfold aget, aset. rewrite PositiveMap.gso; [reflexivity|].
  intros E. apply H. symmetry. apply succ_pos_inj. exact E.
Qed.

Lemma aget_empty i : aget aempty i = 0.
Proof. unfold aget, aempty. rewrite PositiveMap.gempty. reflexivity. Qed.

Lemma aget_aset a i v x : aget (aset a i v) x = if x =? i then v else aget a x.
Proof.
  destruct (N.eqb_spec x i) as [->|E].
  - apply aget_aset_same.
  - apply aget_aset_other. congruence.
Qed.

Lemma aget_afill : forall len a from v i,
  aget (afill a from len v) i =
  if (from <=? i) && (i <? from + N.of_nat len) then v else aget a i.
Proof.
  induction len as [|len IH]; intros a from v i.
  - cbn [afill]. change (N.of_nat 0) with 0. rewrite N.add_0_r.
    destruct (N.leb_spec from i), (N.ltb_spec i from); cbn [andb]; try reflexivity; lia.
  - cbn [afill]. rewrite IH. rewrite Nat2N.inj_succ.
    destruct (N.leb_spec (N.succ from) i), (N.ltb_spec i (N.succ from + N.of_nat len)),
             (N.leb_spec from i), (N.ltb_spec i (from + N.succ (N.of_nat len))); cbn [andb];
      try reflexivity; try lia; try (apply aget_aset_other; lia).
    assert (i = from) by lia. subst. apply aget_aset_same.
Qed.
