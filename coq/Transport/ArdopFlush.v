(* Transport/ArdopFlush.v — Flush and the flush lock of the ARDOP connection as a transition
   system: the control loop's dispatch (ctrl_step: BUFFER 0 releases the lock) interleaved in any
   order with the moments at which Conn.Write, having seen a BUFFER report for its frame, takes
   the lock.  Flush returns when it finds the lock released. *)
From Coq Require Import List NArith ZArith Bool Lia.
From Verif Require Import Base.Bytes Base.BytesP Transport.Ardop Transport.ArdopP.
Import ListNotations.
Open Scope N_scope.

Inductive aev := EFrame (f : afr) | ELock.

Definition lock_state (c : cstate) : cstate :=
  {| cs_connected := cs_connected c; cs_queue := cs_queue c; cs_ptt := cs_ptt c; cs_buffer := cs_buffer c;
     cs_flush_locked := true; cs_state := cs_state c; cs_eofs := cs_eofs c |}.

Definition astep (c : cstate) (e : aev) : cstate :=
  match e with EFrame f => ctrl_step c f | ELock => lock_state c end.

Definition arun (c : cstate) (es : list aev) : cstate := fold_left astep es c.

Definition s_buffer : bytes := [66; 85; 70; 70; 69; 82].
Definition is_empty_report (e : aev) : Prop :=
  exists line, e = EFrame (AFCmd line) /\ parse_ctrl line = Some (s_buffer, VInt 0%Z).
Definition no_lock (es : list aev) : Prop := Forall (fun e => e <> ELock) es.

Lemma buffer_of_report f : buffer_of f = Some 0%Z -> is_empty_report (EFrame f).
Proof.
  destruct f as [line|typ p]; [|discriminate]. cbn [buffer_of].
  destruct (parse_ctrl line) as [[cmd v]|] eqn:Ep; [|discriminate]. destruct v; try discriminate.
  destruct (beq_bytes cmd _) eqn:Eb; [|discriminate]. intros [= ->].
  apply beq_bytes_true in Eb. subst cmd. exists line. split; [reflexivity|exact Ep].
Qed.

Lemma ctrl_step_unlock c f : cs_flush_locked (ctrl_step c f) = false ->
  cs_flush_locked c = false \/ is_empty_report (EFrame f).
Proof.
  rewrite (proj2 (proj2 (proj2 (ctrl_step_fields c f)))).
  destruct (buffer_of f) as [[|z|z]|] eqn:Eb; auto. right. apply buffer_of_report. exact Eb.
Qed.

(* Flush returns (the lock is found released) only if no Write has taken the lock at all, or the
   TNC has reported an empty buffer after the last time a Write took it. *)
Theorem flush_only_after_empty_report es : forall c, cs_flush_locked (arun c es) = false ->
  (cs_flush_locked c = false /\ no_lock es) \/
  (exists pre e post, es = pre ++ e :: post /\ is_empty_report e /\ no_lock post).
Proof.
  induction es as [|e r IH]; intros c H.
  - left. split; [exact H|constructor].
  - change (arun c (e :: r)) with (arun (astep c e) r) in H.
    destruct (IH _ H) as [[Hl Hn]|[pre [e' [post [E [He Hp]]]]]].
    + destruct e as [f|].
      * cbn [astep] in Hl. destruct (ctrl_step_unlock _ _ Hl) as [Hc|Hr].
        -- left. split; [exact Hc|constructor; [discriminate|exact Hn]].
        -- right. exists [], (EFrame f), r. repeat split; assumption.
      * cbn in Hl. discriminate.
    + right. exists (e :: pre), e', post. rewrite E. repeat split; assumption.
Qed.

(* the lost wake-up: BUFFER 0 processed between Write's seeing its BUFFER report and taking the
   lock leaves the lock taken with an empty TNC buffer — Flush then waits for the next report *)
Example lost_wakeup :
  cs_flush_locked (arun (cs_init true) [EFrame (AFCmd [66; 85; 70; 70; 69; 82; 32; 53]);
                                        EFrame (AFCmd [66; 85; 70; 70; 69; 82; 32; 48]); ELock]) = true
  /\ cs_buffer (arun (cs_init true) [EFrame (AFCmd [66; 85; 70; 70; 69; 82; 32; 53]);
                                     EFrame (AFCmd [66; 85; 70; 70; 69; 82; 32; 48]); ELock]) = 0%Z.
Proof. vm_compute. split; reflexivity. Qed.
