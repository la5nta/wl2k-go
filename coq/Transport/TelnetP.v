(* Transport/TelnetP.v — telnet login (C15): the client answers the two prompts whatever ignorable
   lines surround them, the server reports the callsign it was sent, and each side is left with
   exactly the bytes that follow the login; the dial loop ends by the deadline. *)
From Coq Require Import List NArith Bool Lia.
From Verif Require Import Base.Bytes Base.BytesP Base.Utf8 Transport.Telnet.
Import ListNotations.
Open Scope N_scope.

Definition plain_byte (b : N) : Prop := b < 128 /\ is_space_rune b = false.
Definition no_outer_space (s : bytes) : Prop :=
  (forall a r, s = a :: r -> plain_byte a) /\ (forall i z, s = i ++ [z] -> plain_byte z).

Theorem trim_space_plain s : no_outer_space s -> trim_space_go s = s.
Proof. intros [Hf Hl]. apply trim_space_go_id; assumption. Qed.

Theorem server_accepts call pass payload : ~ In 13 call -> ~ In 13 pass ->
  telnet_server (call ++ [13] ++ pass ++ [13] ++ payload) = Accepted (trim_space_go call) payload.
Proof.
  intros Hc Hp. unfold telnet_server. cbn [app].
  rewrite split_at_app by exact Hc. rewrite split_at_app by exact Hp. reflexivity.
Qed.

Theorem server_reports_callsign call pass payload : ~ In 13 call -> ~ In 13 pass -> no_outer_space call ->
  telnet_server (call ++ [13] ++ pass ++ [13] ++ payload) = Accepted call payload.
Proof. intros Hc Hp Hn. rewrite server_accepts by assumption. rewrite trim_space_plain by exact Hn. reflexivity. Qed.

Inductive lclass := LCall | LPass | LOther.
Definition classify (line : bytes) : lclass :=
  let l := trim_space_go (lower_ascii line) in
  if prefixb s_callsign l then LCall else if prefixb s_password l then LPass else LOther.

(* any fuel above the length of the input gives the same result: each line read is at least
   one byte *)
Lemma client_fuel k1 : forall k2 mycall pass s, (length s < k1)%nat -> (length s < k2)%nat ->
  client_login k1 mycall pass s = client_login k2 mycall pass s.
Proof.
  induction k1 as [|k1 IH]; intros [|k2] mycall pass s H1 H2; try lia. cbn [client_login].
  pose proof (split_at_spec 13 s) as Hs. destruct (split_at 13 s) as [line [rest|]]; [|reflexivity].
  destruct Hs as [-> _]. rewrite app_length in H1, H2. cbn [length] in H1, H2.
  rewrite (IH k2 mycall pass rest) by lia. reflexivity.
Qed.

Lemma client_line mycall pass line rest : ~ In 13 line ->
  telnet_client mycall pass (line ++ 13 :: rest) =
  match classify line with
  | LCall => let '(sent, r) := telnet_client mycall pass rest in ((mycall ++ [13]) :: sent, r)
  | LPass => ([pass ++ [13]], Some rest)
  | LOther => telnet_client mycall pass rest
  end.
Proof.
  intros Hn. unfold telnet_client at 1. cbn [client_login]. rewrite split_at_app by exact Hn.
  rewrite (client_fuel _ (S (length rest))) by (rewrite ?app_length; cbn [length]; lia).
  unfold classify. destruct (prefixb s_callsign _); [reflexivity|]. destruct (prefixb s_password _); reflexivity.
Qed.

Definition frame_lines (ls : list bytes) : bytes := concat (map (fun l => l ++ [13]) ls).
Definition other_line (l : bytes) : Prop := ~ In 13 l /\ classify l = LOther.

Lemma client_skips ls : Forall other_line ls -> forall mycall pass rest,
  telnet_client mycall pass (frame_lines ls ++ rest) = telnet_client mycall pass rest.
Proof.
  induction ls as [|l r IH]; intros Hs mycall pass rest; [reflexivity|].
  inversion Hs as [|? ? [H1 H2] H3]; subst. unfold frame_lines. cbn [map concat].
  rewrite <- !app_assoc. cbn [app]. rewrite client_line by exact H1. rewrite H2. apply IH. exact H3.
Qed.

Lemma classify_prompts : classify (removelast prompt_callsign) = LCall /\ classify (removelast prompt_password) = LPass.
Proof. vm_compute. split; reflexivity. Qed.

Theorem telnet_client_logs_in pre mid mycall pass payload :
  Forall other_line pre -> Forall other_line mid ->
  telnet_client mycall pass (frame_lines pre ++ prompt_callsign ++ frame_lines mid ++ prompt_password ++ payload)
  = ([mycall ++ [13]; pass ++ [13]], Some payload).
Proof.
  intros Hp Hm. rewrite client_skips by exact Hp.
  change prompt_callsign with (removelast prompt_callsign ++ [13]). rewrite <- app_assoc. cbn [app].
  rewrite client_line by (vm_compute; intuition discriminate).
  rewrite (proj1 classify_prompts). rewrite client_skips by exact Hm.
  change prompt_password with (removelast prompt_password ++ [13]). rewrite <- app_assoc. cbn [app].
  rewrite client_line by (vm_compute; intuition discriminate).
  rewrite (proj2 classify_prompts). reflexivity.
Qed.

Theorem login_hands_over_clean_streams mycall pass payload_c payload_s :
  ~ In 13 mycall -> ~ In 13 pass -> no_outer_space mycall ->
  telnet_client mycall pass (prompt_callsign ++ prompt_password ++ payload_s) = ([mycall ++ [13]; pass ++ [13]], Some payload_s) /\
  telnet_server (concat [mycall ++ [13]; pass ++ [13]] ++ payload_c) = Accepted mycall payload_c.
Proof.
  intros Hc Hp Hn. split.
  - apply (telnet_client_logs_in [] [] mycall pass payload_s); constructor.
  - cbn [concat]. rewrite app_nil_r, <- !app_assoc. apply server_reports_callsign; assumption.
Qed.

Theorem dial_returns_by_deadline deadline mycall pass arrivals : forall buf,
  dial_time (dial_run deadline mycall pass buf arrivals) <= deadline.
Proof.
  induction arrivals as [|[t ev] r IH]; intros buf; cbn [dial_run dial_time]; [lia|].
  destruct (deadline <=? t) eqn:E; [cbn [dial_time]; lia|]. apply N.leb_gt in E.
  destruct ev as [b|]; [|cbn [dial_time]; lia].
  destruct (logged_in mycall pass (buf ++ b)); [cbn [dial_time]; lia|apply IH].
Qed.

Theorem dial_ok_means_logged_in deadline mycall pass arrivals : forall buf t,
  dial_run deadline mycall pass buf arrivals = DialOk t ->
  t < deadline /\ exists seen, logged_in mycall pass (buf ++ seen) = true.
Proof.
  induction arrivals as [|[t' ev] r IH]; intros buf t H; cbn [dial_run] in H; [discriminate|].
  destruct (deadline <=? t') eqn:E; [discriminate|]. apply N.leb_gt in E.
  destruct ev as [b|]; [|discriminate].
  destruct (logged_in mycall pass (buf ++ b)) eqn:L.
  - inversion H; subst. split; [exact E|]. exists b. exact L.
  - destruct (IH _ _ H) as [H1 [seen H2]]. split; [exact H1|]. exists (b ++ seen). rewrite app_assoc. exact H2.
Qed.
