(* Transport/AgwpeP.v — AGWPE (C13): a concatenation of encoded frames reads back as exactly those
   frames, however the stream was chunked; a header announcing too much data is refused; what
   Conn.Read returns concatenates to the payloads delivered; the frames Conn.Write produces are
   well formed and read back. *)
From Coq Require Import Lia ZifyN ZifyNat ZifyBool.
From Verif Require Import Base.Bytes Base.BytesP Transport.Agwpe gen.Tables.
Open Scope N_scope.

Definition wf_frame (f : frame) : Prop :=
  f_port f < 256 /\ f_kind f < 256 /\ f_pid f < 256 /\ length (f_from f) = 10%nat /\ length (f_to f) = 10%nat
  /\ N.of_nat (length (f_data f)) <= max_data_len /\ f_datalen f = N.of_nat (length (f_data f)).

Definition hdr (f : frame) : bytes :=
  [f_port f; 0; 0; 0; f_kind f; 0; f_pid f; 0] ++ f_from f ++ f_to f
  ++ le32 (N.of_nat (length (f_data f))) ++ [0; 0; 0; 0].

Lemma encode_hdr f : agw_encode f = hdr f ++ f_data f.
Proof. unfold agw_encode, hdr. repeat rewrite <- app_assoc. reflexivity. Qed.

Theorem read_encode f rest : wf_frame f -> agw_read_frame (agw_encode f ++ rest) = RdFrame f rest.
Proof.
  intros [Hp [Hk [Hi [Hf [Ht [Hl Hd]]]]]].
  set (L := N.of_nat (length (f_data f))) in *.
  assert (HL : L < 4294967296) by (unfold max_data_len in Hl; lia).
  assert (Hh : length (hdr f) = 36%nat).
  { unfold hdr. rewrite !app_length, Hf, Ht. reflexivity. }
  rewrite encode_hdr, <- app_assoc. unfold agw_read_frame.
  destruct (hdr f ++ f_data f ++ rest) as [|x s'] eqn:Es.
  { apply (f_equal (@length N)) in Es. rewrite app_length, Hh in Es. cbn in Es. lia. }
  rewrite <- Es. clear Es x s'.
  destruct (length (hdr f ++ f_data f ++ rest) <? 36)%nat eqn:E36.
  { apply Nat.ltb_lt in E36. rewrite app_length, Hh in E36. lia. }
  rewrite (firstn_app_exact _ _ 36 Hh), (skipn_app_exact _ _ 36 Hh).
  assert (H28 : skipn 28 (hdr f) = le32 L ++ [0; 0; 0; 0]).
  { unfold hdr. rewrite !app_assoc. rewrite <- (app_assoc _ (le32 L)).
    apply skipn_app_exact. rewrite !app_length, Hf, Ht. reflexivity. }
  rewrite H28. rewrite (firstn_app_exact (le32 L) _ 4 eq_refl). rewrite le32_roundtrip by exact HL.
  destruct (max_data_len <? L) eqn:E; [apply N.ltb_lt in E; lia|].
  unfold L. rewrite !Nat2N.id. fold L.
  destruct (length (f_data f ++ rest) <? length (f_data f))%nat eqn:E2.
  { apply Nat.ltb_lt in E2. rewrite app_length in E2. lia. }
  rewrite (firstn_app_exact _ _ _ eq_refl), (skipn_app_exact _ _ _ eq_refl).
  destruct f as [port kind pid from to dlen data]. cbn [f_port f_kind f_pid f_from f_to f_datalen f_data hdr] in *.
  f_equal. f_equal.
  - unfold hdr; cbn [f_port f_kind f_pid f_from f_to f_data app skipn]. apply firstn_app_exact. exact Hf.
  - unfold hdr; cbn [f_port f_kind f_pid f_from f_to f_data]. rewrite (app_assoc [port; 0; 0; 0; kind; 0; pid; 0] from).
    rewrite (skipn_app_exact _ _ 18) by (rewrite app_length, Hf; reflexivity). apply firstn_app_exact. exact Ht.
  - symmetry. exact Hd.
Qed.

(* chunking of the stream is irrelevant because the reader works on the stream (io.ReadFull):
   chunking_irrelevant is this theorem with the stream given in pieces *)
Theorem read_frames_concat fs : Forall wf_frame fs ->
  forall fuel, (length fs < fuel)%nat -> agw_read_frames fuel (concat (map agw_encode fs)) = (fs, RdEOF).
Proof.
  induction fs as [|f fs IH]; intros Hw fuel Hf.
  - destruct fuel; [lia|]. reflexivity.
  - destruct fuel as [|k]; [lia|]. inversion Hw as [|? ? H1 H2]; subst.
    cbn [map concat agw_read_frames]. rewrite read_encode by exact H1.
    rewrite IH; [reflexivity|exact H2|cbn in Hf; lia].
Qed.

Theorem chunking_irrelevant (chunks : list bytes) fs : Forall wf_frame fs ->
  concat chunks = concat (map agw_encode fs) ->
  agw_read_frames (S (length fs)) (concat chunks) = (fs, RdEOF).
Proof. intros Hw E. rewrite E. apply read_frames_concat; [exact Hw|lia]. Qed.

(* a header announcing more than the limit (max_data_len is frame.go's maxDataLen = 1 << 20) is
   refused without reading (or allocating) it *)
Theorem too_long_refused s :
  (36 <= length s)%nat -> max_data_len < le_to_N (firstn 4 (skipn 28 (firstn 36 s))) -> agw_read_frame s = RdTooLong.
Proof.
  intros Hl Hd. unfold agw_read_frame. destruct s as [|x s']; [cbn in Hl; lia|].
  destruct (length (x :: s') <? 36)%nat eqn:E; [apply Nat.ltb_lt in E; lia|].
  apply N.ltb_lt in Hd. rewrite Hd. reflexivity.
Qed.

Lemma conn_reads_prefix sizes : forall pending frames,
  exists rest, pending ++ concat frames = concat (conn_reads pending frames sizes) ++ rest.
Proof.
  induction sizes as [|n r IH]; intros pending frames.
  - exists (pending ++ concat frames). reflexivity.
  - cbn [conn_reads]. unfold conn_read. destruct pending as [|p ps].
    + destruct frames as [|d fr]; [exists []; reflexivity|].
      destruct (IH (skipn n d) fr) as [rest Hr]. exists rest.
      cbn [concat app]. rewrite <- app_assoc, <- Hr, app_assoc, firstn_skipn. reflexivity.
    + destruct (IH (skipn n (p :: ps)) frames) as [rest Hr]. exists rest.
      cbn [concat]. rewrite <- app_assoc, <- Hr, app_assoc, firstn_skipn. reflexivity.
Qed.

Fixpoint total (sizes : list nat) : nat := match sizes with [] => O | n :: r => (n + total r)%nat end.

Lemma conn_reads_all sizes : forall pending frames,
  Forall (fun n => (0 < n)%nat) sizes ->
  (length (pending ++ concat frames) + length frames <= length sizes)%nat ->
  Forall (fun d => d <> []) frames ->
  concat (conn_reads pending frames sizes) = pending ++ concat frames.
Proof.
  induction sizes as [|n r IH]; intros pending frames Hs Hl Hne.
  - cbn in Hl. destruct pending; [|cbn in Hl; lia]. destruct frames; [reflexivity|cbn in Hl; lia].
  - inversion Hs as [|? ? Hn Hr]; subst. cbn [conn_reads]. unfold conn_read. destruct pending as [|p ps].
    + destruct frames as [|d fr]; [reflexivity|]. inversion Hne as [|? ? Hd Hfr]; subst.
      cbn [concat app]. rewrite IH; [rewrite app_assoc, firstn_skipn; reflexivity|exact Hr| |exact Hfr].
      cbn [length app concat] in *. rewrite !app_length in *. rewrite skipn_length.
      destruct d; [congruence|]. cbn [length] in *. lia.
    + cbn [concat]. rewrite IH; [rewrite app_assoc, firstn_skipn; reflexivity|exact Hr| |exact Hne].
      rewrite !app_length in *. rewrite skipn_length. cbn [length] in *. lia.
Qed.

Theorem delivered_frames port peer f :
  conn_delivers port peer f = true ->
  f_port f = port /\ (f_from f = pad10 peer \/ f_to f = pad10 peer) /\ f_kind f = agw_kindConnectedData.
Proof.
  unfold conn_delivers, want. cbn [fl_port fl_call fl_to fl_kinds].
  intros H. repeat rewrite andb_true_r in H. cbn [andb] in H.
  apply andb_true_iff in H. destruct H as [H H3]. apply andb_true_iff in H. destruct H as [H1 H2].
  cbn [existsb] in H3. rewrite orb_false_r in H3.
  apply N.eqb_eq in H1. apply N.eqb_eq in H3. apply orb_true_iff in H2.
  repeat split; auto. destruct H2 as [H2|H2]; apply beq_bytes_true in H2; auto.
Qed.

Lemma pad10_length s : length (pad10 s) = 10%nat.
Proof.
  unfold pad10. rewrite firstn_length, app_length.
  assert (length (repeatN 0 10) = 10%nat) by reflexivity. lia.
Qed.

(* 240 is the PID 0xf0 that connectedDataFrame (frame_kinds.go) gives every data frame *)
Theorem writes_frames port mycall peer writes :
  port < 256 -> Forall (fun w => N.of_nat (length w) <= max_data_len) writes ->
  let fs := conn_writes port mycall peer writes in
  Forall wf_frame fs /\
  Forall (fun f => f_port f = port /\ f_from f = pad10 mycall /\ f_to f = pad10 peer /\ f_pid f = 240
                   /\ f_kind f = agw_kindConnectedData) fs /\
  concat (map f_data fs) = concat writes.
Proof.
  intros Hp Hw fs. unfold fs, conn_writes. repeat split.
  - apply Forall_map. eapply Forall_impl; [|exact Hw]. intros w Hl.
    unfold wf_frame, data_frame, mk. cbn [f_port f_kind f_pid f_from f_to f_datalen f_data]. rewrite !pad10_length.
    repeat split; auto; try reflexivity; try lia.
  - apply Forall_map. apply Forall_forall. intros w _. cbn. repeat split; reflexivity.
  - rewrite map_map. cbn [data_frame mk f_data]. f_equal. apply map_id.
Qed.

Theorem writes_roundtrip port mycall peer writes :
  port < 256 -> Forall (fun w => N.of_nat (length w) <= max_data_len) writes ->
  let fs := conn_writes port mycall peer writes in
  agw_read_frames (S (length fs)) (concat (map agw_encode fs)) = (fs, RdEOF).
Proof.
  intros Hp Hw fs. apply read_frames_concat; [|lia].
  apply (writes_frames port mycall peer writes Hp Hw).
Qed.
