(* Transport/ArdopP.v — ARDOP host interface (C14): frames written by the TNC side decode to
   the items framed (serial with CRC and "c:"/"d:" prefixes, TCP without), the data frame Write
   produces parses on the TNC side, the CRCFAULT retry sends the same frame at most three times,
   and the control loop keeps PTT requests and ARQ payloads in order. *)
From Coq Require Import List NArith ZArith Bool Lia.
From Verif Require Import Base.Bytes Base.BytesP Base.Utf8 Transport.Ardop.
Import ListNotations.
Open Scope N_scope.

Lemma crc_step_bound sum bit : sum < 65536 -> crc_step sum bit < 65536.
Proof.
  intros H. unfold crc_step. destruct (N.testbit sum 15); destruct bit;
    try (apply N.mod_lt; discriminate).
Qed.

(* s < 65536 is kept by every step of both folds: over the bytes, and over the bits of a byte *)
Theorem crc16_bound data : ardop_crc16 data < 65536.
Proof.
  apply (fold_left_inv (fun s => s < 65536)); [|reflexivity].
  intros s b. apply (fold_left_inv (fun s => s < 65536)). intros s' i. apply crc_step_bound.
Qed.

Lemma be16_length n : length (be16 n) = 2%nat.
Proof. reflexivity. Qed.

Lemma take_crc_ok isTCP data rest f :
  take_crc isTCP data (pfx isTCP (be16 (ardop_crc16 data)) ++ rest) f = AFrame f rest.
Proof.
  unfold take_crc, pfx. destruct isTCP; [reflexivity|].
  unfold be16. cbn [app]. fold (be16 (ardop_crc16 data)).
  rewrite be16_roundtrip by apply crc16_bound. rewrite N.eqb_refl. reflexivity.
Qed.

Theorem read_cmd_body isTCP s rest : ~ In 13 s ->
  read_body 99 isTCP (s ++ [13] ++ pfx isTCP (be16 (ardop_crc16 (s ++ [13]))) ++ rest) = AFrame (AFCmd s) rest.
Proof.
  intros Hn. unfold read_body. cbn [N.eqb Pos.eqb]. cbn [app].
  rewrite split_at_app by exact Hn. apply take_crc_ok.
Qed.

Theorem read_data_body isTCP typ p rest : length typ = 3%nat -> N.of_nat (length p) + 3 <= 65535 ->
  read_body 100 isTCP (be16 (N.of_nat (length (typ ++ p))) ++ typ ++ p
                       ++ pfx isTCP (be16 (ardop_crc16 (be16 (N.of_nat (length (typ ++ p))) ++ typ ++ p))) ++ rest)
  = AFrame (AFData typ p) rest.
Proof.
  intros Ht Hp. unfold read_body. cbn [N.eqb Pos.eqb].
  set (n := N.of_nat (length (typ ++ p))).
  assert (Hn : n < 65536) by (unfold n; rewrite app_length; lia).
  set (crc := pfx isTCP (be16 (ardop_crc16 (be16 n ++ typ ++ p)))).
  assert (Hbe : be_to_N (be16 n) = n) by (apply be16_roundtrip; exact Hn).
  unfold be16 in *. cbn [app].
  set (hi := (n / 256) mod 256) in *. set (lo := n mod 256) in *.
  rewrite Hbe.
  set (body := hi :: lo :: typ ++ p ++ crc ++ rest).
  assert (Hlen : (N.to_nat n + 2 = length (hi :: lo :: typ ++ p))%nat).
  { unfold n. cbn [length]. rewrite Nat2N.id. lia. }
  assert (Hb : body = (hi :: lo :: typ ++ p) ++ crc ++ rest).
  { unfold body. cbn [app]. rewrite <- app_assoc. reflexivity. }
  destruct (length body <? N.to_nat n + 2)%nat eqn:E.
  { apply Nat.ltb_lt in E. rewrite Hb, app_length in E. lia. }
  rewrite Hb. rewrite firstn_app_exact by (symmetry; exact Hlen).
  rewrite skipn_app_exact by (symmetry; exact Hlen).
  destruct (N.to_nat n + 2 <? 5)%nat eqn:E5.
  { apply Nat.ltb_lt in E5. unfold n in E5. rewrite app_length, Nat2N.id in E5. lia. }
  cbn [skipn firstn].
  destruct typ as [|t1 [|t2 [|t3 [|t4 tr]]]]; cbn in Ht; try discriminate.
  cbn [app firstn skipn]. unfold crc. cbn [app]. apply take_crc_ok.
Qed.

(* serial: the "d:" / "c:" prefix is read as the frame type, dispatched through '*' *)
Lemma read_frame_typed (isTCP : bool) t body fuel : t <> 42 ->
  read_frame (S fuel) (if isTCP then t else 42) isTCP (pfx isTCP [t; 58] ++ body) = read_body t isTCP body.
Proof.
  intros Ht. apply N.eqb_neq in Ht. destruct isTCP; cbn [pfx app read_frame N.eqb Pos.eqb tl]; [|destruct fuel];
    cbn [read_frame]; rewrite Ht; reflexivity.
Qed.

Theorem read_data_frame (isTCP : bool) typ p rest fuel : length typ = 3%nat -> N.of_nat (length p) + 3 <= 65535 ->
  read_frame (S fuel) (if isTCP then 100%N else 42%N) isTCP (tnc_data isTCP typ p ++ rest) = AFrame (AFData typ p) rest.
Proof.
  intros Ht Hp. unfold tnc_data. rewrite <- !app_assoc, (read_frame_typed isTCP 100) by discriminate.
  apply (read_data_body isTCP typ p rest Ht Hp).
Qed.

Theorem read_cmd_frame (isTCP : bool) s rest fuel : ~ In 13 s ->
  read_frame (S fuel) (if isTCP then 99%N else 42%N) isTCP (tnc_cmd isTCP s ++ rest) = AFrame (AFCmd s) rest.
Proof.
  intros Hn. unfold tnc_cmd. rewrite <- !app_assoc, (read_frame_typed isTCP 99) by discriminate.
  apply (read_cmd_body isTCP s rest Hn).
Qed.

Inductive item := ICmd (s : bytes) | IData (typ p : bytes).
Definition wf_item (it : item) : Prop :=
  match it with
  | ICmd s => ~ In 13 s
  | IData typ p => length typ = 3%nat /\ N.of_nat (length p) + 3 <= 65535
  end.
Definition enc_item (isTCP : bool) (it : item) : bytes :=
  match it with ICmd s => tnc_cmd isTCP s | IData typ p => tnc_data isTCP typ p end.
Definition fr_item (it : item) : afr :=
  match it with ICmd s => AFCmd s | IData typ p => AFData typ p end.
(* serial: any mix on the one stream; TCP: commands on the control stream, data on the data stream *)
Definition on_stream (isTCP : bool) (ftype : N) (it : item) : Prop :=
  match it with
  | ICmd _ => ftype = (if isTCP then 99 else 42)
  | IData _ _ => ftype = (if isTCP then 100 else 42)
  end.
Definition stream_type (isTCP : bool) (ftype : N) : Prop :=
  if isTCP then ftype = 99 \/ ftype = 100 else ftype = 42.

Lemma read_item isTCP ftype it rest fuel : wf_item it -> on_stream isTCP ftype it ->
  read_frame (S fuel) ftype isTCP (enc_item isTCP it ++ rest) = AFrame (fr_item it) rest.
Proof.
  intros Hw Hs. destruct it as [s|typ p]; cbn [enc_item fr_item on_stream wf_item] in *; subst ftype.
  - apply read_cmd_frame. exact Hw.
  - destruct Hw as [H1 H2]. apply read_data_frame; assumption.
Qed.

Lemma read_empty isTCP ftype fuel : stream_type isTCP ftype -> exists r, read_frame fuel ftype isTCP [] = AErr AEEOF r.
Proof.
  unfold stream_type. destruct isTCP; intros H.
  - destruct H; subst; destruct fuel; cbn; eexists; reflexivity.
  - subst. destruct fuel; cbn; eexists; reflexivity.
Qed.

Lemma enc_item_nonempty isTCP it : (1 <= length (enc_item isTCP it))%nat.
Proof.
  destruct it as [s|typ p]; cbn [enc_item]; unfold tnc_cmd, tnc_data; cbv zeta; unfold be16; rewrite !app_length; cbn [length]; lia.
Qed.

Lemma concat_enc_length isTCP items : (length items <= length (concat (map (enc_item isTCP) items)))%nat.
Proof.
  induction items as [|it r IH]; cbn [map concat length]; [lia|].
  rewrite app_length. pose proof (enc_item_nonempty isTCP it). lia.
Qed.

Theorem decode_stream_items isTCP ftype items : stream_type isTCP ftype ->
  Forall wf_item items -> Forall (on_stream isTCP ftype) items ->
  forall fuel, (length items < fuel)%nat ->
  decode_stream fuel ftype isTCP (concat (map (enc_item isTCP) items)) = map (fun it => inl (fr_item it)) items ++ [inr AEEOF].
Proof.
  intros Hst. induction items as [|it r IH]; intros Hw Hs fuel Hf.
  - destruct fuel; [cbn in Hf; lia|]. cbn [map concat decode_stream app length].
    destruct (read_empty isTCP ftype 1 Hst) as [x Hx]. rewrite Hx. reflexivity.
  - destruct fuel as [|k]; [lia|]. inversion Hw as [|? ? Hw1 Hw2]; subst. inversion Hs as [|? ? Hs1 Hs2]; subst.
    cbn [map concat decode_stream]. rewrite read_item by assumption.
    cbn [app]. f_equal. apply IH; [assumption|assumption|cbn [length] in Hf; lia].
Qed.

Theorem ardop_decode_items isTCP ftype items : stream_type isTCP ftype ->
  Forall wf_item items -> Forall (on_stream isTCP ftype) items ->
  ardop_decode ftype isTCP (concat (map (enc_item isTCP) items)) = map (fun it => inl (fr_item it)) items ++ [inr AEEOF].
Proof.
  intros Hst Hw Hs. unfold ardop_decode. apply decode_stream_items; try assumption.
  pose proof (concat_enc_length isTCP items). lia.
Qed.

Lemma max_write_N : N.of_nat max_write = 65535.
Proof. unfold max_write. apply N2Nat.id. Qed.

Lemma write_length_bound (p : bytes) : N.of_nat (length (firstn max_write p)) < 65536.
Proof. rewrite firstn_length. pose proof max_write_N. lia. Qed.

(* q is a variable: with firstn max_write p in its place, conversion unfolds max_write into a
   unary numeral of 65535 successors *)
Lemma host_data_parses isTCP q : N.of_nat (length q) < 65536 -> tnc_parse_data isTCP (host_data isTCP q) = Some q.
Proof.
  intros Hq. unfold host_data, tnc_parse_data.
  assert (Hbe : be_to_N (be16 (N.of_nat (length q))) = N.of_nat (length q)) by (apply be16_roundtrip; exact Hq).
  destruct isTCP; cbn [pfx app].
  - unfold be16 in *. cbn [app]. rewrite Hbe, Nat2N.id, app_nil_r.
    rewrite firstn_all, skipn_all, Nat.eqb_refl. reflexivity.
  - unfold be16 at 1. cbn [app]. unfold be16 in Hbe. rewrite Hbe, Nat2N.id.
    rewrite firstn_app_exact by reflexivity. rewrite skipn_app_exact by reflexivity.
    rewrite Nat.eqb_refl. cbn [negb].
    set (body := be16 (N.of_nat (length q)) ++ q).
    change ((N.of_nat (length q) / 256) mod 256 :: N.of_nat (length q) mod 256 :: q) with body.
    pose proof (be16_roundtrip (ardop_crc16 body) (crc16_bound body)) as Hc.
    unfold be16 in Hc |- *. rewrite Hc, N.eqb_refl. reflexivity.
Qed.

Theorem write_frame_parses isTCP p :
  tnc_parse_data isTCP (fst (ardop_write isTCP p)) = Some (firstn max_write p) /\
  snd (ardop_write isTCP p) = Nat.min max_write (length p).
Proof. split; [apply host_data_parses, write_length_bound|apply firstn_length]. Qed.

Lemma write_try_sent left frame n resps :
  Forall (fun f => f = frame) (fst (write_try left frame n resps)) /\ (length (fst (write_try left frame n resps)) <= left)%nat.
Proof.
  revert resps. induction left as [|l IH]; intros resps; cbn [write_try fst length]; [split; [constructor|lia]|].
  destruct resps as [|[ | | ] r]; cbn [fst length]; try (split; [repeat constructor|lia]).
  specialize (IH r). destruct (write_try l frame n r) as [fs res]. cbn [fst length] in *.
  destruct IH as [H1 H2]. split; [constructor; [reflexivity|exact H1]|lia].
Qed.

Theorem write_ok_kept_once left frame n resps m :
  snd (write_try left frame n resps) = AWOk m ->
  m = n /\ tnc_kept (fst (write_try left frame n resps)) resps = [frame].
Proof.
  revert resps. induction left as [|l IH]; intros resps H; cbn [write_try snd fst] in *; [discriminate|].
  destruct resps as [|[ | | ] r]; cbn [snd fst] in *; try discriminate.
  - inversion H; subst. split; reflexivity.
  - specialize (IH r). destruct (write_try l frame n r) as [fs res]. cbn [snd fst] in *.
    destruct (IH H) as [H1 H2]. split; [exact H1|]. cbn [tnc_kept]. exact H2.
Qed.

Theorem write_three_faults frame n r : fst (write_try 3 frame n (ARCrcFault :: ARCrcFault :: ARCrcFault :: r)) = [frame; frame; frame]
  /\ snd (write_try 3 frame n (ARCrcFault :: ARCrcFault :: ARCrcFault :: r)) = AWCrcFail.
Proof. split; reflexivity. Qed.

Definition arq_of (f : afr) : list bytes :=
  match f with AFData typ p => if beq_bytes typ [65; 82; 81] then [p] else [] | _ => [] end.
Definition keeps_link (f : afr) : Prop :=
  match f with
  | AFCmd line =>
      match parse_ctrl line with
      | Some (cmd, VNone) => beq_bytes cmd [68; 73; 83; 67; 79; 78; 78; 69; 67; 84; 69; 68] = false
      | Some (cmd, VState s) => beq_bytes cmd [78; 69; 87; 83; 84; 65; 84; 69] = true -> s <> 2
      | _ => True
      end
  | _ => True
  end.
(* the value of a BUFFER report *)
Definition buffer_of (f : afr) : option Z :=
  match f with
  | AFCmd line =>
      match parse_ctrl line with
      | Some (cmd, VInt n) => if beq_bytes cmd [66; 85; 70; 70; 69; 82] then Some n else None
      | _ => None
      end
  | _ => None
  end.

(* the dispatch, field by field, in terms of what the frame asks for. Each clause of ctrl_step is
   guarded by its command name; NEWSTATE ends the link when the new state is 2 (Disconnected, the
   third of ardop.go's State constants and "DISC" in ardop_state_map; keeps_link rules it out),
   BUFFER releases the flush lock when the count is 0. *)
Lemma ctrl_step_fields c f :
  cs_ptt (ctrl_step c f) = cs_ptt c ++ ptt_of f /\
  cs_queue (ctrl_step c f) = cs_queue c ++ (if cs_connected c then arq_of f else []) /\
  (keeps_link f -> cs_connected (ctrl_step c f) = cs_connected c) /\
  cs_flush_locked (ctrl_step c f) = match buffer_of f with Some 0%Z => false | _ => cs_flush_locked c end.
Proof.
  destruct f as [line|typ p]; cbn [ctrl_step ptt_of arq_of keeps_link buffer_of].
  - destruct (parse_ctrl line) as [[cmd [ |b|s|str|l|z]]|];
      [ destruct (beq_bytes cmd _)                                           (* DISCONNECTED *)
      | destruct (beq_bytes cmd _)                                           (* PTT b *)
      | destruct (beq_bytes cmd _); [destruct (N.eqb_spec s 2) as [->|Hs]|]  (* NEWSTATE s *)
      | |
      | destruct (beq_bytes cmd _); [destruct z as [|pz|pz]|]                (* BUFFER z *)
      | ];
      unfold cs_eof; cbn [cs_connected]; destruct (cs_connected c);
      cbn [cs_connected cs_queue cs_ptt cs_flush_locked]; rewrite !app_nil_r; repeat split;
      reflexivity || discriminate || (intros Hk; destruct (Hk eq_refl eq_refl)).
  - destruct (beq_bytes typ _); cbn [andb]; destruct (cs_connected c) eqn:Ec;
      cbn [cs_connected cs_queue cs_ptt cs_flush_locked]; rewrite !app_nil_r; repeat split;
      reflexivity || (intros _; exact Ec).
Qed.

Theorem ctrl_run_ptt fs : forall c, cs_ptt (ctrl_run c fs) = cs_ptt c ++ flat_map ptt_of fs.
Proof.
  induction fs as [|f r IH]; intros c; cbn [ctrl_run fold_left flat_map]; [symmetry; apply app_nil_r|].
  unfold ctrl_run in IH. rewrite IH, (proj1 (ctrl_step_fields c f)), app_assoc. reflexivity.
Qed.

Theorem ctrl_run_queue fs : forall c, cs_connected c = true -> Forall keeps_link fs ->
  cs_queue (ctrl_run c fs) = cs_queue c ++ flat_map arq_of fs.
Proof.
  induction fs as [|f r IH]; intros c Hc Hk; cbn [ctrl_run fold_left flat_map]; [symmetry; apply app_nil_r|].
  inversion Hk as [|? ? H1 H2]; subst. destruct (ctrl_step_fields c f) as [_ [Hq [Hc' _]]].
  rewrite Hc in Hq. unfold ctrl_run in IH. rewrite IH, Hq, app_assoc; [reflexivity| |exact H2].
  rewrite (Hc' H1). exact Hc.
Qed.

(* parseCtrlMsg indexes nothing out of range, whatever the TNC sends *)
Theorem parse_ctrl_total s : parse_ctrl s <> None.
Proof.
  unfold parse_ctrl, split2. destruct (split_at 32 (trim_space_go s)) as [a [b|]]; cbn; discriminate.
Qed.
