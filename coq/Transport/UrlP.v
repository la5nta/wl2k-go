(* Transport/UrlP.v — C19: parse_url inverts compose_path (path.Split, trimming and splitting on
   '/' give back the components, upper-cased); the registry's association list refines "the
   dialer registered last and not unregistered since" (spec_run). *)
From Coq Require Import Lia ZifyN ZifyNat ZifyBool.
From Verif Require Import Base.Bytes Base.BytesP Transport.Url.
Open Scope N_scope.

Definition noslash (s : bytes) : Prop := Forall (fun b => b <> SLASH) s.

Lemma to_upper_slash b : to_upper b = SLASH <-> b = SLASH.
Proof.
  unfold to_upper, is_lower, SLASH.
  destruct ((97 <=? b) && (b <=? 122)) eqn:E; split; intros H; lia.
Qed.

Lemma upper_noslash s : noslash s -> noslash (upper s).
Proof.
  unfold noslash, upper. intros H. apply Forall_map.
  eapply Forall_impl; [|exact H]. intros b Hb Hc. apply (proj1 (to_upper_slash b)) in Hc. exact (Hb Hc).
Qed.

Lemma upper_join ds : upper (join_with SLASH ds) = join_with SLASH (map upper ds).
Proof.
  unfold upper. induction ds as [|d r IH]; [reflexivity|]. destruct r as [|d2 r']; [reflexivity|].
  change (join_with SLASH (d :: d2 :: r')) with (d ++ SLASH :: join_with SLASH (d2 :: r')).
  rewrite map_app. cbn [map]. rewrite IH. reflexivity.
Qed.

Lemma upper_compose digis target :
  upper (compose_path digis target) = compose_path (map upper digis) (upper target).
Proof.
  unfold compose_path.
  change (upper (SLASH :: join_with SLASH (digis ++ [target]))) with (SLASH :: upper (join_with SLASH (digis ++ [target]))).
  rewrite upper_join, map_app. reflexivity.
Qed.

Lemma split_last_slash_rev_spec t pre acc :
  noslash t ->
  split_last_slash_rev (rev t ++ SLASH :: pre) acc = (rev (SLASH :: pre), t ++ acc).
Proof.
  intros Ht. revert acc. induction t as [|x t IH] using rev_ind; intros acc.
  - cbn. reflexivity.
  - rewrite rev_app_distr. cbn [rev app].
    apply Forall_app in Ht. destruct Ht as [Ht Hx]. inversion Hx as [|? ? Hx1 _]; subst.
    cbn [split_last_slash_rev]. destruct (x =? SLASH) eqn:E; [apply N.eqb_eq in E; contradiction|].
    rewrite IH by assumption. rewrite <- app_assoc. reflexivity.
Qed.

Lemma path_split_spec pre t :
  noslash t -> path_split (pre ++ SLASH :: t) = (pre ++ [SLASH], t).
Proof.
  intros Ht. unfold path_split. rewrite rev_app_distr. cbn [rev]. rewrite <- app_assoc. cbn [app].
  rewrite split_last_slash_rev_spec by assumption. cbn [rev]. rewrite rev_involutive, app_nil_r.
  reflexivity.
Qed.

Lemma trim_left_id c s : hd c s <> c -> trim_left c s = s.
Proof.
  destruct s as [|x s]; [reflexivity|]. cbn [hd trim_left]. intros H.
  destruct (x =? c) eqn:E; [apply N.eqb_eq in E; contradiction|reflexivity].
Qed.

Lemma hd_rev_last (d : N) j : hd d (rev j) = last j d.
Proof. destruct j as [|z j _] using rev_ind; [reflexivity|]. rewrite rev_app_distr, last_last. reflexivity. Qed.

Lemma trim_both c j :
  j <> [] -> hd c j <> c -> last j c <> c -> trim c (c :: j ++ [c]) = j.
Proof.
  intros Hne Hh Hl. unfold trim. cbn [trim_left]. rewrite N.eqb_refl.
  destruct j as [|x j']; [congruence|]. cbn [hd] in Hh.
  cbn [app trim_left]. destruct (x =? c) eqn:E; [apply N.eqb_eq in E; contradiction|].
  change (x :: j' ++ [c]) with ((x :: j') ++ [c]). rewrite rev_app_distr. cbn [rev app trim_left].
  rewrite N.eqb_refl. change (rev j' ++ [x]) with (rev (x :: j')).
  rewrite trim_left_id by (rewrite hd_rev_last; exact Hl).
  apply rev_involutive.
Qed.

Definition component (d : bytes) : Prop := d <> [] /\ noslash d.

Lemma join_hd_last ds :
  ds <> [] -> Forall component ds ->
  let j := join_with SLASH ds in j <> [] /\ hd SLASH j <> SLASH /\ last j SLASH <> SLASH.
Proof.
  intros Hne H. cbv zeta. split; [|split].
  - destruct H as [|[|x d] r [Hd _] _]; [congruence..|]. destruct r; discriminate.
  - (* the first byte is the first byte of the first component *)
    destruct H as [|[|x d] r [Hd Hs] _]; [congruence..|]. inversion Hs. destruct r; assumption.
  - (* the last byte is the last byte of the last component *)
    destruct (exists_last Hne) as [ds' [t ->]]. apply Forall_app in H. destruct H as [_ Ht].
    inversion Ht as [|? ? [Ht1 Ht2] _]; subst. destruct (exists_last Ht1) as [t' [z ->]].
    apply Forall_app in Ht2. destruct Ht2 as [_ Hz]. inversion Hz; subst.
    rewrite join_snoc. destruct ds'; [|change (SLASH :: t' ++ [z]) with ((SLASH :: t') ++ [z]); rewrite app_assoc];
      rewrite last_last; assumption.
Qed.

Lemma component_upper d : component d -> component (upper d).
Proof.
  intros [H1 H2]. split; [|apply upper_noslash; exact H2].
  destruct d; [congruence|discriminate].
Qed.

Theorem parse_url_components scheme host hostparam digis target :
  Forall component digis -> noslash target -> (3 <= length target)%nat ->
  let u := {| u_scheme := scheme;
              u_host := match hostparam with [] => host | h => h end;
              u_target := upper target;
              u_digis := map upper digis |} in
  parse_url {| pu_scheme := scheme; pu_host := host;
               pu_path := compose_path digis target; pu_host_param := hostparam |}
  = match digis with
    | [] => UrlOk u
    | _ :: _ => if beq_bytes scheme str_ardop || beq_bytes scheme str_telnet
                then UrlDigisUnsupported u else UrlOk u
    end.
Proof.
  intros Hd Ht Hl u. unfold parse_url. cbn [pu_path pu_scheme pu_host pu_host_param].
  rewrite upper_compose.
  set (D := map upper digis). set (T := upper target).
  assert (HT : noslash T) by (apply upper_noslash; exact Ht).
  assert (HD : Forall component D).
  { unfold D. apply Forall_map. eapply Forall_impl; [|exact Hd]. apply component_upper. }
  assert (HlT : (length T <? 3)%nat = false).
  { apply Nat.ltb_ge. unfold T, upper. rewrite map_length. exact Hl. }
  unfold compose_path. rewrite join_snoc.
  destruct D as [|d0 D'] eqn:ED.
  - (* no digis *)
    change (SLASH :: T) with ([] ++ SLASH :: T). rewrite path_split_spec by exact HT.
    rewrite HlT. cbn.
    destruct digis; [destruct hostparam; reflexivity|unfold D in ED; discriminate ED].
  - change (SLASH :: join_with SLASH (d0 :: D') ++ SLASH :: T)
      with ((SLASH :: join_with SLASH (d0 :: D')) ++ SLASH :: T).
    rewrite path_split_spec by exact HT. rewrite HlT.
    destruct (join_hd_last (d0 :: D') ltac:(discriminate) HD) as [J1 [J2 J3]].
    change ((SLASH :: join_with SLASH (d0 :: D')) ++ [SLASH])
      with (SLASH :: join_with SLASH (d0 :: D') ++ [SLASH]).
    rewrite trim_both by assumption.
    rewrite split_join; [|discriminate|].
    2:{ eapply Forall_impl; [|exact HD]. intros a [_ Ha]. exact Ha. }
    destruct digis as [|g gs]; [discriminate|].
    inversion HD as [|? ? [Hd0 _] _]; subst.
    destruct d0 as [|y d0']; [congruence|].
    unfold u. fold D. rewrite ED. destruct hostparam; reflexivity.
Qed.

Theorem parse_url_short_target p :
  (length (snd (path_split (upper (pu_path p)))) < 3)%nat -> parse_url p = UrlInvalidTarget.
Proof.
  intros H. unfold parse_url. destruct (path_split (upper (pu_path p))) as [via target].
  cbn [snd] in H. apply Nat.ltb_lt in H. rewrite H. reflexivity.
Qed.

Lemma beq_bytes_refl a : beq_bytes a a = true.
Proof. exact (BytesP.beq_bytes_refl a). Qed.

Lemma lookup_remove_same r s : reg_lookup (reg_remove r s) s = None.
Proof.
  induction r as [|[k v] r IH]; [reflexivity|]. cbn [reg_remove].
  destruct (beq_bytes k s) eqn:E; [exact IH|]. cbn [reg_lookup]. rewrite E. exact IH.
Qed.

Lemma lookup_remove_other r s t :
  beq_bytes s t = false -> reg_lookup (reg_remove r s) t = reg_lookup r t.
Proof.
  intros Hst. induction r as [|[k v] r IH]; [reflexivity|]. cbn [reg_remove].
  destruct (beq_bytes k s) eqn:E.
  - apply beq_bytes_true in E. subst k. cbn [reg_lookup]. rewrite Hst. exact IH.
  - cbn [reg_lookup]. destruct (beq_bytes k t); [reflexivity|exact IH].
Qed.

Definition abs_ok (r : registry) (h : list reg_op) : Prop :=
  forall s, reg_lookup r s = last_registered h s.

Lemma reg_step_abs r h o : abs_ok r h -> abs_ok (fst (reg_step r o)) (o :: h).
Proof.
  intros H s. destruct o as [k d|k|k]; cbn [reg_step fst last_registered].
  - cbn [reg_lookup]. destruct (beq_bytes k s) eqn:E; [reflexivity|].
    rewrite lookup_remove_other by exact E. apply H.
  - destruct (beq_bytes k s) eqn:E.
    + apply beq_bytes_true in E. subst. apply lookup_remove_same.
    + rewrite lookup_remove_other by exact E. apply H.
  - apply H.
Qed.

Theorem reg_run_refines r h ops : abs_ok r h -> reg_run r ops = spec_run h ops.
Proof.
  revert r h. induction ops as [|o ops IH]; intros r h H; [reflexivity|].
  pose proof (reg_step_abs r h o H) as H'.
  destruct o as [k d|k|k]; cbn [reg_run reg_step spec_run] in *.
  - apply IH. exact H'.
  - apply IH. exact H'.
  - rewrite (H k). f_equal. apply IH. exact H'.
Qed.

Theorem reg_run_spec ops : reg_run [] ops = spec_run [] ops.
Proof. apply reg_run_refines. intros s. reflexivity. Qed.
