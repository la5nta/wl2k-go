(* Transport/PipelineP.v — for EVERY schedule the pipeline delivers an order-preserving
   sub-sequence of what the TNC sent (nothing reordered, duplicated or invented), and exactly
   what it sent when no Enqueue found its queue full. *)
From Coq Require Import List Arith Bool Lia.
From Verif Require Import Base.BytesP Transport.Pipeline.
Import ListNotations.

Section PipeP.
  Variable frame : Type.
  Notation stage := (stage frame).
  Notation pstate := (pstate frame).
  Notation subseq := (subseq frame).

  Definition content (s : pstate) : list frame := delivered s ++ in_flight frame (stages s).

  Lemma subseq_refl l : subseq l l.
  Proof. induction l; constructor; assumption. Qed.

  Lemma subseq_trans a b c : subseq a b -> subseq b c -> subseq a c.
  Proof.
    intros H1 H2. revert a H1. induction H2 as [l|x b c H IH|x b c H IH]; intros a H1.
    - inversion H1; constructor.
    - inversion H1; subst; [constructor|apply sub_take; apply IH; assumption|apply sub_skip; apply IH; assumption].
    - apply sub_skip. apply IH. exact H1.
  Qed.

  Lemma subseq_app_tail a b x : subseq a b -> subseq (a ++ [x]) (b ++ [x]).
  Proof.
    induction 1 as [l|y a b H IH|y a b H IH]; cbn [app].
    - induction l as [|z l IHl]; cbn [app]; [apply subseq_refl|apply sub_skip; exact IHl].
    - apply sub_take. exact IH.
    - apply sub_skip. exact IH.
  Qed.

  Lemma subseq_skip_tail a b x : subseq a b -> subseq a (b ++ [x]).
  Proof. induction 1; cbn [app]; constructor; assumption. Qed.

  Lemma subseq_remove l1 x l2 : subseq (l1 ++ l2) (l1 ++ x :: l2).
  Proof. induction l1; cbn [app]; [apply sub_skip; apply subseq_refl|apply sub_take; assumption]. Qed.

  Lemma subseq_prefix a b c : subseq (a ++ b) c -> subseq a c.
  Proof.
    intros H. apply subseq_trans with (a ++ b); [|exact H].
    clear H. induction a; cbn [app]; [constructor|apply sub_take; assumption].
  Qed.

  Lemma offer_cases (s : stage) f s' d : offer frame s f = Some (s', d) ->
    (d = false /\ st_q s' = st_q s ++ [f]) \/ (d = true /\ s' = s).
  Proof.
    unfold offer. destruct (length (st_q s) <? st_cap s); [intros H; inversion H; left; split; reflexivity|].
    destruct (st_lossy s); intros H; inversion H. right. split; reflexivity.
  Qed.

  Lemma move_at_flight i : forall ss ss' d, move_at frame i ss = Some (ss', d) ->
    (d = false /\ in_flight frame ss' = in_flight frame ss) \/
    (d = true /\ exists l1 x l2, in_flight frame ss = l1 ++ x :: l2 /\ in_flight frame ss' = l1 ++ l2).
  Proof.
    induction i as [|k IH]; intros ss ss' d H.
    - destruct ss as [|a [|b r]]; cbn [move_at] in H; try discriminate.
      destruct (st_q a) as [|f qa] eqn:Ea; [discriminate|].
      destruct (offer frame b f) as [[b' d']|] eqn:Eo; [|discriminate]. inversion H; subst.
      destruct (offer_cases _ _ _ _ Eo) as [[Hd Hq]|[Hd Hb]]; subst.
      + left. split; [reflexivity|]. cbn [in_flight with_q st_q]. rewrite Hq, Ea, <- !app_assoc. reflexivity.
      + right. split; [reflexivity|]. exists (in_flight frame r ++ st_q b), f, qa.
        cbn [in_flight with_q st_q]. rewrite Ea, <- !app_assoc. split; reflexivity.
    - destruct ss as [|a r]; cbn [move_at] in H; [discriminate|].
      destruct (move_at frame k r) as [[r' d']|] eqn:Em; [|discriminate]. inversion H; subst.
      destruct (IH _ _ _ Em) as [[Hd Hf]|[Hd [l1 [x [l2 [E1 E2]]]]]].
      + left. split; [exact Hd|]. cbn [in_flight]. rewrite Hf. reflexivity.
      + right. split; [exact Hd|]. exists l1, x, (l2 ++ st_q a). cbn [in_flight]. rewrite E1, E2, <- !app_assoc. split; reflexivity.
  Qed.

  Lemma deliver_last_cons2 a b r :
    deliver_last frame (a :: b :: r) =
    match deliver_last frame (b :: r) with Some (r', f) => Some (a :: r', f) | None => None end.
  Proof. reflexivity. Qed.

  Lemma deliver_last_flight : forall ss ss' f, deliver_last frame ss = Some (ss', f) ->
    in_flight frame ss = f :: in_flight frame ss'.
  Proof.
    induction ss as [|a r IH]; intros ss' f H; [cbn in H; discriminate|].
    destruct r as [|b r'].
    - cbn [deliver_last] in H. destruct (st_q a) as [|g q] eqn:E; [discriminate|]. inversion H; subst.
      cbn [in_flight with_q st_q app]. rewrite E. reflexivity.
    - rewrite deliver_last_cons2 in H. revert H.
      case_eq (deliver_last frame (b :: r')); [intros [r2 g] Ed H|intros _ H; discriminate].
      inversion H; subst. change (in_flight frame (a :: b :: r')) with (in_flight frame (b :: r') ++ st_q a).
      rewrite (IH _ _ Ed). reflexivity.
  Qed.

  (* what one step does to content, sent and drops: nothing; a frame accepted at the entry; a
     frame dropped at the entry; a frame in flight dropped by a move *)
  Lemma pstep_content s e :
    (content (pstep frame s e) = content s /\ sent (pstep frame s e) = sent s /\ drops (pstep frame s e) = drops s) \/
    (exists f, content (pstep frame s e) = content s ++ [f] /\ sent (pstep frame s e) = sent s ++ [f] /\
               drops (pstep frame s e) = drops s) \/
    (exists f, content (pstep frame s e) = content s /\ sent (pstep frame s e) = sent s ++ [f] /\
               drops (pstep frame s e) = S (drops s)) \/
    (exists l1 x l2, content s = l1 ++ x :: l2 /\ content (pstep frame s e) = l1 ++ l2 /\
                     sent (pstep frame s e) = sent s /\ drops (pstep frame s e) = S (drops s)).
  Proof.
    unfold content. destruct e as [f|i|]; cbn [pstep].
    - destruct (stages s) as [|a r] eqn:Es; [left; rewrite Es; auto|].
      destruct (offer frame a f) as [[a' d]|] eqn:Eo; [|left; rewrite Es; auto].
      cbn [stages delivered sent in_flight drops]. right.
      destruct (offer_cases _ _ _ _ Eo) as [[-> Hq]|[-> ->]].
      + left. exists f. rewrite Hq, !app_assoc. auto.
      + right. left. exists f. auto.
    - destruct (move_at frame i (stages s)) as [[ss d]|] eqn:Em; [|left; auto].
      cbn [stages delivered sent drops].
      destruct (move_at_flight _ _ _ _ Em) as [[-> Hf]|[-> [l1 [x [l2 [E1 E2]]]]]].
      + left. rewrite Hf. auto.
      + right. right. right. exists (delivered s ++ l1), x, l2. rewrite E1, E2, <- !app_assoc. auto.
    - destruct (deliver_last frame (stages s)) as [[ss f]|] eqn:Ed; [|left; auto].
      cbn [stages delivered sent drops]. left. rewrite (deliver_last_flight _ _ _ Ed), <- app_assoc. auto.
  Qed.

  Lemma pstep_subseq s e : subseq (content s) (sent s) -> subseq (content (pstep frame s e)) (sent (pstep frame s e)).
  Proof.
    intros H.
    destruct (pstep_content s e) as [[-> [-> _]]|[[f [-> [-> _]]]|[[f [-> [-> _]]]|[l1 [x [l2 [E [-> [-> _]]]]]]]]].
    - exact H.
    - apply subseq_app_tail. exact H.
    - apply subseq_skip_tail. exact H.
    - rewrite E in H. eapply subseq_trans; [apply subseq_remove|exact H].
  Qed.

  Lemma pstep_drops_mono s e : drops s <= drops (pstep frame s e).
  Proof.
    destruct (pstep_content s e) as [[_ [_ ->]]|[[f [_ [_ ->]]]|[[f [_ [_ ->]]]|[l1 [x [l2 [_ [_ [_ ->]]]]]]]]]; lia.
  Qed.

  Lemma pstep_exact s e : drops (pstep frame s e) = drops s -> content s = sent s ->
    content (pstep frame s e) = sent (pstep frame s e).
  Proof.
    intros Hd H.
    destruct (pstep_content s e) as [[-> [-> _]]|[[f [-> [-> _]]]|[[f [_ [_ D]]]|[l1 [x [l2 [_ [_ [_ D]]]]]]]]]; try lia.
    - exact H.
    - f_equal. exact H.
  Qed.

  (* prun is fold_left pstep: an invariant of the steps is an invariant of the run *)
  Theorem prun_subseq es : forall s, subseq (content s) (sent s) ->
    subseq (content (prun frame s es)) (sent (prun frame s es)).
  Proof. exact (fold_left_inv _ _ pstep_subseq es). Qed.

  (* drops never decrease, so a run that ends with the drops it began with has none in any step *)
  Theorem prun_exact es s : drops (prun frame s es) = drops s -> content s = sent s ->
    content (prun frame s es) = sent (prun frame s es).
  Proof.
    intros Hd H.
    apply (fold_left_inv (fun s' => drops s <= drops s' /\ (drops s' = drops s -> content s' = sent s')) (pstep frame)) with (l := es) (a := s);
      [|split; [lia|intros _; exact H]|exact Hd].
    intros s' e [M E]. pose proof (pstep_drops_mono s' e) as M1. split; [lia|].
    intros D. apply pstep_exact; [lia|apply E; lia].
  Qed.

  (* what Read has been given is, under every schedule, an order-preserving sub-sequence of
     what the TNC sent: nothing reordered, duplicated or invented *)
  Theorem delivered_subseq es s : subseq (content s) (sent s) ->
    subseq (delivered (prun frame s es)) (sent (prun frame s es)).
  Proof. intros H. eapply subseq_prefix. apply (prun_subseq es s H). Qed.

  (* and when no Enqueue ever found its queue full and the pipeline has drained, exactly what it sent *)
  Theorem delivered_all es s : drops (prun frame s es) = drops s -> content s = sent s ->
    in_flight frame (stages (prun frame s es)) = [] ->
    delivered (prun frame s es) = sent (prun frame s es).
  Proof.
    intros Hd H He. pose proof (prun_exact es s Hd H) as E. unfold content in E. rewrite He, app_nil_r in E. exact E.
  Qed.
End PipeP.
