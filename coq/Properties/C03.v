(* Properties/C03.v — no byte sequence from the remote can crash a session.
   Model: B2F/Side.v, the whole of Session.Exchange for one side as a function of the bytes
   received (after the seven fix: commits in fbb/ and the three in lzhuf/).  Every index and
   slice expression of the Go code on remote-controlled data is a checked operation in the
   model that yields XPanic when out of range. *)
From Verif Require Import B2F.TermP Base.Bytes B2F.Secure B2F.Side B2F.SideP.
From Verif Require B2F.CutP.
Open Scope N_scope.

(* For EVERY configuration (role, MOTD, handler with any outbox, answer policy and failing
   MIDs) and EVERY byte sequence received, the exchange does not panic. *)
Theorem C03_no_panic : forall cfg input, x_res (exchange cfg input) <> XPanic.
Proof. exact CutP.exchange_nopanic. Qed.
Print Assumptions C03_no_panic.

(* The session loop ends: the fuel Exchange is given in the model -- linear in the input and
   the outbox -- always suffices, because every inbound turn consumes at least one line of the
   input and no step ever lengthens what is left to read (B2F/TermP.v, B2F/CutP.v).  So for EVERY
   configuration and EVERY received byte sequence the model returns ... *)
Theorem C03_terminates : forall cfg input, x_res (exchange cfg input) <> XOutOfFuel.
Proof. exact CutP.exchange_terminates. Qed.
Print Assumptions C03_terminates.

(* ... and with the result one of: nil, connection lost, another error -- or "unknown" when a
   received message carries a date outside the modelled layouts (the harness skips those). *)
Theorem C03_result : forall cfg input,
  x_res (exchange cfg input) = XNil \/ x_res (exchange cfg input) = XConnLost
  \/ x_res (exchange cfg input) = XOther \/ x_res (exchange cfg input) = XUnknown.
Proof.
  intros cfg input. pose proof (CutP.exchange_nopanic cfg input) as Hp. pose proof (CutP.exchange_terminates cfg input) as Ht.
  destruct (x_res (exchange cfg input)); auto; congruence.
Qed.
Print Assumptions C03_result.

(* What this does NOT cover: the LZHUF reader inside Proposal.Message has its own bound in the
   model (at most 8*len+2 Read calls); a decoder that stopped making progress would show up
   there as an error, not as fuel exhaustion of the session.  That the real decoder always makes
   progress is C08's termination statement (decided per run under a watchdog). *)

(* Regression witnesses on the model of the repaired panics: a NUL line, "F>" without a
   checksum field, ";PQ" without a challenge: all end in an error, none in XPanic. *)
Definition slave_cfg : side_cfg :=
  {| c_master := false; c_motd := [];
     c_hs := {| hs_fw := [[76;65;49;66]]; hs_name := [119]; hs_version := [49]; hs_target := [88];
                hs_mycall := [76;65;49;66]; hs_locator := []; hs_master := false; hs_gzip := false; hs_cb := None |};
     c_handler := {| h_present := true; h_prepare_err := false; h_outbox := []; h_gone := [];
                     h_policy := []; h_fail := [] |} |}.
Example C03_nul_line : x_res (exchange slave_cfg [0; 13]) = XConnLost.
Proof. vm_compute. reflexivity. Qed.
Example C03_short_pq : x_res (exchange slave_cfg [59;80;81;13]) = XOther.
Proof. vm_compute. reflexivity. Qed.
Example C03_short_prompt :
  x_res (exchange slave_cfg ([91;87;45;66;50;70;36;93;13; 62;13] ++ [70;62;13])) = XNil.
Proof. vm_compute. reflexivity. Qed.
