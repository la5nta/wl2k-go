(* Properties/C04.v — a transfer damaged in transit is never delivered as a good message. *)
From Verif Require Import Base.Bytes Lzhuf.Dec Lzhuf.DecP Msg.Message B2F.Secure B2F.Side B2F.SideP B2F.CodecP.
From Verif Require B2F.CutP.
Open Scope N_scope.

(* For EVERY configuration and EVERY byte sequence received: whenever the inbound handler is
   handed a message (a successful ProcessInbound with Mid mid and bytes data), there was a
   framed transfer the receiver accepted -- SOH header with the right length and offset 0, STX
   blocks, EOT with a checksum closing the sum to zero, as many data bytes as the proposal
   announced -- and its payload cdata decompressed to exactly data through the B2 LZHUF reader
   read to end-of-stream with a successful Close, and data parsed as a message. *)
Theorem C04_integrity : forall cfg input mid data,
  In (EvProcess mid data true) (x_events (exchange cfg input)) ->
  exists cdata s p s',
    read_compressed s p = ROk (cdata, s') /\ proposal_message cdata = MOk mid data.
Proof. exact CutP.exchange_integrity. Qed.
Print Assumptions C04_integrity.

(* what the accepted payload satisfies: Close succeeded (CRC-16 and declared size, see
   C08_close_certifies) and the decompressed bytes parsed with Mid = mid *)
Theorem C04_payload : forall cdata mid data,
  proposal_message cdata = MOk mid data ->
  exists d d', new_reader true [cdata] = Some d /\
    read_all_loop (S (S (length cdata * 8))) d 512 [] = (data, REof, d') /\
    close_reader d' = ErrNone /\ p_status (read_from data) = RfOk /\
    mid = hget (p_hdr (read_from data)) str_Mid.
Proof. exact proposal_message_ok_facts. Qed.
Print Assumptions C04_payload.

(* what the accepted frames satisfy: the declared compressed length *)
Theorem C04_frames : forall fuel inp buf sum csize data rest,
  read_frames fuel inp buf sum csize = FOk data rest ->
  csize = Z.of_nat (length data) /\ exists pre, data = rev buf ++ pre.
Proof. exact read_frames_ok_facts. Qed.
Print Assumptions C04_frames.

(* the unaltered transfer is accepted: the frame codec round-trips for every payload *)
Theorem C04_unaltered_accepted : forall d rest,
  let wire := data_chunks (S (length d)) d ++ [Tables.CHREOT; (256 - sumN d mod 256) mod 256] ++ rest in
  read_frames (S (length wire)) wire [] 0 (Z.of_nat (length d)) = FOk d rest.
Proof. exact frames_roundtrip. Qed.
Print Assumptions C04_unaltered_accepted.
