(* Properties/C01.v — a completed exchange delivers every accepted message exactly once, intact.

   THEOREM (C01_exchange): for two model sides (B2F/Side.v) of opposite roles with compatible
   handshakes, handlers present and Prepare succeeding, outboxes whose entries respect the wire
   formats (no CR or blank in a MID, no NUL in the first 80 title bytes, compressed size
   6 .. 2^63-1), carry the MIDs they are proposed under, have pairwise distinct MIDs none of
   which the peer fails to store or the owner has already marked: there IS a complete, uncut
   session (each side's input is exactly what the other wrote), and EVERY such session ends
   with nil on both sides and, in both directions, for every outbox entry: if the peer's policy
   accepts it, the owner's log holds exactly one EvSetSent(mid, false) and the peer's log
   exactly one EvProcess(mid, data, true) with data the decompressed message of that entry;
   if the peer rejects it, exactly one EvSetSent(mid, true) and no transfer; if the peer defers
   it, exactly one EvSetDeferred and no transfer; and nothing of the kind for any other MID.
   Any number of messages and blocks, any policies.  (B2F/DeliverP.v, on the joint invariant of
   B2F/PairP.v.)  In the terms first used here: C01_delivered_once.  The iteration pair_iter
   returns such a session whenever it stops (C01_iteration), and started from the EMPTY input
   it reaches the complete session within 2*(|outbox a| + |outbox b|) + 2 rounds
   (C01_iteration_converges, B2F/IterP.v: the session is a dialogue of chunks, each round adds
   two; the bound is attained for empty outboxes) -- so the statement as first written holds
   once the missing hypotheses are added (C01_exchange_from_empty).  Each hypothesis is shown necessary by a closed counterexample in
   DeliverP.v; the statement as it was first written here (roles and handlers only) is
   refuted (C01_first_statement_refuted).

   Also proved for ALL inputs: the codecs the exchange rests on -- the framed transfer
   round-trips for every payload; the proposals of a turn are a permutation of what the
   handler offered, in precedence-then-size(-then-MID) order, at most five per block; the block
   checksum the sender prints is the value the receiver recomputes; whatever reaches the
   inbound handler went through an accepted transfer whose payload decompressed with a
   successful Close (C04).  Per run: pairs of real sessions over segmenting in-memory links,
   the statement evaluated on the handlers' logs, and each real side compared with the model
   side fed with its peer's actual bytes. *)
From Coq Require Import Sorting.Permutation Sorting.Sorted.
From Verif Require Import Base.Bytes B2F.Secure B2F.Side B2F.SideP B2F.CodecP B2F.PairIter B2F.PairDefs B2F.PairP B2F.DeliverP B2F.IterP gen.Tables.
Open Scope N_scope.

(* THE EXCHANGE *)
Theorem C01_exchange : forall (a b : side_cfg),
  c_master a = negb (c_master b) ->
  hs_compat (if c_master a then a else b) (if c_master a then b else a) ->
  side_ready a b -> side_ready b a ->
  (exists in_a in_b, closed a b in_a in_b) /\
  (forall in_a in_b, closed a b in_a in_b -> exchange_delivers a b in_a in_b).
Proof. exact complete_exchange_delivers. Qed.
Print Assumptions C01_exchange.

(* in the terms first used in this file *)
Theorem C01_delivered_once : forall (a b : side_cfg),
  c_master a = negb (c_master b) ->
  hs_compat (if c_master a then a else b) (if c_master a then b else a) ->
  side_ready a b -> side_ready b a ->
  exists in_a in_b,
    let oa := exchange a in_a in let ob := exchange b in_b in
    x_wire oa = in_b /\ x_wire ob = in_a /\ x_res oa = XNil /\ x_res ob = XNil /\
    (forall p, In p (h_outbox (c_handler a)) -> policy_of (c_handler b) (o_mid p) = AAccept ->
       delivered_once ob (o_mid p) /\ sent_once oa (o_mid p)) /\
    (forall p, In p (h_outbox (c_handler b)) -> policy_of (c_handler a) (o_mid p) = AAccept ->
       delivered_once oa (o_mid p) /\ sent_once ob (o_mid p)).
Proof. exact C01_exchange_delivers. Qed.
Print Assumptions C01_delivered_once.

(* the iteration: started at a complete session it returns it *)
Theorem C01_iteration : forall n a b in_a in_b, closed a b in_a in_b ->
  pair_iter n a b in_a = (exchange a in_a, exchange b in_b).
Proof. exact pair_iter_closed. Qed.
Print Assumptions C01_iteration.

(* started from the empty input the iteration reaches THE complete session, within the bound *)
Theorem C01_iteration_converges : forall (a b : side_cfg),
  c_master a = negb (c_master b) ->
  hs_compat (if c_master a then a else b) (if c_master a then b else a) ->
  side_ready a b -> side_ready b a ->
  exists in_a in_b, closed a b in_a in_b /\
    iter_in (iter_bound a b) a b [] = in_a /\
    forall n, (iter_bound a b <= n)%nat -> pair_iter n a b [] = (exchange a in_a, exchange b in_b).
Proof. exact pair_iter_converges. Qed.
Print Assumptions C01_iteration_converges.

(* the conclusion of the statement first written, for the executable pair run from the empty
   input, under the hypotheses of C01_exchange *)
Theorem C01_exchange_from_empty : forall (a b : side_cfg) (n : nat),
  c_master a = negb (c_master b) ->
  hs_compat (if c_master a then a else b) (if c_master a then b else a) ->
  side_ready a b -> side_ready b a ->
  (n >= 4 * (length (h_outbox (c_handler a)) + length (h_outbox (c_handler b))) + 8)%nat ->
  let '(oa, ob) := pair_iter n a b [] in
  x_res oa = XNil /\ x_res ob = XNil /\
  forall p, In p (h_outbox (c_handler a)) -> policy_of (c_handler b) (o_mid p) = AAccept ->
            delivered_once ob (o_mid p) /\ sent_once oa (o_mid p).
Proof. exact C01_exchange_holds. Qed.
Print Assumptions C01_exchange_from_empty.
Example C01_iteration_bound_attained := iter_bound_attained.

(* the statement as first written (roles and handlers only) is false *)
Theorem C01_first_statement_refuted : ~ C01_exchange_statement.
Proof. exact C01_exchange_statement_is_false. Qed.
Print Assumptions C01_first_statement_refuted.

(* an instance with 6 + 2 messages, one rejected, one deferred: the iteration from the empty
   input reaches the complete session (computed by the kernel) *)
Example C01_instance_iteration := dx_iter.

Theorem C01_frames_roundtrip : forall d rest,
  let wire := data_chunks (S (length d)) d ++ [CHREOT; (256 - sumN d mod 256) mod 256] ++ rest in
  read_frames (S (length wire)) wire [] 0 (Z.of_nat (length d)) = FOk d rest.
Proof. exact frames_roundtrip. Qed.
Print Assumptions C01_frames_roundtrip.

Theorem C01_block_order : forall l,
  Permutation l (sort_props l) /\ LocallySorted (fun a b => prop_leb a b = true) (sort_props l).
Proof. intros l. split; [apply sort_props_perm|apply sort_props_sorted]. Qed.
Print Assumptions C01_block_order.

Theorem C01_block_size : forall l : list oprop, (length (firstn (N.to_nat MaxBlockSize) l) <= 5)%nat.
Proof. exact block_at_most_five. Qed.
Print Assumptions C01_block_size.

Theorem C01_block_checksum : forall lines,
  parse_hex_ignore_err (fmt_02X (block_checksum lines)) = Z.of_N (block_checksum lines).
Proof. exact block_checksum_verifies. Qed.
Print Assumptions C01_block_checksum.

Theorem C01_delivered_means_transferred : forall cfg input mid data,
  In (EvProcess mid data true) (x_events (exchange cfg input)) ->
  exists cdata s p s', read_compressed s p = ROk (cdata, s') /\ proposal_message cdata = MOk mid data.
Proof. exact CutP.exchange_integrity. Qed.
Print Assumptions C01_delivered_means_transferred.

(* an instance of the pair statement: two sides without messages complete with FF / FQ *)
Definition mk_side (master : bool) : side_cfg :=
  {| c_master := master; c_motd := [];
     c_hs := {| hs_fw := [[76;65;49;66]]; hs_name := [119]; hs_version := [49]; hs_target := [88];
                hs_mycall := [76;65;49;66]; hs_locator := []; hs_master := master; hs_gzip := false; hs_cb := None |};
     c_handler := {| h_present := true; h_prepare_err := false; h_outbox := []; h_gone := [];
                     h_policy := []; h_fail := [] |} |}.
Example C01_empty_pair :
  let '(oa, ob) := pair_iter 8 (mk_side true) (mk_side false) [] in x_res oa = XNil /\ x_res ob = XNil.
Proof. vm_compute. split; reflexivity. Qed.
