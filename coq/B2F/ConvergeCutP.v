(* B2F/ConvergeCutP.v -- C02: in a cut session of two library sides (ConvergeP.cut_session: any cut in either
   direction, any way the two runs end, h_fail unrestricted) what a side hands to its handler is the message of
   an entry of the peer's outbox, and it records "rejected" only if the peer's policy rejects (cut_events).
   That is ConvergeP.genuine_session, so "delivered" holds without it (convergence_delivered).
   The turn is PairP.cut_turn_holds (for ANY outcome each side reaches the next boundary or has stopped, and a
   side whose peer has stopped can only read (part of) the error report and records nothing more); joint_all is
   what PairP.cut_ind, the induction over the boundaries, gives for the logs, cut_log what it says of the log of one side of a cut session. *)
From Coq Require Import List NArith ZArith Bool Lia ZifyN ZifyNat ZifyBool Sorting.Permutation.
From Verif Require Import Base.Bytes Base.BytesP gen.Tables Lzhuf.Dec Msg.Message B2F.Secure B2F.Side B2F.SideP
  B2F.TermP B2F.CodecP B2F.CutP B2F.PairDefs B2F.PairLines B2F.PairXfer B2F.PairHs B2F.PairP B2F.PairIter B2F.DeliverP
  B2F.ConvergeP.
Import ListNotations.
Open Scope N_scope.

(* what the peer's records are judged by: the outbox and the policy of the handler of s *)
Definition hsig (s : sess) : list oprop * list (bytes * answer) := (h_outbox (s_h s), h_policy (s_h s)).
(* from s to s' outbox and policy stay, and every event recorded meanwhile satisfies P *)
Definition step (P : event -> Prop) (s s' : sess) : Prop :=
  hsig s' = hsig s /\ forall e, In e (s_ev s') -> In e (s_ev s) \/ P e.

Lemma step_refl (P : event -> Prop) s : step P s s.
Proof. split; [reflexivity|intros e H; left; exact H]. Qed.
Lemma step_trans (P : event -> Prop) a b c : step P a b -> step P b c -> step P a c.
Proof.
  intros [H1 E1] [H2 E2]. split; [congruence|]. intros e H. destruct (E2 e H) as [K|K]; [apply E1, K|right; exact K].
Qed.
Lemma step_weaken (P Q : event -> Prop) s s' : (forall e, P e -> Q e) -> step P s s' -> step Q s s'.
Proof. intros HPQ [H1 E1]. split; [exact H1|]. intros e H. destruct (E1 e H); auto. Qed.
Lemma step_same (P : event -> Prop) s s' : hsig s' = hsig s -> s_ev s' = s_ev s -> step P s s'.
Proof. intros H1 H2. split; [exact H1|]. intros e H. left. rewrite <- H2. exact H. Qed.
Lemma step_list (P : event -> Prop) s s' E : hsig s' = hsig s -> s_ev s' = E ++ s_ev s -> Forall P E -> step P s s'.
Proof.
  intros H V F. split; [exact H|]. intros e K. rewrite V in K. apply in_app_or in K.
  destruct K as [K|K]; [right; exact (proj1 (Forall_forall _ _) F e K)|left; exact K].
Qed.
Lemma step_eqo (P : event -> Prop) a b : eqo a b -> step P a b.
Proof. intros H. apply step_same; [unfold hsig; rewrite (eqo_h _ _ H); reflexivity|symmetry; apply eqo_ev, H]. Qed.
Lemma step_hob (P : event -> Prop) s s' : step P s s' -> hob s' = hob s.
Proof. intros [H _]. apply (f_equal fst) in H. exact H. Qed.

(* step to the state a result carries *)
Definition res_step {A} (P : event -> Prop) (s : sess) (r : res sess (A * sess)) : Prop :=
  match r with ROk (_, s') => step P s s' | RFail _ s' => step P s s' | RPanic => True end.
Lemma res_eqo_step {A} (P : event -> Prop) s (r : res sess (A * sess)) : res_eqo s r -> res_step P s r.
Proof. destruct r as [[a s']|e s'|]; cbn; auto using step_eqo. Qed.
Lemma res_step_weaken {A} (P Q : event -> Prop) s (r : res sess (A * sess)) :
  (forall e, P e -> Q e) -> res_step P s r -> res_step Q s r.
Proof. intros H. destruct r as [[a s']|e s'|]; cbn; auto; apply step_weaken, H. Qed.

Lemma adds_step (P : event -> Prop) s s' : adds P s s' -> step P s s'.
Proof. intros (E&V&F&H). apply (step_list _ _ _ E); [unfold hsig; rewrite H; reflexivity|exact V|exact F]. Qed.

(* PairP.is_get *)
Definition isGO (e : event) : Prop := e = EvGetOutbound.

(* a side that can only read (part of) the error report records nothing but GetOutbound *)
Lemma quiet_recv s : prefix (s_in s) echo -> step isGO s (final false s).
Proof. intros Hp. apply adds_step, quiet_recv_adds, Hp. Qed.
Lemma quiet_send s : prefix (s_in s) echo -> step isGO s (final true s).
Proof. intros Hp. apply adds_step, quiet_send_adds, Hp. Qed.

(* what a side may record, given the outbox and the policy of its peer (PairP.okfor, which takes the peer's
   handler): what it hands to its handler is a message of the peer's outbox; it records "rejected" only if the
   peer's policy rejects *)
Definition Pk (sg : list oprop * list (bytes * answer)) (e : event) : Prop :=
  match e with
  | EvProcess mid d _ => exists p, In p (fst sg) /\ proposal_message (o_cdata p) = MOk mid d
  | EvSetSent m true => pol_go m (snd sg) = AReject
  | _ => True
  end.

Lemma Pk_GO sg e : isGO e -> Pk sg e. Proof. intros ->. exact I. Qed.
Lemma okfor_Pk s e : okfor (s_h s) e -> Pk (hsig s) e.
Proof. intros H. exact H. Qed.

(* how a side goes on after the turn: at a new boundary (Some), or it has stopped (None) *)
Definition after (P : event -> Prop) (my : bool) (s : sess) (my' : bool) (c : option sess) : Prop :=
  match c with
  | Some s' => final my s = final my' s' /\ step P s s'
  | None => step P s (final my s)
  end.
(* the invariant of PairP at the new boundary (cx: the sender of the turn, it receives next; cy: the
   receiver, it sends next); a side whose peer has stopped can read at most the error report *)
Definition link (cx cy : option sess) : Prop :=
  match cx, cy with
  | Some sx', Some sy2 => prefix (s_in sx') (tailw true sy2) /\ prefix (s_in sy2) (tailw false sx')
  | Some sx', None => prefix (s_in sx') echo
  | None, Some sy2 => prefix (s_in sy2) echo
  | None, None => True
  end.
(* the two sides that go on have less unread input together than before the turn *)
Definition less (cx cy : option sess) (sx sy : sess) : Prop :=
  match cx, cy with
  | Some sx', Some sy2 => (inlen sx' + inlen sy2 < inlen sx + inlen sy)%nat
  | _, _ => True
  end.

Lemma went_after (P Q : event -> Prop) my s my' c : (forall e, P e -> Q e) -> went P my s my' c -> after Q my s my' c.
Proof.
  intros HPQ. destruct c as [s'|]; cbn [went after]; [intros [F A]; split; [exact F|]|intros A];
    exact (step_weaken _ _ _ _ HPQ (adds_step _ _ _ A)).
Qed.

(* PairP.cut_turn_holds in terms of the sets of events *)
Lemma joint_turn sx sy :
  side_ok sx -> prefix (s_in sx) (tailw false sy) -> prefix (s_in sy) (tailw true sx) ->
  exists cx cy, after (Pk (hsig sy)) true sx false cx /\ after (Pk (hsig sx)) false sy true cy /\
                link cx cy /\ less cx cy sx sy.
Proof.
  intros Hok I1 I2. destruct (cut_turn_holds sx sy Hok I1 I2) as (cx&cy&_&AX&AY&_&HL&HS). exists cx, cy.
  split; [exact (went_after _ _ _ _ _ _ (okfor_Pk sy) AX)|]. split; [|split; [exact HL|exact HS]].
  exact (went_after _ _ _ _ _ _ (fun e H => okfor_Pk sx e (proj2 H)) AY).
Qed.

(* a receiving turn with its log as a list (adds), and the block a sender is about to propose *)
Lemma turn_recv_adds s : match turn false s with inl (_, s') => adds is_recv s s' | inr s' => adds is_recv s s' end.
Proof.
  unfold turn. pose proof (inbound_loop_via (S (length (s_in s))) s [] []) as Hi.
  destruct (inbound_loop _ s [] []) as [[[q props] s1]|e s1|]; cbn [res_via snd] in Hi; [| |destruct Hi];
    apply (via_mono _ is_recv _ _ (fun e H => or_introl H)), via_adds in Hi; [|exact Hi].
  pose proof (receive_accepted_via props s1) as Hr.
  destruct (receive_accepted s1 props) as [s2|e s2| |]; cbn [rc_via] in Hr; [| |destruct Hr|exact Hi];
    apply (via_mono _ is_recv _ _ (fun e H => or_intror (good_proc_is_proc e H))), via_adds in Hr; [destruct q|]; eapply adds_trans; eassumption.
Qed.

Lemma outbound_block_fresh s props s0 n :
  outbound s = (props, s0) ->
  (forall q, In q (firstn n props) -> ~ In (o_mid q) (gone s)) /\
  (NoDup (map o_mid (hob s)) -> NoDup (map o_mid (firstn n props))).
Proof.
  unfold outbound. destruct (h_present (s_h s)); intros H; injection H as <- <-.
  - split.
    + intros q Hq. apply In_firstn in Hq. apply (Permutation_in _ (Permutation_sym (sort_props_perm _))) in Hq.
      apply filter_In in Hq. destruct Hq as [_ Hq]. apply negb_true_iff, mem_bytes_notin in Hq. exact Hq.
    + intros Hnd. rewrite <- firstn_map. apply NoDup_firstn.
      eapply Permutation_NoDup; [apply Permutation_map, sort_props_perm|]. apply NoDup_map_filter, Hnd.
  - rewrite firstn_nil. split; [intros q []|intros _; constructor].
Qed.

(* the hypothesis on an outbox under which MIDs can be counted *)
Definition side_wf (s : sess) : Prop := Forall prop_wf (hob s) /\ NoDup (map o_mid (hob s)).

Lemma side_block_wf s : side_wf s -> block_wf s.
Proof.
  intros [Hw Hnd]. unfold block_wf. cbv zeta. destruct (outbound s) as [props s0] eqn:Eo. cbn [fst].
  destruct (outbound_block_fresh s props s0 (N.to_nat MaxBlockSize) Eo) as [G N]. split; [|split; [exact (N Hnd)|exact G]].
  apply Forall_forall. intros q Hq. apply prop_wf_iff, (proj1 (Forall_forall _ _) Hw).
  apply (proj1 (outbound_block _ _ _ Eo)). eapply In_firstn. exact Hq.
Qed.

Lemma hsig_pol s s' m : hsig s' = hsig s -> policy_of (s_h s') m = policy_of (s_h s) m.
Proof. intros H. apply (f_equal snd) in H. cbn [hsig snd] in H. rewrite !policy_of_go, H. reflexivity. Qed.

(* Each side records what the peer's outbox and policy allow (Pk); and if both outboxes are well-formed
   with distinct MIDs, what a side is given from here on are pairwise distinct MIDs which the peer had
   not marked at this boundary and which its own policy accepts. *)
Lemma joint_all sx sy :
  side_ok sx -> side_ok sy -> prefix (s_in sx) (tailw false sy) -> prefix (s_in sy) (tailw true sx) ->
  step (Pk (hsig sy)) sx (final true sx) /\ step (Pk (hsig sx)) sy (final false sy) /\
  (side_wf sx -> side_wf sy -> new_procs (fresh (gone sy) sx) sx (final true sx) /\ new_procs (fresh (gone sx) sy) sy (final false sy)).
Proof.
  revert sx sy. apply cut_ind. intros sx sy cx cy _ _ (HB&AX0&AY0&_&HL&_) IH.
  pose proof (went_after _ _ _ _ _ _ (okfor_Pk sy) AX0) as AX.
  pose proof (went_after _ _ _ _ _ _ (fun e H => okfor_Pk sx e (proj2 H)) AY0) as AY.
  destruct cx as [sx'|], cy as [sy2|]; cbn [after went linked sender_marks receiver_gets] in AX, AY, AX0, AY0, HL, HB.
  - (* both go on: the events of this turn, then those from the next boundary on (roles changed); what the
       receiver is given in this turn are MIDs of the block, which the sender had not marked and now has, so
       those it is given later are others *)
    destruct AX as [Fx Sx]. destruct AY as [Fy Sy].
    pose proof (adds_noown _ _ (adds_mono _ _ _ _ (okrecv_noown _) (proj2 AY0))) as Hhy.
    destruct (IH sx' sy2 eq_refl eq_refl) as (K1&K2&K3).
    rewrite (proj1 Sx) in K1. rewrite (proj1 Sy) in K2. rewrite Fx, Fy.
    split; [eapply step_trans; eassumption|]. split; [eapply step_trans; eassumption|].
    intros Wx Wy. destruct (HB (side_block_wf _ Wx)) as (B&HBf&(Hpn&HBg)&HRL).
    destruct K3 as [L1 L2]; [unfold side_wf, hob; rewrite Hhy; exact Wy|unfold side_wf; rewrite (step_hob _ _ _ Sx); exact Wx|].
    split.
    + eapply new_procs_noprocs_l; [exact Hpn|]. eapply new_procs_mono; [|exact L2]. intros m [M1 M2].
      split; [unfold gone in *; rewrite <- Hhy; exact M1|rewrite <- (hsig_pol _ _ m (proj1 Sx)); exact M2].
    + apply (new_procs_trans _ _ _ _ _ _ HRL L1).
      * intros m M [M' _]. exact (M' (HBg m M)).
      * exact HBf.
      * intros m [M1 M2]. split; [intros G; exact (M1 (adds_gone _ _ _ m (proj2 AX0) G))|rewrite <- Hhy; exact M2].
  - (* the receiver has stopped: the sender reads at most the error report and records only GetOutbound *)
    destruct AX as [Fx Sx]. rewrite Fx.
    split; [eapply step_trans; [exact Sx|]; eapply step_weaken; [apply Pk_GO|apply quiet_recv, HL]|]. split; [exact AY|].
    intros Wx Wy. destruct (HB (side_block_wf _ Wx)) as (B&HBf&(Hpn&_)&HRL).
    split; [|exact (new_procs_mono _ _ _ _ HBf HRL)].
    apply new_procs_noprocs. eapply noprocs_trans; [exact Hpn|].
    exact (adds_noprocs _ _ _ is_get_noproc (quiet_recv_adds _ HL)).
  - (* the sender has stopped: likewise for the receiver, which is given nothing more *)
    destruct AY as [Fy Sy]. rewrite Fy.
    split; [exact AX|]. split; [eapply step_trans; [exact Sy|]; eapply step_weaken; [apply Pk_GO|apply quiet_send, HL]|].
    intros Wx Wy. destruct (HB (side_block_wf _ Wx)) as (B&HBf&XS&HRL).
    split; [apply new_procs_noprocs, XS|]. apply (new_procs_mono _ _ _ _ HBf).
    exact (new_procs_noprocs_r _ _ _ _ HRL (adds_noprocs _ _ _ is_get_noproc (quiet_send_adds sy2 HL))).
  - (* both have stopped: the turn is all there is *)
    split; [exact AX|]. split; [exact AY|]. intros Wx Wy. destruct (HB (side_block_wf _ Wx)) as (B&HBf&XS&HRL).
    split; [apply new_procs_noprocs, XS|exact (new_procs_mono _ _ _ _ HBf HRL)].
Qed.

Lemma joint_cut : forall n sx sy,
  (inlen sx + inlen sy < n)%nat -> side_ok sx -> side_ok sy ->
  prefix (s_in sx) (tailw false sy) -> prefix (s_in sy) (tailw true sx) ->
  step (Pk (hsig sy)) sx (final true sx) /\ step (Pk (hsig sx)) sy (final false sy).
Proof. intros n sx sy _ Okx Oky I1 I2. destruct (joint_all sx sy Okx Oky I1 I2) as (A&B&_). split; assumption. Qed.

Lemma init_events cfg i e : In e (s_ev (init_state cfg i)) -> e = EvPrepare.
Proof.
  unfold init_state. destruct (h_present (c_handler cfg)); cbn [ev s_ev]; intros H; [|destruct H].
  destruct H as [H|[]]. symmetry. exact H.
Qed.

(* the log of a side of a cut session, from the state s0 in which its turns begin (the initial state, if
   it does not get that far) to the state s in which it ends: what the turns add is what joint_all says *)
Lemma cut_log (a b : side_cfg) (in_a in_b : bytes) :
  c_master a = negb (c_master b) ->
  hs_compat (if c_master a then a else b) (if c_master a then b else a) ->
  Forall prop_syn (h_outbox (c_handler a)) -> Forall prop_syn (h_outbox (c_handler b)) ->
  cut_session a b in_a in_b ->
  exists s0 s, x_events (exchange a in_a) = rev (s_ev s) /\ s_ev s0 = s_ev (init_state a in_a) /\
    step (Pk (h_outbox (c_handler b), h_policy (c_handler b))) s0 s /\
    (Forall prop_wf (h_outbox (c_handler a)) -> NoDup (map o_mid (h_outbox (c_handler a))) ->
     Forall prop_wf (h_outbox (c_handler b)) -> NoDup (map o_mid (h_outbox (c_handler b))) ->
     new_procs (fun m => policy_of (c_handler a) m = AAccept) s0 s).
Proof.
  intros Hrole Hhs Sa Sb Hcut. set (sgb := (h_outbox (c_handler b), h_policy (c_handler b))).
  destruct Hcut as [HI HP]. destruct (cut_start a b in_a in_b Hrole Hhs HI HP) as [EA|(sa0&Ha&EA&HB)].
  { exists (init_state a in_a), (init_state a in_a). split; [exact EA|]. split; [reflexivity|].
    split; [apply step_refl|intros _ _ _ _; apply new_procs_noprocs, noprocs_refl]. }
  destruct (handshake_start _ _ _ Ha) as [Hha Eva].
  exists sa0, (final (negb (c_master a)) sa0). split; [exact EA|]. split; [exact Eva|]. clear EA.
  destruct HB as [Q|(sb0&Hb&_&HB)].
  { split; [exact (step_weaken _ _ _ _ (Pk_GO _) (adds_step _ _ _ Q))|].
    intros _ _ _ _. apply new_procs_noprocs, (adds_noprocs _ _ _ is_get_noproc Q). }
  destruct (handshake_start _ _ _ Hb) as [Hhb _].
  assert (Oa : side_ok sa0) by (unfold side_ok, hob; rewrite Hha; exact Sa).
  assert (Ob : side_ok sb0) by (unfold side_ok, hob; rewrite Hhb; exact Sb).
  assert (Hsg : hsig sb0 = sgb) by (unfold hsig; rewrite Hhb; reflexivity).
  assert (Acc : forall G, new_procs (fresh G sa0) sa0 (final (negb (c_master a)) sa0) ->
            new_procs (fun m => policy_of (c_handler a) m = AAccept) sa0 (final (negb (c_master a)) sa0)).
  { intros G. apply new_procs_mono. intros m [_ K]. rewrite <- Hha. exact K. }
  rewrite <- Hsg. destruct HB as [J1 J2]. destruct (c_master a); cbn [negb] in *.
  - destruct (joint_all sb0 sa0 Ob Oa J2 J1) as (_&K&L).
    split; [exact K|]. intros Wa Na Wb Nb. apply (Acc (gone sb0)), L; unfold side_wf, hob; rewrite ?Hha, ?Hhb; split; assumption.
  - destruct (joint_all sa0 sb0 Oa Ob J1 J2) as (K&_&L).
    split; [exact K|]. intros Wa Na Wb Nb. apply (Acc (gone sb0)), L; unfold side_wf, hob; rewrite ?Hha, ?Hhb; split; assumption.
Qed.

(* whatever the cuts and however the two runs end: every message a handed to its handler is the message of
   an entry of b's outbox, and a recorded "rejected" only for MIDs b's policy rejects.  This is about the SET
   of events, not their number (counting needs the log as a list: cut_log, ConvergeOnceP.v), and about where
   a message comes from, not whether it was accepted (ConvergeManyP.stored_only_accepted). *)
Theorem cut_events (a b : side_cfg) (in_a in_b : bytes) :
  c_master a = negb (c_master b) ->
  hs_compat (if c_master a then a else b) (if c_master a then b else a) ->
  Forall prop_syn (h_outbox (c_handler a)) -> Forall prop_syn (h_outbox (c_handler b)) ->
  cut_session a b in_a in_b ->
  forall e, In e (x_events (exchange a in_a)) -> Pk (h_outbox (c_handler b), h_policy (c_handler b)) e.
Proof.
  intros Hrole Hhs Sa Sb Hcut ev0 He.
  destruct (cut_log a b in_a in_b Hrole Hhs Sa Sb Hcut) as (s0&s&E&V0&[_ Hs]&_).
  rewrite E, <- in_rev in He. destruct (Hs ev0 He) as [K|K]; [|exact K].
  rewrite V0 in K. rewrite (init_events _ _ _ K). exact I.
Qed.

(* C02_stored_is_own: what y hands to its handler under the MID of an entry of x's outbox is that entry's
   message ("stored", here and in ConvergeManyP, is any EvProcess, whether the store succeeds or fails) *)
Theorem stored_is_own (x y : side_cfg) (in_x in_y : bytes) :
  c_master x = negb (c_master y) ->
  hs_compat (if c_master x then x else y) (if c_master x then y else x) ->
  Forall prop_syn (h_outbox (c_handler x)) -> Forall prop_syn (h_outbox (c_handler y)) ->
  Forall prop_wf (h_outbox (c_handler x)) -> NoDup (map o_mid (h_outbox (c_handler x))) ->
  cut_session x y in_x in_y ->
  forall p d ok, In p (h_outbox (c_handler x)) ->
    In (EvProcess (o_mid p) d ok) (x_events (exchange y in_y)) -> d = pm_data p.
Proof.
  intros Hrole Hhs Sx Sy Wx Nx Hcut p d ok Hp He.
  destruct (roles_swap x y Hrole Hhs) as [Hrole' Hhs'].
  pose proof (cut_events y x in_y in_x Hrole' Hhs' Sy Sx (cut_session_sym _ _ _ _ Hcut) _ He) as K.
  cbn [Pk fst] in K. destruct K as (q&Hq&Hm).
  pose proof (proj1 (Forall_forall _ _) Wx q Hq) as Wq. unfold prop_wf in Wq. rewrite Wq in Hm.
  injection Hm as Hmid <-.
  assert (q = p) by (eapply NoDup_map_inj; eassumption). subst q. reflexivity.
Qed.

(* C02_rejected_by_policy: a rejection recorded by x was answered by y's policy *)
Theorem rejected_by_policy (x y : side_cfg) (in_x in_y : bytes) :
  c_master x = negb (c_master y) ->
  hs_compat (if c_master x then x else y) (if c_master x then y else x) ->
  Forall prop_syn (h_outbox (c_handler x)) -> Forall prop_syn (h_outbox (c_handler y)) ->
  cut_session x y in_x in_y ->
  forall m, In (EvSetSent m true) (x_events (exchange x in_x)) -> policy_of (c_handler y) m = AReject.
Proof.
  intros Hrole Hhs Sx Sy Hcut m He.
  pose proof (cut_events x y in_x in_y Hrole Hhs Sx Sy Hcut _ He) as K. cbn [Pk snd] in K.
  rewrite policy_of_go. exact K.
Qed.

Theorem genuine_cut_session (x y : side_cfg) (in_x in_y : bytes) :
  c_master x = negb (c_master y) ->
  hs_compat (if c_master x then x else y) (if c_master x then y else x) ->
  Forall prop_syn (h_outbox (c_handler x)) -> Forall prop_syn (h_outbox (c_handler y)) ->
  Forall prop_wf (h_outbox (c_handler x)) -> NoDup (map o_mid (h_outbox (c_handler x))) ->
  cut_session x y in_x in_y ->
  forall p, In p (h_outbox (c_handler x)) -> genuine_session y (exchange x in_x) (exchange y in_y) p.
Proof.
  intros Hrole Hhs Sx Sy Wx Nx Hcut p Hp. split.
  - intros d Hd. eapply stored_is_own; eassumption.
  - intros Hr. eapply rejected_by_policy; eassumption.
Qed.

(* after a session cut anywhere in either direction (or stopped by a storage error) and one complete
   session of the mailboxes it leaves, the peer's handler has been given the own message of every entry
   its policy accepts *)
Theorem convergence_delivered (x y : side_cfg) (in_x in_y in_x' in_y' : bytes) :
  c_master x = negb (c_master y) ->
  hs_compat (if c_master x then x else y) (if c_master x then y else x) ->
  side_sound x -> side_sound y ->
  cut_session x y in_x in_y ->
  let ox := exchange x in_x in let oy := exchange y in_y in
  let x' := next_cfg x ox in let y' := next_cfg y oy in
  closed x' y' in_x' in_y' ->
  let ox' := exchange x' in_x' in let oy' := exchange y' in_y' in
  (forall p, In p (h_outbox (c_handler x)) -> policy_of (c_handler y) (o_mid p) = AAccept ->
     In (EvProcess (o_mid p) (pm_data p) true) (x_events oy ++ x_events oy')) /\
  (forall p, In p (h_outbox (c_handler y)) -> policy_of (c_handler x) (o_mid p) = AAccept ->
     In (EvProcess (o_mid p) (pm_data p) true) (x_events ox ++ x_events ox')).
Proof.
  intros Hrole Hhs Sx Sy Hcut ox oy x' y' Hc ox' oy'.
  destruct (convergence_cut_session x y in_x in_y in_x' in_y' Hrole Hhs Sx Sy Hcut Hc) as (_&_&C1&C2).
  destruct (roles_swap x y Hrole Hhs) as [Hrole' Hhs'].
  split; intros p Hp Ha.
  - apply (conv_delivered x y ox oy ox' oy' p (C1 p Hp)); [|exact Ha].
    apply genuine_cut_session; try assumption;
      [apply side_sound_syn, Sx|apply side_sound_syn, Sy|apply side_sound_wf, Sx|apply side_sound_nodup, Sx].
  - apply (conv_delivered y x oy ox oy' ox' p (C2 p Hp)); [|exact Ha].
    apply genuine_cut_session; try assumption;
      [apply side_sound_syn, Sy|apply side_sound_syn, Sx|apply side_sound_wf, Sy|apply side_sound_nodup, Sy|apply cut_session_sym, Hcut].
Qed.

(* C02_delivered: convergence_delivered with the cut given as in PairP.two_party_safety (b receives the
   first k bytes a wrote), not as a cut_session *)
Theorem convergence_delivered_cut (a b : side_cfg) (in_a : bytes) (k : nat) (in_a' in_b' : bytes) :
  c_master a = negb (c_master b) ->
  hs_compat (if c_master a then a else b) (if c_master a then b else a) ->
  side_sound a -> side_sound b ->
  let oa := exchange a in_a in let ob := exchange b (firstn k (x_wire oa)) in
  in_a = firstn (length in_a) (x_wire ob) ->
  let a' := next_cfg a oa in let b' := next_cfg b ob in
  closed a' b' in_a' in_b' ->
  let oa' := exchange a' in_a' in let ob' := exchange b' in_b' in
  (forall p, In p (h_outbox (c_handler a)) -> policy_of (c_handler b) (o_mid p) = AAccept ->
     In (EvProcess (o_mid p) (pm_data p) true) (x_events ob ++ x_events ob')) /\
  (forall p, In p (h_outbox (c_handler b)) -> policy_of (c_handler a) (o_mid p) = AAccept ->
     In (EvProcess (o_mid p) (pm_data p) true) (x_events oa ++ x_events oa')).
Proof.
  intros Hrole Hhs Sa Sb oa ob Hin a' b' Hc.
  exact (convergence_delivered a b in_a (firstn k (x_wire oa)) in_a' in_b' Hrole Hhs Sa Sb
           (safety_shape_cut_session a b in_a k Hin) Hc).
Qed.

(* an instance: DeliverP.dx_a / dx_b (ConvergeP.dx_hypotheses), every received string, every cut *)
Example convergence_delivered_dx (in_a : bytes) (k : nat) (in_a' in_b' : bytes) :
  let oa := exchange dx_a in_a in let ob := exchange dx_b (firstn k (x_wire oa)) in
  in_a = firstn (length in_a) (x_wire ob) ->
  let a' := next_cfg dx_a oa in let b' := next_cfg dx_b ob in
  closed a' b' in_a' in_b' ->
  let oa' := exchange a' in_a' in let ob' := exchange b' in_b' in
  (forall p, In p (h_outbox (c_handler dx_a)) -> policy_of (c_handler dx_b) (o_mid p) = AAccept ->
     In (EvProcess (o_mid p) (pm_data p) true) (x_events ob ++ x_events ob')) /\
  (forall p, In p (h_outbox (c_handler dx_b)) -> policy_of (c_handler dx_a) (o_mid p) = AAccept ->
     In (EvProcess (o_mid p) (pm_data p) true) (x_events oa ++ x_events oa')).
Proof.
  destruct dx_hypotheses as (H1&H2&H3&H4).
  apply convergence_delivered_cut;
    [exact H1|apply hs_check_sound; exact H2|apply sound_check_sound; exact H3|apply sound_check_sound; exact H4].
Qed.

Print Assumptions joint_turn.
Print Assumptions joint_cut.
Print Assumptions cut_events.
Print Assumptions stored_is_own.
Print Assumptions rejected_by_policy.
Print Assumptions genuine_cut_session.
Print Assumptions convergence_delivered.
Print Assumptions convergence_delivered_cut.
Print Assumptions convergence_delivered_dx.
