(* B2F/CodecP.v — the framed transfer (data_chunks, read_frames) round-trips for every payload;
   the proposal block is sorted and a permutation of what the handler offered; the block
   checksum the sender prints in hex parses back to the value the receiver computes. *)
From Coq Require Import Lia ZifyN ZifyNat ZifyBool Sorting.Permutation Sorting.Sorted.
From Verif Require Import Base.Bytes Base.BytesP Base.Utf8 B2F.Secure Msg.Message Msg.MessageP B2F.Side gen.Tables.
Open Scope N_scope.

Lemma add_mod_l s x : ((s mod 256) + x) mod 256 = (s + x) mod 256.
Proof. apply N.add_mod_idemp_l. discriminate. Qed.

Lemma sumN_app a b : sumN (a ++ b) = sumN a + sumN b.
Proof. induction a as [|y a IH]; [reflexivity|]. cbn [sumN app]. rewrite IH. lia. Qed.

Lemma take_n_exact d : forall rest acc sum, sum < 256 ->
  take_n (length d) (d ++ rest) acc sum = Some (rev d ++ acc, rest, (sum + sumN d) mod 256).
Proof.
  induction d as [|x d IH]; intros rest acc sum Hs.
  - cbn. rewrite N.add_0_r, N.mod_small by exact Hs. reflexivity.
  - cbn [length take_n app]. rewrite IH by (apply N.mod_upper_bound; discriminate).
    cbn [rev sumN]. rewrite <- app_assoc, add_mod_l, N.add_assoc. reflexivity.
Qed.

Lemma data_chunks_split f d : d <> [] -> exists c d', d = c ++ d' /\ (1 <= length c <= 125)%nat /\
  data_chunks (S f) d = CHRSTX :: N.of_nat (length c) :: c ++ data_chunks f d'.
Proof.
  intros Hd. set (n := Nat.min (length d) (N.to_nat MaxMsgLength)).
  assert (Hn : (1 <= n <= 125)%nat /\ (n <= length d)%nat).
  { unfold n. change (N.to_nat MaxMsgLength) with 125%nat. destruct d; [congruence|]. cbn [length]. lia. }
  exists (firstn n d), (skipn n d). rewrite firstn_skipn, firstn_length, (Nat.min_l n) by apply Hn.
  split; [reflexivity|]. split; [apply Hn|]. destruct d; [congruence|reflexivity].
Qed.

Lemma read_frames_block f c rest buf sum csize : (1 <= length c)%nat -> sum < 256 ->
  read_frames (S f) (CHRSTX :: N.of_nat (length c) :: c ++ rest) buf sum csize
  = read_frames f rest (rev c ++ buf) ((sum + sumN c) mod 256) csize.
Proof.
  intros Hc Hs. cbn [read_frames]. change (CHRSTX =? CHRSTX) with true. cbn iota.
  rewrite (proj2 (N.eqb_neq _ 0)), Nat2N.id, take_n_exact by (exact Hs || lia). reflexivity.
Qed.

Lemma read_frames_eot f rest buf sum csize : sum < 256 ->
  read_frames (S f) (CHREOT :: (256 - sum) mod 256 :: rest) buf sum csize
  = if (csize =? Z.of_nat (length buf))%Z then FOk (rev' buf) rest else FErr EOther rest.
Proof.
  intros Hs. cbn [read_frames]. change (CHREOT =? CHRSTX) with false. change (CHREOT =? CHREOT) with true. cbn iota.
  rewrite <- (N.mod_small sum 256 Hs) at 2. rewrite neg_mod256. cbn [N.eqb negb]. destruct (csize =? Z.of_nat (length buf))%Z; reflexivity.
Qed.

(* vacuous (the right disjunct is True) and used nowhere; read_frames_chunks is the lemma about
   reading the blocks written for a payload *)
Lemma read_chunks fuel : forall d tail buf sum csize rfuel,
  (length d < fuel)%nat -> (length d + 1 <= rfuel)%nat ->
  read_frames rfuel (data_chunks fuel d ++ tail) buf sum csize =
  read_frames (rfuel - length (data_chunks fuel d) + 0) tail (rev d ++ buf) ((sum + sumN d) mod 256) csize
  \/ True.
Proof. intros; right; exact I. Qed.

Lemma read_frames_chunks fuel : forall d buf sum csize rest rfuel,
  (length d < fuel)%nat -> (length d < rfuel)%nat -> sum < 256 ->
  read_frames rfuel (data_chunks fuel d ++ CHREOT :: ((256 - (sum + sumN d) mod 256) mod 256) :: rest) buf sum csize
  = if (csize =? Z.of_nat (length buf + length d))%Z then FOk (rev' (rev d ++ buf)) rest else FErr EOther rest.
Proof.
  induction fuel as [|f IH]; intros d buf sum csize rest [|rf] Hf Hr Hs; try lia.
  destruct d as [|x d0].
  - cbn [data_chunks app length rev sumN]. rewrite N.add_0_r, (N.mod_small sum 256 Hs), Nat.add_0_r.
    apply read_frames_eot, Hs.
  - destruct (data_chunks_split f (x :: d0)) as [c [d' [Ed [Hc ->]]]]; [discriminate|]. rewrite Ed in *.
    rewrite app_length in Hf, Hr. rewrite <- !app_comm_cons, <- app_assoc, read_frames_block by (apply Hc || assumption).
    rewrite sumN_app, N.add_assoc, <- add_mod_l, IH; [|lia|lia|apply N.mod_upper_bound; discriminate].
    rewrite !app_length, rev_length, rev_app_distr, <- app_assoc.
    replace (length c + length buf + length d')%nat with (length buf + (length c + length d'))%nat by lia.
    reflexivity.
Qed.

Lemma data_chunks_length : forall fuel x, (length x <= fuel)%nat -> (length x <= length (data_chunks fuel x))%nat.
Proof.
  induction fuel as [|f IH]; intros x Hx; [exact Hx|]. destruct x as [|y x']; [cbn; lia|].
  destruct (data_chunks_split f (y :: x')) as [c [d' [Ed [Hc ->]]]]; [discriminate|]. rewrite Ed in *.
  rewrite app_length in Hx. cbn [length]. rewrite !app_length. specialize (IH d' ltac:(lia)). lia.
Qed.

(* writeCompressed followed by readCompressed's frame loop returns the payload, for every payload *)
Theorem frames_roundtrip d rest :
  let wire := data_chunks (S (length d)) d ++ [CHREOT; (256 - sumN d mod 256) mod 256] ++ rest in
  read_frames (S (length wire)) wire [] 0 (Z.of_nat (length d)) = FOk d rest.
Proof.
  intros wire. unfold wire. cbn [app].
  pose proof (read_frames_chunks (S (length d)) d [] 0 (Z.of_nat (length d)) rest
                (S (length (data_chunks (S (length d)) d ++ CHREOT :: (256 - sumN d mod 256) mod 256 :: rest)))) as H.
  rewrite N.add_0_l in H. rewrite H.
  - cbn [length Nat.add]. rewrite Z.eqb_refl, app_nil_r. rewrite rev'_rev, rev_involutive. reflexivity.
  - lia.
  - rewrite app_length. cbn [length]. pose proof (data_chunks_length (S (length d)) d ltac:(lia)). lia.
  - lia.
Qed.

(* sort_props is isort_by prop_leb by conversion: insert_prop is insert_by at this order *)
Theorem sort_props_perm l : Permutation l (sort_props l).
Proof. exact (isort_by_perm prop_leb l). Qed.

Lemma prop_leb_total a b : prop_leb a b = true \/ prop_leb b a = true.
Proof.
  unfold prop_leb.
  destruct (precedence a <? precedence b) eqn:E1; [left; reflexivity|].
  destruct (precedence b <? precedence a) eqn:E2; [right; reflexivity|].
  destruct (N.of_nat (length (o_cdata a)) <? N.of_nat (length (o_cdata b))) eqn:E3; [left; reflexivity|].
  destruct (N.of_nat (length (o_cdata b)) <? N.of_nat (length (o_cdata a))) eqn:E4; [right; reflexivity|].
  apply bytes_leb_total.
Qed.

(* the proposals of a turn are in precedence-then-size(-then-MID) order *)
Theorem sort_props_sorted l : LocallySorted (fun a b => prop_leb a b = true) (sort_props l).
Proof. exact (isort_by_sorted prop_leb prop_leb_total l). Qed.

Theorem block_at_most_five (l : list oprop) : (length (firstn (N.to_nat MaxBlockSize) l) <= 5)%nat.
Proof. rewrite firstn_length. change (N.to_nat MaxBlockSize) with 5%nat. lia. Qed.

Theorem checksum_hex_roundtrip n : n < 256 -> parse_hex_ignore_err (fmt_02X n) = Z.of_N n.
Proof.
  intros H. apply Z.eqb_eq. revert n H.
  apply (byte_sweep (fun n => (parse_hex_ignore_err (fmt_02X n) =? Z.of_N n)%Z)). vm_compute. reflexivity.
Qed.

Theorem block_checksum_lt lines : block_checksum lines < 256.
Proof. unfold block_checksum. apply N.mod_upper_bound. discriminate. Qed.

(* the receiver recomputes exactly the value the sender printed: "F> XX" verifies *)
Theorem block_checksum_verifies lines :
  parse_hex_ignore_err (fmt_02X (block_checksum lines)) = Z.of_N (block_checksum lines).
Proof. apply checksum_hex_roundtrip, block_checksum_lt. Qed.
