(* B2F/ConvergeOnceP.v -- C02: COUNTING over sessions.  One walk over a side's turns, for EVERY input: every entry
   of its outbox is reported (sent, rejected or deferred) at most once (exchange_reports: `occ`, occurrences of a
   MID, reported <= in the block <= in the outbox), whence reported_at_most_once and ConvergeManyP.sent_only_outbox.
   In a cut session a handler is given each MID at most once, and only MIDs its policy accepts (cut_procs, read
   off ConvergeCutP.cut_log).  Together with the facts of ConvergeCutP.v this is the LIFE OF AN ENTRY: all a cut
   session can do with an entry is one of the five things of `did` (cut_did); step_entry adds such a session in
   front of a history that ends with a delivering one (delivered_spec).  The history of length one is
   convergence_exactly_once; any length: ConvergeManyP.v. *)
From Coq Require Import List NArith ZArith Bool Lia ZifyN ZifyNat ZifyBool Sorting.Permutation.
From Verif Require Import Base.Bytes Base.BytesP gen.Tables Lzhuf.Dec Msg.Message B2F.Secure B2F.Side B2F.SideP
  B2F.TermP B2F.CodecP B2F.CutP B2F.PairDefs B2F.PairLines B2F.PairXfer B2F.PairHs B2F.PairP B2F.PairIter B2F.DeliverP
  B2F.ConvergeP B2F.ConvergeCutP.
Import ListNotations.
Open Scope N_scope.

(* key: the MIDs an event is about; f m: the events about m *)
Section Keyed.
Variables (key : event -> list bytes) (f : bytes -> event -> bool).
Hypothesis Hk : forall m e, f m e = true -> key e = [m].
Lemma keyed_notin m E : ~ In m (flat_map key E) -> cnt (f m) E = 0%nat.
Proof.
  induction E as [|e E IH]; intros H; [reflexivity|]. cbn [flat_map] in H. rewrite cnt_cons.
  destruct (f m e) eqn:Ef.
  - exfalso. apply H, in_or_app. left. rewrite (Hk _ _ Ef). left. reflexivity.
  - apply IH. intros K. apply H, in_or_app. right. exact K.
Qed.
Lemma keyed_once m E : NoDup (flat_map key E) -> (cnt (f m) E <= 1)%nat.
Proof.
  induction E as [|e E IH]; intros H; [apply Nat.le_0_1|]. cbn [flat_map] in H. rewrite cnt_cons.
  destruct (f m e) eqn:Ef.
  - rewrite (Hk _ _ Ef) in H. inversion H as [|? ? Hn _]; subst. rewrite (keyed_notin _ _ Hn). apply Nat.le_refl.
  - apply IH. induction (key e) as [|x k IHk]; [exact H|]. inversion H; subst. apply IHk. assumption.
Qed.
End Keyed.

Lemma own_key m e : own m e = true -> own_mid e = [m].
Proof. destruct e as [| |m' r|m'| | |]; try discriminate; intros H; apply beq_bytes_true in H; subst; reflexivity. Qed.
Lemma own_once m E : NoDup (own_mids E) -> (cnt (own m) E <= 1)%nat.
Proof. apply (keyed_once own_mid own own_key). Qed.
Lemma proc_key m e : proc m e = true -> proc_mid e = [m].
Proof. destruct e; try discriminate. intros H. apply beq_bytes_true in H. subst. reflexivity. Qed.
Lemma proc_once m E : NoDup (proc_mids E) -> (cnt (proc m) E <= 1)%nat.
Proof. apply (keyed_once proc_mid proc proc_key). Qed.

(* from s to s' the side has reported the MIDs D (newest first), marking each as it reported it *)
Definition reports (D : list bytes) (s s' : sess) : Prop :=
  exists E, s_ev s' = E ++ s_ev s /\ own_mids E = D /\ s_h s' = set_gone (s_h s) (D ++ gone s).

Lemma reports_trans D1 D2 a b c : reports D1 a b -> reports D2 b c -> reports (D2 ++ D1) a c.
Proof.
  intros (E1&V1&<-&H1) (E2&V2&<-&H2). exists (E2 ++ E1). split; [rewrite V2, V1; apply app_assoc|].
  split; [apply own_mids_app|]. unfold gone in *. rewrite H2, H1, <- app_assoc. reflexivity.
Qed.
(* phases that report nothing: the receiver's, and the sender's up to the answer line *)
Lemma noown_reports s s' : adds noown s s' -> reports [] s s'.
Proof.
  intros (E&V&F&H). exists E. rewrite (own_mids_none E F) in H. split; [exact V|]. split; [apply own_mids_none, F|exact H].
Qed.
Lemma does_reports d s s' : does d s s' -> reports (own_mids (e_ev d)) s s'.
Proof. intros D. exists (e_ev d). split; [exact (does_ev_eq _ _ _ D)|]. split; [reflexivity|exact (does_h _ _ _ D)]. Qed.

Lemma isGO_noown e : isGO e -> noown e. Proof. intros ->. reflexivity. Qed.
Lemma is_recv_noown e : is_recv e -> noown e.
Proof. intros [K|K]; destruct e; destruct K; reflexivity. Qed.

(* EVERY ENTRY OF A BLOCK IS REPORTED AT MOST ONCE, whatever the answer line: the deferred ones at once (D),
   the others through the list `sent` *)
Lemma send_accepted_reports props s ans sent :
  match send_accepted s props ans sent with
  | ROk (s', sent') => exists D, reports D s s' /\
      forall m, (occ m (map fst sent') + occ m D <= occ m (map fst sent) + occ m (map o_mid props))%nat
  | RFail _ s' => exists D, reports D s s' /\ forall m, (occ m D <= occ m (map o_mid props))%nat
  | RPanic => True
  end.
Proof.
  pose proof (send_accepted_does props s ans sent) as A.
  destruct (send_accepted s props ans sent) as [[s' sent']|e s'|]; [|destruct A as [_ A]|exact I];
    destruct A as (w&E&D&_&C); exists (own_mids E); (split; [exact (does_reports _ _ _ D)|exact C]).
Qed.

Lemma occ_app m a b : occ m (a ++ b) = (occ m a + occ m b)%nat.
Proof. apply count_occ_app. Qed.
Lemma occ_rev m l : occ m (rev l) = occ m l.
Proof. apply count_occ_rev. Qed.
(* accepted + rejected = listed *)
Lemma occ_accs_rejs m l : (occ m (accs l) + occ m (rejs l) = occ m (map fst l))%nat.
Proof.
  unfold occ, accs, rejs. induction l as [|[k [|]] l IH]; [reflexivity|..]; cbn [filter map fst snd negb count_occ];
    destruct (list_eq_dec N.eq_dec k m); lia.
Qed.

Definition res_reports {A} (B : list bytes) (s : sess) (r : res sess (A * sess)) : Prop :=
  match r with
  | ROk (_, s') | RFail _ s' => exists D, reports D s s' /\ forall m, (occ m D <= occ m B)%nat
  | RPanic => True
  end.

(* the peek reports the rejected MIDs of the list and, when the turn goes on, the accepted ones *)
Lemma ho_peek_reports sent s4 : res_reports (map fst sent) s4 (ho_peek sent s4).
Proof.
  pose proof (ho_peek_does sent s4) as A.
  destruct (ho_peek sent s4) as [[q s']|e s'|]; [destruct A as [_ D]|destruct A as [p D]|exact I];
    apply does_reports in D; cbn [act e_ev] in D; change (own_mids (EvBlockEnd :: ?l)) with (own_mids l) in D.
  - rewrite own_mids_app, (own_mids_marks false), (own_mids_marks true) in D.
    exists (rev (accs sent) ++ rev (rejs sent)). split; [exact D|]. intros m.
    rewrite occ_app, !occ_rev, occ_accs_rejs. apply Nat.le_refl.
  - rewrite (own_mids_marks true) in D.
    exists (rev (rejs sent)). split; [exact D|]. intros m.
    rewrite occ_rev, <- (occ_accs_rejs m sent). apply Nat.le_add_l.
Qed.

(* after a phase that reported D0: if D0 and the list L together stay within B, and what follows reports no
   more than L, the whole stays within B *)
Lemma res_reports_after {A} B L D0 s s1 (r : res sess (A * sess)) :
  reports D0 s s1 -> (forall m, occ m L + occ m D0 <= occ m B)%nat -> res_reports L s1 r -> res_reports B s r.
Proof.
  intros R0 C0. destruct r as [[a s']|e s'|]; cbn [res_reports]; auto; intros (D&R&C); exists (D ++ D0);
    (split; [exact (reports_trans _ _ _ _ _ R0 R)|]); intros m; specialize (C m); specialize (C0 m); rewrite occ_app; lia.
Qed.
Lemma res_reports_trans {A} B s s1 (r : res sess (A * sess)) : adds noown s s1 -> res_reports B s1 r -> res_reports B s r.
Proof. intros G. apply (res_reports_after B B [] s s1 r (noown_reports _ _ G)). intros m. apply Nat.eq_le_incl, Nat.add_0_r. Qed.

(* the transfer phase: deferred + listed <= block (send_accepted_reports), and the peek reports no more than
   the list *)
Lemma ho_transfer_reports block reply s3 : res_reports (map o_mid block) s3 (ho_transfer block reply s3).
Proof.
  unfold ho_transfer. destruct (slice_from 3 reply) as [astr|]; [|exact I].
  destruct (parse_answers _ astr _ []) as [ans|]; [|exists []; split; [apply noown_reports, adds_refl|intros m; apply Nat.le_0_l]].
  pose proof (send_accepted_reports block s3 ans []) as Hs.
  destruct (send_accepted s3 block ans []) as [[s4 sr]|e s4|]; [|exact Hs|exact I].
  destruct Hs as (D4&R4&C4).
  apply (res_reports_after _ (map fst (rev' sr)) D4 _ _ _ R4); [|apply ho_peek_reports].
  intros m. rewrite rev'_rev, map_rev, occ_rev. exact (C4 m).
Qed.

Lemma occ_filter (f : oprop -> bool) m l : (occ m (map o_mid (filter f l)) <= occ m (map o_mid l))%nat.
Proof.
  unfold occ. induction l as [|p l IH]; [apply Nat.le_refl|]. cbn [filter]. destruct (f p); cbn [map count_occ];
    destruct (list_eq_dec N.eq_dec (o_mid p) m); lia.
Qed.

(* a block is part of the outbox, entry by entry, and none of its MIDs is marked *)
Lemma outbound_block_occ s props s0 n : outbound s = (props, s0) ->
  (forall m, occ m (map o_mid (firstn n props)) <= occ m (map o_mid (hob s)))%nat /\
  (forall m, In m (map o_mid (firstn n props)) -> ~ In m (gone s)).
Proof.
  unfold outbound. destruct (h_present (s_h s)); intros H; injection H as <- <-.
  2:{ rewrite firstn_nil. split; [intros m; apply Nat.le_0_l|intros m []]. }
  set (f := fun p => negb (mem_bytes (o_mid p) (h_gone (s_h s)))). split.
  - intros m. eapply Nat.le_trans; [|apply (occ_filter f)]. unfold occ, hob.
    rewrite (proj1 (Permutation_count_occ _ _ _) (Permutation_map o_mid (sort_props_perm (filter f (h_outbox (s_h s))))) m).
    rewrite <- (firstn_skipn n (sort_props (filter f (h_outbox (s_h s))))) at 2. rewrite map_app, count_occ_app.
    (* once occ is unfolded, lia takes count_occ over `bytes` and over `list N` for different atoms: unfold bytes first *)
    unfold bytes. lia.
  - intros m K. apply in_map_iff in K. destruct K as (q&<-&Hq). apply In_firstn in Hq.
    apply (Permutation_in _ (Permutation_sym (sort_props_perm _))), filter_In in Hq.
    destruct Hq as [_ Hq]. apply negb_true_iff, mem_bytes_notin in Hq. exact Hq.
Qed.

(* so is every entry of the outbox within a turn, and none that was marked before *)
Definition turn_reports (s s' : sess) : Prop :=
  exists D, reports D s s' /\ (forall m, occ m D <= occ m (map o_mid (hob s)))%nat /\ (forall m, In m D -> ~ In m (gone s)).

Lemma noown_turn s s' : adds noown s s' -> turn_reports s s'.
Proof. intros A. exists []. split; [apply noown_reports, A|]. split; [intros m; apply Nat.le_0_l|intros m []]. Qed.

Lemma handle_outbound_reports s :
  match handle_outbound s with ROk (_, s') | RFail _ s' => turn_reports s s' | RPanic => True end.
Proof.
  rewrite handle_outbound_eq. pose proof (adds_mono _ _ _ _ isGO_noown (via_adds _ _ _ (outbound_via s))) as S0.
  destruct (outbound s) as [props s0] eqn:Eo. cbn [snd] in S0.
  destruct (outbound_block_occ s props s0 (N.to_nat MaxBlockSize) Eo) as (Ob&Gb).
  destruct props as [|p ps].
  { cbv zeta. apply noown_turn. eapply adds_trans; [exact S0|apply adds_same; reflexivity]. }
  cbv zeta. set (block := firstn (N.to_nat MaxBlockSize) (p :: ps)) in *. set (s2 := ho_propose block s0).
  pose proof (read_reply_eqo (S (length (s_in s2))) s2) as Q3.
  destruct (read_reply (S (length (s_in s2))) s2) as [[reply s3]|e s3|]; cbn [res_eqo] in Q3; [| |exact I].
  all: assert (S3 : adds noown s s3)
    by (eapply adds_trans; [exact S0|]; eapply adds_trans; [exact (via_adds _ _ _ (does_via _ _ _ _ (ho_propose_does block s0) (Forall_nil _)))|apply adds_eqo, Q3]).
  2:{ apply noown_turn, S3. }
  pose proof (res_reports_trans _ _ _ _ S3 (ho_transfer_reports block reply s3)) as H.
  destruct (ho_transfer block reply s3) as [[q s']|e s'|]; [| |exact I]; destruct H as (D&R&C); exists D;
    (split; [exact R|]); (split; [intros m; exact (Nat.le_trans _ _ _ (C m) (Ob m))|]); intros m K; apply Gb;
    apply (count_occ_In (list_eq_dec N.eq_dec)); apply (count_occ_In (list_eq_dec N.eq_dec)) in K; specialize (C m);
    unfold occ in C; lia.
Qed.

Lemma turn_reports_turn my s : match turn my s with inl (_, s') | inr s' => turn_reports s s' end.
Proof.
  destruct my.
  - unfold turn. pose proof (handle_outbound_reports s) as Ho.
    destruct (handle_outbound s) as [[[|] s1]|e s1|]; try exact Ho. apply noown_turn, adds_refl.
  - pose proof (turn_recv_adds s) as H.
    destruct (turn false s) as [[r s']|s']; exact (noown_turn _ _ (adds_mono _ _ _ _ is_recv_noown H)).
Qed.

(* EVERY ENTRY OF THE OUTBOX IS REPORTED AT MOST ONCE: the MIDs a side has reported so far are marked, and
   none oftener than it occurs in the outbox *)
Definition own_inv (s : sess) : Prop :=
  forall m, (In m (own_mids (s_ev s)) -> In m (gone s)) /\ (occ m (own_mids (s_ev s)) <= occ m (map o_mid (hob s)))%nat.

Lemma own_inv_turn s s' : turn_reports s s' -> own_inv s -> own_inv s' /\ hob s' = hob s.
Proof.
  intros (D&(E&V&HD&H)&C&F) J.
  assert (Hh : hob s' = hob s) by (unfold hob; rewrite H; reflexivity).
  split; [|exact Hh]. intros m. destruct (J m) as [J1 J2]. rewrite Hh, V, own_mids_app, HD. unfold gone at 1. rewrite H.
  cbn [set_gone h_gone]. split.
  - intros K. apply in_or_app. apply in_app_or in K. destruct K as [K|K]; [left; exact K|right; apply J1, K].
  - unfold occ in *. rewrite count_occ_app. destruct (in_dec (list_eq_dec N.eq_dec) m D) as [K|K].
    + assert (Z : ~ In m (own_mids (s_ev s))) by (intros K1; exact (F m K (J1 K1))).
      apply (count_occ_not_In (list_eq_dec N.eq_dec)) in Z. specialize (C m). unfold occ in C. unfold bytes in *. lia.
    + apply (count_occ_not_In (list_eq_dec N.eq_dec)) in K. unfold bytes in *. lia.
Qed.

Lemma own_inv_turns f my s : own_inv s -> own_inv (snd (turns f my s)) /\ hob (snd (turns f my s)) = hob s.
Proof.
  refine (proj2 (turns_rt (fun _ => True) (fun s s' => own_inv s -> own_inv s' /\ hob s' = hob s) I _ _ _ f my s)).
  - intros a J. split; [exact J|reflexivity].
  - intros a b c H1 H2 J. destruct (H1 J) as [Jb Hb]. destruct (H2 Jb) as [Jc Hc]. split; [exact Jc|congruence].
  - intros my0 s0. pose proof (turn_reports_turn my0 s0) as H.
    destruct (turn my0 s0) as [[r s']|s']; [split; [exact I|]|]; apply own_inv_turn, H.
Qed.

(* for EVERY configuration and EVERY input *)
Lemma exchange_reports (x : side_cfg) (i : bytes) :
  exists s, x_events (exchange x i) = rev (s_ev s) /\
    forall m, (occ m (own_mids (s_ev s)) <= occ m (map o_mid (h_outbox (c_handler x))))%nat.
Proof.
  assert (V0 : own_mids (s_ev (init_state x i)) = []) by (unfold init_state; destruct (h_present (c_handler x)); reflexivity).
  destruct (exchange_log_cases x i) as [EA|(s0&_&Ha&EA)].
  { exists (init_state x i). split; [exact EA|]. intros m. rewrite V0. apply Nat.le_0_l. }
  exists (final (negb (c_master x)) s0). split; [exact EA|].
  unfold final. rewrite fin_state_ev. unfold run. destruct (handshake_start _ _ _ Ha) as [Hh Hv].
  destruct (own_inv_turns (2 * inlen s0 + 2) (negb (c_master x)) s0) as [J Hb].
  { intros m. rewrite Hv, V0. split; [intros []|apply Nat.le_0_l]. }
  intros m. unfold hob in Hb. rewrite <- Hh, <- Hb. apply J.
Qed.

(* C02_reported_at_most_once.  EVERY input; the log contains at most one of EvSetSent mid false, EvSetSent mid
   true, EvSetDeferred mid, and at most once.  NoDup cannot be dropped: reported_twice_without_nodup. *)
Theorem reported_at_most_once (x : side_cfg) (i : bytes) :
  NoDup (map o_mid (h_outbox (c_handler x))) ->
  forall mid, (length (filter (own mid) (x_events (exchange x i))) <= 1)%nat.
Proof.
  intros Hnd mid. destruct (exchange_reports x i) as (s&->&C).
  change (cnt (own mid) (rev (s_ev s)) <= 1)%nat. rewrite cnt_rev. apply own_once.
  apply (NoDup_count_occ (list_eq_dec N.eq_dec)). intros m.
  exact (Nat.le_trans _ _ _ (C m) (proj1 (NoDup_count_occ (list_eq_dec N.eq_dec) _) Hnd m)).
Qed.

(* and only MIDs of the outbox are reported *)
Lemma reported_from_outbox (x : side_cfg) (i : bytes) e m :
  In e (x_events (exchange x i)) -> own_mid e = [m] -> In m (map o_mid (h_outbox (c_handler x))).
Proof.
  intros He Hm. destruct (exchange_reports x i) as (s&E&C). rewrite E, <- in_rev in He.
  assert (K : In m (own_mids (s_ev s))) by (apply in_flat_map; exists e; split; [exact He|rewrite Hm; left; reflexivity]).
  apply (count_occ_In (list_eq_dec N.eq_dec)). apply (count_occ_In (list_eq_dec N.eq_dec)) in K.
  specialize (C m). unfold occ in C. lia.
Qed.

(* in particular at most one EvSetSent (either flag) *)
Corollary sent_at_most_once (x : side_cfg) (i : bytes) :
  NoDup (map o_mid (h_outbox (c_handler x))) ->
  forall mid, (length (filter (sent_ev mid) (x_events (exchange x i))) <= 1)%nat.
Proof.
  intros Hnd mid. pose proof (cnt_imp (own mid) (sent_ev mid) (x_events (exchange x i)) (sent_ev_own mid)) as H1.
  pose proof (reported_at_most_once x i Hnd mid) as H2. unfold cnt in H1. lia.
Qed.

(* an instance: DeliverP.dx_a, every input *)
Example reported_at_most_once_dx (i : bytes) (mid : bytes) :
  (length (filter (own mid) (x_events (exchange dx_a i))) <= 1)%nat.
Proof.
  apply reported_at_most_once. exact (side_sound_nodup _ (sound_check_sound _ (proj1 (proj2 (proj2 dx_hypotheses))))).
Qed.

(* the NoDup hypothesis of reported_at_most_once cannot be dropped: a MID twice in the outbox is reported
   deferred AND sent in one complete session (DeliverP.duplicate_mid_also_deferred) *)
Example reported_twice_without_nodup :
  let a := cx_side false [dx_prop [65;49]; dx_prop [65;49]] [] [] in let b := cx_side true [] [] [] in
  length (filter (own [65;49]) (x_events (exchange a (cx_in 6 a b)))) = 2%nat.
Proof.
  pose proof duplicate_mid_also_deferred as H. cbv zeta in H. destruct H as (_&_&_&H&_).
  cbv zeta. rewrite H. reflexivity.
Qed.

Lemma init_proc cfg i : proc_mids (s_ev (init_state cfg i)) = [].
Proof. unfold init_state. destruct (h_present (c_handler cfg)); reflexivity. Qed.

(* the MIDs a side of a cut session hands to its handler, successfully or not, are pairwise distinct and
   accepted by its own policy (read off ConvergeCutP.cut_log) *)
Lemma cut_procs (a b : side_cfg) (in_a in_b : bytes) : sound_pair a b -> cut_session a b in_a in_b ->
  exists s, x_events (exchange a in_a) = rev (s_ev s) /\ NoDup (proc_mids (s_ev s)) /\
    forall m, In m (proc_mids (s_ev s)) -> policy_of (c_handler a) m = AAccept.
Proof.
  intros (Hrole&Hhs&SSa&SSb) Hcut.
  destruct (cut_log a b in_a in_b Hrole Hhs (side_sound_syn _ SSa) (side_sound_syn _ SSb) Hcut) as (s0&s&E&V0&_&L).
  destruct (L (side_sound_wf _ SSa) (side_sound_nodup _ SSa) (side_sound_wf _ SSb) (side_sound_nodup _ SSb)) as (El&V&N&M).
  exists s. split; [exact E|]. rewrite V, proc_mids_app, V0, init_proc, app_nil_r. split; assumption.
Qed.

(* C02_processed_at_most_once: in a cut session of two library sides the handler of a is given each MID at
   most once (successfully or not) *)
Theorem processed_at_most_once (a b : side_cfg) (in_a in_b : bytes) :
  c_master a = negb (c_master b) ->
  hs_compat (if c_master a then a else b) (if c_master a then b else a) ->
  side_sound a -> side_sound b ->
  cut_session a b in_a in_b ->
  forall mid, (length (filter (proc mid) (x_events (exchange a in_a))) <= 1)%nat.
Proof.
  intros Hrole Hhs SSa SSb Hcut mid.
  destruct (cut_procs a b in_a in_b (conj Hrole (conj Hhs (conj SSa SSb))) Hcut) as (s&E&N&_).
  rewrite E. change (cnt (proc mid) (rev (s_ev s)) <= 1)%nat. rewrite cnt_rev. apply proc_once, N.
Qed.

Lemma accepted_if_processed (a b : side_cfg) (in_a in_b : bytes) : sound_pair a b -> cut_session a b in_a in_b ->
  forall mid d ok, In (EvProcess mid d ok) (x_events (exchange a in_a)) -> policy_of (c_handler a) mid = AAccept.
Proof.
  intros Hok Hcut mid d ok He. destruct (cut_procs a b in_a in_b Hok Hcut) as (s&E&_&M).
  rewrite E, <- in_rev in He. exact (M mid (in_proc_mids _ _ _ _ He)).
Qed.

(* THE LIFE OF AN ENTRY.  All that one session can do with the entry p of the owner's outbox, the peer
   answering a: S are the owner's SetSent events for its MID, P the calls of the peer's handler for it.
   Nothing; a store that failed; stored but the owner not told; stored and reported; reported as rejected.
   After the first three the entry is still in the outbox (after the third the peer answers "reject" from now
   on), after the last two it has left it. *)
Inductive did (a : answer) (p : oprop) : list event -> list event -> Prop :=
| did_nothing : did a p [] []
| did_failed : a = AAccept -> did a p [] [EvProcess (o_mid p) (pm_data p) false]
| did_stored : a = AAccept -> did a p [] [EvProcess (o_mid p) (pm_data p) true]
| did_sent : a = AAccept -> did a p [EvSetSent (o_mid p) false] [EvProcess (o_mid p) (pm_data p) true]
| did_told : a = AReject -> did a p [EvSetSent (o_mid p) true] [].

Lemma filter_le1 {T} (f : T -> bool) l : (length (filter f l) <= 1)%nat ->
  filter f l = [] \/ exists e, filter f l = [e] /\ In e l /\ f e = true.
Proof.
  intros H. destruct (filter f l) as [|e [|e' r]] eqn:E; [left; reflexivity|right|cbn [length] in H; lia].
  exists e. split; [reflexivity|]. apply filter_In. rewrite E. left. reflexivity.
Qed.

(* a cut session does one of these with every entry: at most one event of each kind (reported_at_most_once,
   processed_at_most_once), a handler call only for an accepted MID and with the entry's message
   (stored_is_own), "rejected" only by policy, "sent" only if received *)
Lemma cut_did (x y : side_cfg) (in_x in_y : bytes) : sound_pair x y -> cut_session x y in_x in_y ->
  forall p, In p (h_outbox (c_handler x)) ->
    did (policy_of (c_handler y) (o_mid p)) p (filter (sent_ev (o_mid p)) (x_events (exchange x in_x)))
        (filter (proc (o_mid p)) (x_events (exchange y in_y))).
Proof.
  intros Hok Hcut p Hp. pose proof (sound_pair_sym _ _ Hok) as Hok'. pose proof (cut_session_sym _ _ _ _ Hcut) as Hcut'.
  destruct Hok as (Hrole&Hhs&Sx&Sy). destruct Hok' as (Hrole'&Hhs'&_&_).
  pose proof (side_sound_syn _ Sx) as Yx. pose proof (side_sound_syn _ Sy) as Yy.
  pose proof (side_sound_wf _ Sx) as Wx. pose proof (side_sound_nodup _ Sx) as Ndx.
  set (mid := o_mid p). set (Ey := x_events (exchange y in_y)).
  (* the handler call, if there is one *)
  assert (HP : filter (proc mid) Ey = [] \/
               exists ok, filter (proc mid) Ey = [EvProcess mid (pm_data p) ok] /\ policy_of (c_handler y) mid = AAccept).
  { destruct (filter_le1 _ _ (processed_at_most_once y x in_y in_x Hrole' Hhs' Sy Sx Hcut' mid)) as [E|(e&E&He&Hf)];
      [left; exact E|right].
    destruct e as [| | | | |m' d ok|]; try discriminate. cbn [proc] in Hf. apply beq_bytes_true in Hf. subst m'.
    exists ok. fold Ey in E. rewrite E, (stored_is_own x y in_x in_y Hrole Hhs Yx Yy Wx Ndx Hcut p d ok Hp He).
    split; [reflexivity|]. exact (accepted_if_processed y x in_y in_x (conj Hrole' (conj Hhs' (conj Sy Sx))) Hcut' _ _ _ He). }
  destruct (filter_le1 _ _ (sent_at_most_once x in_x Ndx mid)) as [E|(e&E&He&Hf)]; rewrite E.
  { destruct HP as [->|([|]&->&Ha)]; constructor; exact Ha. }
  destruct e as [| |m' r| | | |]; try discriminate. cbn [sent_ev] in Hf. apply beq_bytes_true in Hf. subst m'.
  destruct r.
  - pose proof (rejected_by_policy x y in_x in_y Hrole Hhs Yx Yy Hcut _ He) as Hr.
    destruct HP as [->|(ok&_&Ha)]; [apply did_told, Hr|fold mid in Hr; congruence].
  - pose proof (sent_only_if_received x y in_x in_y Hrole Hhs Yx Yy Wx Ndx Hcut p Hp He) as Hd.
    assert (K : In (EvProcess mid (pm_data p) true) (filter (proc mid) Ey))
      by (apply filter_In; split; [exact Hd|cbn [proc]; apply beq_bytes_refl]).
    destruct HP as [E0|(ok&E0&Ha)]; rewrite E0 in K |- *; [destruct K|].
    destruct K as [K|[]]. injection K as ->. apply did_sent, Ha.
Qed.

(* what the logs Lx of the owner and Ly of the peer, over a whole history, say of an entry the peer answers
   with a -- DeliverP.delivered in the counts of C02: SetSent of either flag (sent_ev), successful stores
   (stored_ev) -- and of a MID that is not in the outbox of x *)
Definition entry_spec (a : answer) (p : oprop) (Lx Ly : list event) : Prop :=
  match a with
  | AAccept => filter (stored_ev (o_mid p)) Ly = [EvProcess (o_mid p) (pm_data p) true] /\
               length (filter (sent_ev (o_mid p)) Lx) = 1%nat
  | AReject => filter (proc (o_mid p)) Ly = [] /\ length (filter (sent_ev (o_mid p)) Lx) = 1%nat
  | ADefer => filter (proc (o_mid p)) Ly = [] /\ filter (sent_ev (o_mid p)) Lx = []
  end.
Definition rest_spec (x y : side_cfg) (Lx Ly : list event) : Prop :=
  (forall m, ~ In m (map o_mid (h_outbox (c_handler x))) -> filter (sent_ev m) Lx = [] /\ filter (proc m) Ly = []) /\
  (forall p, In p (h_outbox (c_handler x)) -> entry_spec (policy_of (c_handler y) (o_mid p)) p Lx Ly).

Lemma filter_of_own m E L : filter (own m) E = L -> filter (sent_ev m) E = filter (sent_ev m) L.
Proof. intros <-. symmetry. apply filter_filter_imp, sent_ev_own. Qed.
Lemma filter_of_proc m E L : filter (proc m) E = L -> filter (stored_ev m) E = filter (stored_ev m) L.
Proof. intros <-. symmetry. apply filter_filter_imp, stored_ev_proc. Qed.

(* a delivering session *)
Lemma delivered_spec (x y : side_cfg) (ox oy : outcome) :
  delivered (c_handler x) (c_handler y) ox oy -> rest_spec x y (x_events ox) (x_events oy).
Proof.
  intros [HD HA]. split.
  - intros m Hn. destruct (HA m Hn) as [A1 A2]. rewrite (filter_of_own _ _ _ A1). split; [reflexivity|exact A2].
  - intros p Hp. specialize (HD p Hp). unfold entry_spec.
    destruct (policy_of (c_handler y) (o_mid p)); [destruct HD as (A1&A2&_)|destruct HD as [A1 A2]..];
      rewrite (filter_of_own _ _ _ A1), ?(filter_of_proc _ _ _ A2); cbn; rewrite ?beq_bytes_refl; split; auto.
Qed.

(* one more session in front, which did with p what `did` says *)
Lemma step_entry (x y x1 y1 : side_cfg) (ox oy : outcome) (Lx1 Ly1 : list event) (p : oprop) :
  In p (h_outbox (c_handler x)) -> leaves x ox x1 -> leaves y oy y1 ->
  did (policy_of (c_handler y) (o_mid p)) p (filter (sent_ev (o_mid p)) (x_events ox)) (filter (proc (o_mid p)) (x_events oy)) ->
  rest_spec x1 y1 Lx1 Ly1 ->
  entry_spec (policy_of (c_handler y) (o_mid p)) p (x_events ox ++ Lx1) (x_events oy ++ Ly1).
Proof.
  intros Hp Vx Vy Hd [IA IE].
  (* the entry is in the next outbox iff it was not reported; the peer rejects it from now on iff it stored it *)
  pose proof (leaves_outbox x ox x1 p Vx) as Hob. pose proof (leaves_policy y oy y1 (o_mid p) Vy) as Hpy.
  assert (Gone : sent_in (x_events ox) (o_mid p) = true -> ~ In (o_mid p) (map o_mid (h_outbox (c_handler x1)))).
  { intros Es K. apply in_map_iff in K. destruct K as (q&Eq&Hq). apply (leaves_outbox x ox x1 q Vx) in Hq.
    rewrite Eq, Es in Hq. destruct Hq; discriminate. }
  unfold sent_in, stored_in in Hob, Hpy, Gone. rewrite existsb_filter in Hob, Hpy, Gone.
  rewrite (filter_of_proc _ _ _ eq_refl) in Hpy.
  unfold entry_spec. rewrite !filter_app, app_length, (filter_of_proc _ (x_events oy) _ eq_refl).
  remember (filter (sent_ev (o_mid p)) (x_events ox)) as S eqn:ES. remember (filter (proc (o_mid p)) (x_events oy)) as P eqn:EP.
  destruct Hd as [|Ha|Ha|Ha|Ha]; cbn [filter stored_ev proc] in *; rewrite ?beq_bytes_refl in *; cbn [app length] in *.
  - rewrite <- Hpy. apply IE, Hob. auto.
  - rewrite Ha. specialize (IE p (proj2 Hob (conj Hp eq_refl))). rewrite Hpy, Ha in IE. exact IE.
  - rewrite Ha. specialize (IE p (proj2 Hob (conj Hp eq_refl))). rewrite Hpy in IE. destruct IE as [I1 I2].
    rewrite (filter_of_proc _ _ _ I1). split; [reflexivity|exact I2].
  - rewrite Ha. destruct (IA _ (Gone eq_refl)) as [I1 I2]. rewrite I1, (filter_of_proc _ _ _ I2). split; reflexivity.
  - rewrite Ha. destruct (IA _ (Gone eq_refl)) as [I1 I2]. rewrite I1, I2. split; reflexivity.
Qed.

(* a cut session and the complete session of the mailboxes it leaves: the history of length one *)
Lemma cut_then_complete (x y : side_cfg) (in_x in_y in_x' in_y' : bytes) :
  sound_pair x y -> cut_session x y in_x in_y ->
  let ox := exchange x in_x in let oy := exchange y in_y in
  let x' := next_cfg x ox in let y' := next_cfg y oy in
  closed x' y' in_x' in_y' ->
  forall p, In p (h_outbox (c_handler x)) ->
    entry_spec (policy_of (c_handler y) (o_mid p)) p (x_events ox ++ x_events (exchange x' in_x'))
               (x_events oy ++ x_events (exchange y' in_y')).
Proof.
  intros Hok Hcut ox oy x' y' Hc p Hp.
  destruct (sound_pair_leaves x y ox oy x' y' Hok (leaves_next _ _) (leaves_next _ _)) as (Hrole'&Hhs'&_).
  destruct Hok as (Hrole&Hhs&Sx&Sy).
  destruct (complete_exchange_delivers x' y' Hrole' Hhs' (side_ready_next x y ox oy Sx) (side_ready_next y x oy ox Sy))
    as [_ Hall].
  destruct (Hall in_x' in_y' Hc) as (_&_&D&_).
  apply (step_entry x y x' y'); [exact Hp|apply leaves_next..| |apply delivered_spec, D].
  apply cut_did; [exact (conj Hrole (conj Hhs (conj Sx Sy)))|exact Hcut|exact Hp].
Qed.

(* for every entry the peer does not defer, the owner's two logs together contain exactly one EvSetSent for its
   MID -- in both directions *)
Theorem convergence_sent_exactly_once (x y : side_cfg) (in_x in_y in_x' in_y' : bytes) :
  c_master x = negb (c_master y) ->
  hs_compat (if c_master x then x else y) (if c_master x then y else x) ->
  side_sound x -> side_sound y ->
  cut_session x y in_x in_y ->
  let ox := exchange x in_x in let oy := exchange y in_y in
  let x' := next_cfg x ox in let y' := next_cfg y oy in
  closed x' y' in_x' in_y' ->
  let ox' := exchange x' in_x' in let oy' := exchange y' in_y' in
  (forall p, In p (h_outbox (c_handler x)) -> policy_of (c_handler y) (o_mid p) <> ADefer ->
     length (filter (sent_ev (o_mid p)) (x_events ox ++ x_events ox')) = 1%nat) /\
  (forall p, In p (h_outbox (c_handler y)) -> policy_of (c_handler x) (o_mid p) <> ADefer ->
     length (filter (sent_ev (o_mid p)) (x_events oy ++ x_events oy')) = 1%nat).
Proof.
  intros Hrole Hhs Sx Sy Hcut ox oy x' y' Hc ox' oy'.
  pose proof (conj Hrole (conj Hhs (conj Sx Sy)) : sound_pair x y) as Hok.
  assert (Hc' : closed y' x' in_y' in_x') by (destruct Hc; split; assumption).
  split; intros p Hp Hd.
  - pose proof (cut_then_complete x y in_x in_y in_x' in_y' Hok Hcut Hc p Hp) as H. unfold entry_spec in H.
    destruct (policy_of (c_handler y) (o_mid p)); [apply H..|congruence].
  - pose proof (cut_then_complete y x in_y in_x in_y' in_x' (sound_pair_sym _ _ Hok) (cut_session_sym _ _ _ _ Hcut) Hc' p Hp) as H.
    unfold entry_spec in H. destruct (policy_of (c_handler x) (o_mid p)); [apply H..|congruence].
Qed.

Example convergence_sent_exactly_once_dx (in_a : bytes) (k : nat) (in_a' in_b' : bytes) :
  let oa := exchange dx_a in_a in let ob := exchange dx_b (firstn k (x_wire oa)) in
  in_a = firstn (length in_a) (x_wire ob) ->
  let a' := next_cfg dx_a oa in let b' := next_cfg dx_b ob in
  closed a' b' in_a' in_b' ->
  let oa' := exchange a' in_a' in
  forall p, In p (h_outbox (c_handler dx_a)) -> policy_of (c_handler dx_b) (o_mid p) <> ADefer ->
    length (filter (sent_ev (o_mid p)) (x_events oa ++ x_events oa')) = 1%nat.
Proof.
  intros oa ob Hin a' b' Hc oa'. destruct dx_hypotheses as (H1&H2&H3&H4).
  exact (proj1 (convergence_sent_exactly_once dx_a dx_b in_a (firstn k (x_wire oa)) in_a' in_b' H1
                  (hs_check_sound _ _ H2) (sound_check_sound _ H3) (sound_check_sound _ H4)
                  (safety_shape_cut_session dx_a dx_b in_a k Hin) Hc)).
Qed.

(* C02_exactly_once.  After a session cut anywhere in either direction (or stopped by a storage error) and one complete
   session of the mailboxes it leaves: for every entry p of x's outbox that y's policy accepts, the
   SUCCESSFUL ProcessInbound calls for its MID in y's two logs together are exactly one, with the
   entry's own message (a failed store of the first session, EvProcess _ _ false, is not counted),
   and x's two logs together contain exactly one EvSetSent for the MID.  (x and y are
   interchangeable: cut_session_sym; `closed` is symmetric.) *)
Theorem convergence_exactly_once (x y : side_cfg) (in_x in_y in_x' in_y' : bytes) :
  c_master x = negb (c_master y) ->
  hs_compat (if c_master x then x else y) (if c_master x then y else x) ->
  side_sound x -> side_sound y ->
  cut_session x y in_x in_y ->
  let ox := exchange x in_x in let oy := exchange y in_y in
  let x' := next_cfg x ox in let y' := next_cfg y oy in
  closed x' y' in_x' in_y' ->
  let ox' := exchange x' in_x' in let oy' := exchange y' in_y' in
  forall p, In p (h_outbox (c_handler x)) -> policy_of (c_handler y) (o_mid p) = AAccept ->
    filter (stored_ev (o_mid p)) (x_events oy ++ x_events oy') = [EvProcess (o_mid p) (pm_data p) true] /\
    length (filter (sent_ev (o_mid p)) (x_events ox ++ x_events ox')) = 1%nat.
Proof.
  intros Hrole Hhs Sx Sy Hcut ox oy x' y' Hc ox' oy' p Hp Ha.
  pose proof (cut_then_complete x y in_x in_y in_x' in_y' (conj Hrole (conj Hhs (conj Sx Sy))) Hcut Hc p Hp) as H.
  rewrite Ha in H. exact H.
Qed.

Example convergence_exactly_once_dx (in_a : bytes) (k : nat) (in_a' in_b' : bytes) :
  let oa := exchange dx_a in_a in let ob := exchange dx_b (firstn k (x_wire oa)) in
  in_a = firstn (length in_a) (x_wire ob) ->
  let a' := next_cfg dx_a oa in let b' := next_cfg dx_b ob in
  closed a' b' in_a' in_b' ->
  let oa' := exchange a' in_a' in let ob' := exchange b' in_b' in
  forall p, In p (h_outbox (c_handler dx_a)) -> policy_of (c_handler dx_b) (o_mid p) = AAccept ->
    filter (stored_ev (o_mid p)) (x_events ob ++ x_events ob') = [EvProcess (o_mid p) (pm_data p) true] /\
    length (filter (sent_ev (o_mid p)) (x_events oa ++ x_events oa')) = 1%nat.
Proof.
  intros oa ob Hin a' b' Hc oa' ob'. destruct dx_hypotheses as (H1&H2&H3&H4).
  exact (convergence_exactly_once dx_a dx_b in_a (firstn k (x_wire oa)) in_a' in_b' H1
           (hs_check_sound _ _ H2) (sound_check_sound _ H3) (sound_check_sound _ H4)
           (safety_shape_cut_session dx_a dx_b in_a k Hin) Hc).
Qed.

Print Assumptions processed_at_most_once.
Print Assumptions convergence_exactly_once.
Print Assumptions convergence_exactly_once_dx.
Print Assumptions reported_at_most_once.
Print Assumptions sent_at_most_once.
Print Assumptions convergence_sent_exactly_once.
Print Assumptions reported_at_most_once_dx.
Print Assumptions convergence_sent_exactly_once_dx.
Print Assumptions reported_twice_without_nodup.
