(* Proofs about B2F/Side.v.  What a function of the session does is an effect (eff): the input it
   reads, the bytes it writes, the events it logs, the MIDs it counts as received, the flag it may set;
   the state it returns is the one it was given with that effect applied (does).  A function f has its
   lemma f_does with its effect, f_via with a property of the events of its effect, or f_ro if it only
   reads; the loops of the handshake have their equations besides (read_handshake_eq, handshake_eq), and
   read_compressed what a successful read has seen (read_compressed_reads).  One turn of the loop (turn,
   turns_eq) and the induction over the turns (turns_rt) are here; handle_outbound and inbound_loop are
   made of phases, which CutP.v names, and have their lemmas there.

   The relations on states (s before, s' after) of this file, CutP.v and PairP.v, and what follows from what:
     ro (only input was read) => eqo (equal but for the unread input) => grows (the four logs of s are
       initial parts of those of s') => lost (grows, but for the EvBlockEnd that closes a failed turn);
     ro => via P for every P;  does d (s' is s with the effect d) => via P (does d for a d whose events all
       satisfy P) => grows, sfx (s_in s') (s_in s) (via_in), adds P (the log and the handler of via P, no more);
     adds P => nm (no new "sent" mark), noprocs (nothing handed to the handler) when P rules such events out.
   ro, does, via are defined here; eqo, grows, lost, sfx, nm in CutP.v; adds, noprocs in PairP.v.
   Predicates on events: is_get, is_defer, is_ans, is_proc: one constructor each; sends (CutP): what a
   sender logs other than "sent" marks; good_proc: an EvProcess, of a good_delivery if stored; tame (CutP):
   not a "sent" mark, and good_proc if an EvProcess; okev (CutP): a stored EvProcess is of a good_delivery;
   nomark (CutP), noproc, noown (PairP): not a "sent" mark, not an EvProcess, reports no MID to the handler. *)
From Coq Require Import Lia ZifyN ZifyNat ZifyBool.
From Verif Require Import Base.Bytes Base.BytesP Base.Utf8 Base.Arr B2F.Md5 B2F.Secure Lzhuf.Huff Lzhuf.Enc Lzhuf.Crc
  Lzhuf.Dec Msg.Message B2F.Side B2F.PairDefs gen.Tables.
Open Scope N_scope.

Lemma slice_from_some n s : (n <= length s)%nat -> exists r, slice_from n s = Some r.
Proof.
  intros H. unfold slice_from. destruct (n <=? length s)%nat eqn:E; [eauto|].
  apply Nat.leb_gt in E. lia.
Qed.

Lemma prefixb_length p s : prefixb p s = true -> (length p <= length s)%nat.
Proof. intros H. apply prefixb_iff in H. destruct H as [m ->]. rewrite app_length. lia. Qed.

Lemma read_until_some c i a r : read_until c i = Some (a, r) -> i = (a ++ [c]) ++ r.
Proof.
  unfold read_until. destruct (split_at c i) as [a' [r'|]] eqn:E; intros H; inversion H; subst.
  rewrite <- app_assoc. apply split_at_Some, E.
Qed.

Lemma read_reply_prefix fuel : forall s line s1,
  read_reply fuel s = ROk (line, s1) -> prefixb [70; 83; 32] line = true.
Proof.
  induction fuel as [|f IH]; intros s line s1 H; [discriminate|]. cbn [read_reply] in H.
  destruct (next_line true s) as [[l s2]|e s'|]; try discriminate.
  destruct (prefixb [70; 83; 32] l) eqn:E.
  - injection H as <- <-. exact E.
  - destruct (prefixb [59] l); [eapply IH; exact H|discriminate].
Qed.

(* the parser of a proposal line uses the state only to hand it back when it fails *)
Lemma parse_proposal_cases line :
  (exists p, forall s, parse_proposal s line = ROk p) \/ (forall s, parse_proposal s line = RFail EOther s).
Proof.
  unfold parse_proposal. destruct line as [|c0 [|code r]]; try (right; reflexivity).
  destruct (negb (c0 =? 70)); [right; reflexivity|].
  destruct ((code =? BasicProposal) || (code =? AsciiProposal)); [left; eexists; reflexivity|].
  destruct ((code =? Wl2kProposal) || (code =? GzipProposal)); [|right; reflexivity].
  destruct (length (c0 :: code :: r) <? 4)%nat eqn:E; [right; reflexivity|].
  apply Nat.ltb_ge in E. destruct (slice_from_some 3 (c0 :: code :: r) ltac:(lia)) as [rest Hr]. rewrite Hr.
  destruct (split_on 32 rest) as [|t [|mid [|sz [|csz [|x [|y l]]]]]]; try (right; reflexivity).
  destruct (type_ok t); [left; eexists; reflexivity|right; reflexivity].
Qed.

Lemma exchange_eq cfg input :
  exchange cfg input =
  let s1 := init_state cfg input in
  let n := length input in
  if h_present (c_handler cfg) && h_prepare_err (c_handler cfg) then finish n XOther s1
  else match handshake s1 with
       | RFail e s' => finish n (xerr e) s'
       | RPanic => finish n XPanic s1
       | ROk s2 =>
           let '(r, s3) := turns (2 * n + length (h_outbox (c_handler cfg)) + 8) (negb (c_master cfg)) s2 in
           finish n r s3
       end.
Proof. reflexivity. Qed.


(* the MIDs a log reports to the handler (sent, rejected or deferred), and those it counts as sent *)
Definition own_mid (e : event) : list bytes :=
  match e with EvSetSent m _ => [m] | EvSetDeferred m => [m] | _ => [] end.
Definition own_mids (E : list event) : list bytes := flat_map own_mid E.
Lemma own_mids_app a b : own_mids (a ++ b) = own_mids a ++ own_mids b.
Proof. apply flat_map_app. Qed.
Lemma own_mids_map (f : bytes -> event) ms : (forall m, own_mid (f m) = [m]) -> own_mids (map f ms) = ms.
Proof.
  intros Hf. induction ms as [|m ms IH]; [reflexivity|]. unfold own_mids in *. cbn [map flat_map]. rewrite Hf, IH. reflexivity.
Qed.
Definition sent_mid (e : event) : list bytes := match e with EvSetSent m false => [m] | _ => [] end.

Definition set_gone (h : hstate) (g : list bytes) : hstate :=
  {| h_present := h_present h; h_prepare_err := h_prepare_err h; h_outbox := h_outbox h;
     h_gone := g; h_policy := h_policy h; h_fail := h_fail h |}.

(* The marks in the handler and the MIDs counted as sent are not part of an effect: Side.v makes every
   mark together with its event, so they are those of e_ev.  e_ev and e_rc are latest first, as in sess. *)
Record eff := { e_rd : bytes; e_wr : bytes; e_ev : list event; e_rc : list bytes; e_nm : option bool }.

(* w: the single writes, latest first; r: the input left *)
Definition upd (d : eff) (w : list bytes) (r : bytes) (s : sess) : sess :=
  {| s_in := r; s_out := w ++ s_out s; s_ev := e_ev d ++ s_ev s;
     s_h := set_gone (s_h s) (own_mids (e_ev d) ++ h_gone (s_h s)); s_master := s_master s;
     s_remote_nomsgs := match e_nm d with Some b => b | None => s_remote_nomsgs s end;
     s_sent := flat_map sent_mid (e_ev d) ++ s_sent s; s_recv := e_rc d ++ s_recv s;
     s_cfg := s_cfg s; s_motd := s_motd s |}.

Definition does (d : eff) (s s' : sess) : Prop :=
  exists r w, s_in s = e_rd d ++ r /\ concat (rev w) = e_wr d /\ s' = upd d w r s.

(* reads p, writes w, logs E *)
Definition act (p w : bytes) (E : list event) : eff := {| e_rd := p; e_wr := w; e_ev := E; e_rc := []; e_nm := None |}.
Definition andthen (d1 d2 : eff) : eff :=
  {| e_rd := e_rd d1 ++ e_rd d2; e_wr := e_wr d1 ++ e_wr d2; e_ev := e_ev d2 ++ e_ev d1; e_rc := e_rc d2 ++ e_rc d1;
     e_nm := match e_nm d2 with Some b => Some b | None => e_nm d1 end |}.

Lemma does_refl s : does (act [] [] []) s s.
Proof. exists (s_in s), []. destruct s as [i o e [] m n se r c mo]. repeat split. Qed.

Lemma does_trans d1 d2 a b c : does d1 a b -> does d2 b c -> does (andthen d1 d2) a c.
Proof.
  intros (r1&w1&I1&W1&->) (r2&w2&I2&W2&->). cbn [upd s_in] in I2. exists r2, (w2 ++ w1).
  split; [cbn [andthen e_rd]; rewrite I1, I2; apply app_assoc|].
  split; [cbn [andthen e_wr]; rewrite rev_app_distr, concat_app; f_equal; assumption|].
  unfold upd, own_mids. cbn. rewrite !flat_map_app, <- !app_assoc. destruct (e_nm d2); reflexivity.
Qed.

(* andthen leaves "++ []" behind where a part of an effect is empty: an effect that is wanted in a given
   form is reached through does_eq *)
Lemma does_eq d d' s s' : does d s s' -> d = d' -> does d' s s'.
Proof. intros H <-. exact H. Qed.

Lemma does_set_in s p r : s_in s = p ++ r -> does (act p [] []) s (set_in s r).
Proof. intros H. exists r, []. destruct s as [i o e [] m n se rc c mo]. repeat split. exact H. Qed.
Lemma does_wr s b : does (act [] b []) s (wr s b).
Proof. exists (s_in s), [b]. destruct s as [i o e [] m n se r c mo]. repeat split. apply app_nil_r. Qed.
Lemma does_ev s e : own_mid e = [] -> does (act [] [] [e]) s (ev s e).
Proof.
  intros H. exists (s_in s), []. destruct s as [i o ev [] m n se r c mo]. repeat split. unfold upd, own_mids. cbn.
  destruct e; try discriminate H; reflexivity.
Qed.
Lemma does_mark s m e : own_mid e = [m] -> sent_mid e = [] -> does (act [] [] [e]) s (ev (mark_gone s m) e).
Proof.
  intros H H'. exists (s_in s), []. destruct s as [i o ev [] ma n se r c mo]. repeat split. unfold upd, own_mids. cbn.
  rewrite H, H'. reflexivity.
Qed.
Lemma does_sent s m : does (act [] [] [EvSetSent m false]) s (add_sent (ev (mark_gone s m) (EvSetSent m false)) m).
Proof. exists (s_in s), []. destruct s as [i o ev [] ma n se r c mo]. repeat split. Qed.
Lemma does_nomsgs s b : does {| e_rd := []; e_wr := []; e_ev := []; e_rc := []; e_nm := Some b |} s (set_nomsgs s b).
Proof. exists (s_in s), []. destruct s as [i o e [] m n se r c mo]. repeat split. Qed.
Lemma does_recv s m : does {| e_rd := []; e_wr := []; e_ev := []; e_rc := [m]; e_nm := None |} s (add_recv s m).
Proof. exists (s_in s), []. destruct s as [i o e [] ma n se r c mo]. repeat split. Qed.

Lemma does_fold_wr {B} (f : B -> bytes) l : forall s,
  does (act [] (concat (map f l)) []) s (fold_left (fun acc x => wr acc (f x)) l s).
Proof.
  induction l as [|x l IH]; intros s; [apply does_refl|]. exact (does_trans _ _ _ _ _ (does_wr s (f x)) (IH _)).
Qed.

(* the fields of the state, read off *)
Lemma does_in d s s' : does d s s' -> s_in s = e_rd d ++ s_in s'.
Proof. intros (r&w&I&_&->). exact I. Qed.
Lemma does_wire d s s' : does d s s' -> wire s' = wire s ++ e_wr d.
Proof. intros (r&w&_&W&->). unfold wire. cbn [upd s_out]. rewrite rev_app_distr, concat_app. f_equal. exact W. Qed.
Lemma does_out d s s' : does d s s' -> exists w, s_out s' = w ++ s_out s.
Proof. intros (r&w&_&_&->). exists w. reflexivity. Qed.
Lemma does_ev_eq d s s' : does d s s' -> s_ev s' = e_ev d ++ s_ev s.
Proof. intros (r&w&_&_&->). reflexivity. Qed.
Lemma does_h d s s' : does d s s' -> s_h s' = set_gone (s_h s) (own_mids (e_ev d) ++ h_gone (s_h s)).
Proof. intros (r&w&_&_&->). reflexivity. Qed.
Lemma does_outbox d s s' : does d s s' -> h_outbox (s_h s') = h_outbox (s_h s).
Proof. intros (r&w&_&_&->). reflexivity. Qed.
Lemma does_static d s s' : does d s s' -> s_master s' = s_master s /\ s_cfg s' = s_cfg s /\ s_motd s' = s_motd s.
Proof. intros (r&w&_&_&->). repeat split. Qed.
Lemma does_nm d s s' : does d s s' -> s_remote_nomsgs s' = match e_nm d with Some b => b | None => s_remote_nomsgs s end.
Proof. intros (r&w&_&_&->). reflexivity. Qed.
Lemma does_sent_eq d s s' : does d s s' -> s_sent s' = flat_map sent_mid (e_ev d) ++ s_sent s.
Proof. intros (r&w&_&_&->). reflexivity. Qed.
Lemma does_recv_eq d s s' : does d s s' -> s_recv s' = e_rc d ++ s_recv s.
Proof. intros (r&w&_&_&->). reflexivity. Qed.

(* s' comes from s by an effect whose events all satisfy P *)
Definition via (P : event -> Prop) (s s' : sess) : Prop := exists d, does d s s' /\ Forall P (e_ev d).

Lemma does_via (P : event -> Prop) d s s' : does d s s' -> Forall P (e_ev d) -> via P s s'.
Proof. intros H F. exists d. split; assumption. Qed.
Lemma via_refl P s : via P s s.
Proof. exact (does_via P _ _ _ (does_refl s) (Forall_nil _)). Qed.
Lemma via_trans P a b c : via P a b -> via P b c -> via P a c.
Proof. intros (d1&H1&F1) (d2&H2&F2). exists (andthen d1 d2). split; [exact (does_trans _ _ _ _ _ H1 H2)|apply Forall_app; auto]. Qed.
Lemma via_mono (P Q : event -> Prop) s s' : (forall e, P e -> Q e) -> via P s s' -> via Q s s'.
Proof. intros H (d&D&F). exists d. split; [exact D|exact (Forall_impl _ H F)]. Qed.
Lemma via_wr P s b : via P s (wr s b).
Proof. exact (does_via P _ _ _ (does_wr s b) (Forall_nil _)). Qed.
Lemma via_ev (P : event -> Prop) s e : P e -> own_mid e = [] -> via P s (ev s e).
Proof. intros H He. exact (does_via P _ _ _ (does_ev s e He) (Forall_cons _ H (Forall_nil _))). Qed.

(* the log and the handler *)
Lemma via_log P s s' : via P s s' ->
  exists E, s_ev s' = E ++ s_ev s /\ Forall P E /\ s_h s' = set_gone (s_h s) (own_mids E ++ h_gone (s_h s)).
Proof. intros (d&D&F). exists (e_ev d). split; [exact (does_ev_eq _ _ _ D)|]. split; [exact F|exact (does_h _ _ _ D)]. Qed.
Lemma via_outbox P s s' : via P s s' -> h_outbox (s_h s') = h_outbox (s_h s).
Proof. intros (d&D&_). exact (does_outbox _ _ _ D). Qed.
Lemma own_mids_none E : Forall (fun e => own_mid e = []) E -> own_mids E = [].
Proof. induction 1 as [|e E He _ IH]; [reflexivity|]. unfold own_mids in *. cbn [flat_map]. rewrite He, IH. reflexivity. Qed.
Lemma via_h s s' : via (fun e => own_mid e = []) s s' -> s_h s' = s_h s.
Proof. intros (d&D&F). rewrite (does_h _ _ _ D), (own_mids_none _ F). destruct (s_h s); reflexivity. Qed.
Lemma via_in P s s' : via P s s' -> exists p, s_in s = p ++ s_in s'.
Proof. intros (d&D&_). exists (e_rd d). exact (does_in _ _ _ D). Qed.

Definition res_via {A} P (proj : A -> sess) (s : sess) (r : res sess A) : Prop :=
  match r with ROk a => via P s (proj a) | RFail _ s' => via P s s' | RPanic => False end.
Lemma res_via_nopanic {A} P proj s (r : res sess A) : res_via P proj s r -> r <> RPanic.
Proof. intros H E. rewrite E in H. exact H. Qed.

(* the relation satisfied by the functions that only read *)
Definition ro (s s' : sess) : Prop := exists p r, s_in s = p ++ r /\ s' = set_in s r.

Lemma ro_set_in s p r : s_in s = p ++ r -> ro s (set_in s r).
Proof. intros H. exists p, r. split; [exact H|reflexivity]. Qed.
Lemma ro_refl s : ro s s.
Proof. exists [], (s_in s). split; [reflexivity|destruct s; reflexivity]. Qed.
Lemma ro_trans a b c : ro a b -> ro b c -> ro a c.
Proof.
  intros (p&r&A&->) (q&r'&B&->). cbn [set_in s_in] in B. exists (p ++ q), r'.
  split; [rewrite A, B; apply app_assoc|reflexivity].
Qed.
Lemma ro_set_in2 s a p r : ro s (set_in s a) -> a = p ++ r -> ro s (set_in s r).
Proof. intros H E. eapply ro_trans; [exact H|]. exact (ro_set_in (set_in s a) p r E). Qed.
Lemma ro_via P s s' : ro s s' -> via P s s'.
Proof. intros (p&r&H&->). exact (does_via P _ _ _ (does_set_in s p r H) (Forall_nil _)). Qed.

Definition res_ro {A} (s : sess) (r : res sess (A * sess)) : Prop :=
  match r with ROk (_, s') => ro s s' | RFail _ s' => ro s s' | RPanic => False end.

Lemma res_ro_trans {A} s s1 (r : res sess (A * sess)) : ro s s1 -> res_ro s1 r -> res_ro s r.
Proof. intros H. destruct r as [[a s']|e s'|]; cbn [res_ro]; auto; intros; eapply ro_trans; eassumption. Qed.
Lemma res_ro_via {A} P s (r : res sess (A * sess)) : res_ro s r -> res_via P snd s r.
Proof. destruct r as [[a s']|e s'|]; cbn; auto using ro_via. Qed.

Lemma next_line_ro pe s : res_ro s (next_line pe s).
Proof.
  unfold next_line. destruct (read_until 13 (s_in s)) as [[raw rest]|] eqn:E.
  - apply read_until_some in E. destruct (pe && err_line (clean_string raw)); exact (ro_set_in s _ _ E).
  - apply (ro_set_in s (s_in s)). symmetry. apply app_nil_r.
Qed.

Lemma next_line_cr pe s l s' : next_line pe s = ROk (l, s') -> exists raw, s_in s = (raw ++ [13]) ++ s_in s'.
Proof.
  unfold next_line. destruct (read_until 13 (s_in s)) as [[raw rest]|] eqn:E; [|discriminate].
  apply read_until_some in E. destruct (pe && err_line (clean_string raw)); intros H; inversion H; subst.
  exists raw. exact E.
Qed.

(* what a line of the greeting does to the loop of read_handshake: go on (with the SID or the
   challenge it carried), stop, or fail *)
Inductive rhl := RhGo (d : hsdata) | RhStop | RhBad.

Definition rh_line (d : hsdata) (line : bytes) : rhl :=
  if prefixb [91] line && suffixb [93] line then
    match parse_sid line with
    | Some sid =>
        if containsb sFBComp2 sid then RhGo {| hd_sid := sid; hd_have_sid := true; hd_challenge := hd_challenge d |}
        else RhBad
    | None => RhBad
    end
  else if prefixb str_FWp line then (if prefixb str_FWfull line then RhGo d else RhBad)
  else if prefixb str_PQ line then
    (if (length line <? 5)%nat then RhBad
     else RhGo {| hd_sid := hd_sid d; hd_have_sid := hd_have_sid d; hd_challenge := skipn 5 line |})
  else if suffixb [62] line then RhStop else RhGo d.

Lemma read_handshake_eq f s d :
  read_handshake (S f) s d =
  match s_in s with
  | [] => RFail EConnLost s
  | b :: _ =>
      if (b =? 70) && s_master s then ROk (d, s)
      else match next_line false s with
           | ROk (line, s1) =>
               match rh_line d line with
               | RhGo d' => read_handshake f s1 d'
               | RhStop => ROk (d, s1)
               | RhBad => RFail EOther s1
               end
           | RFail e s' => RFail e s'
           | RPanic => RPanic
           end
  end.
Proof.
  cbn [read_handshake]. destruct (s_in s) as [|b r]; [reflexivity|]. destruct ((b =? 70) && s_master s); [reflexivity|].
  destruct (next_line false s) as [[line s1]|e s'|]; try reflexivity. unfold rh_line.
  destruct (prefixb [91] line && suffixb [93] line).
  { destruct (parse_sid line) as [sid|]; [|reflexivity]. destruct (containsb sFBComp2 sid); reflexivity. }
  destruct (prefixb str_FWp line); [destruct (prefixb str_FWfull line); reflexivity|].
  destruct (prefixb str_PQ line); [|destruct (suffixb [62] line); reflexivity].
  unfold slice_from. destruct (length line <? 5)%nat eqn:E; [reflexivity|].
  apply Nat.ltb_ge, Nat.leb_le in E. rewrite E. reflexivity.
Qed.

Lemma read_handshake_ro fuel : forall s d, res_ro s (read_handshake fuel s d).
Proof.
  induction fuel as [|f IH]; intros s d; [apply ro_refl|].
  rewrite read_handshake_eq. destruct (s_in s) as [|b r]; [apply ro_refl|].
  destruct ((b =? 70) && s_master s); [apply ro_refl|].
  pose proof (next_line_ro false s) as Hn.
  destruct (next_line false s) as [[line s1]|e s'|]; cbn [res_ro] in Hn; [|exact Hn|exact Hn].
  destruct (rh_line d line); [eapply res_ro_trans; [exact Hn|apply IH]|exact Hn|exact Hn].
Qed.

Lemma read_reply_ro fuel : forall s, res_ro s (read_reply fuel s).
Proof.
  induction fuel as [|f IH]; intros s; [apply ro_refl|]. cbn [read_reply].
  pose proof (next_line_ro true s) as Hn.
  destruct (next_line true s) as [[line s1]|e s'|]; cbn [res_ro] in Hn; [|exact Hn|exact Hn].
  destruct (prefixb [70; 83; 32] line); [exact Hn|].
  destruct (prefixb [59] line); [|exact Hn]. eapply res_ro_trans; [exact Hn|apply IH].
Qed.

Lemma read_reply_cr : forall f s l s', read_reply f s = ROk (l, s') -> exists p0, s_in s = (p0 ++ [13]) ++ s_in s'.
Proof.
  induction f as [|f IH]; intros s l s' H; cbn [read_reply] in H; [discriminate|].
  destruct (next_line true s) as [[line s1]|e s1|] eqn:En; try discriminate.
  pose proof (next_line_cr _ _ _ _ En) as Hc.
  destruct (prefixb [70; 83; 32] line); [inversion H; subst; exact Hc|].
  destruct (prefixb [59] line); [|discriminate].
  apply IH in H. destruct H as [p1 H]. destruct Hc as [p0 Hc].
  exists ((p0 ++ [13]) ++ p1). rewrite Hc, H, !app_assoc. reflexivity.
Qed.

Lemma take_n_some n : forall inp acc sum acc' rest sum',
  take_n n inp acc sum = Some (acc', rest, sum') -> exists p, inp = p ++ rest.
Proof.
  induction n as [|k IH]; intros inp acc sum acc' rest sum' H; cbn [take_n] in H.
  - inversion H; subst. exists []. reflexivity.
  - destruct inp as [|x r]; [discriminate|]. apply IH in H. destruct H as [p ->]. exists (x :: p). reflexivity.
Qed.

Lemma read_frames_rest fuel : forall inp buf sum cs,
  exists p, inp = p ++ match read_frames fuel inp buf sum cs with FOk _ r => r | FErr _ r => r end.
Proof.
  induction fuel as [|f IH]; intros inp buf sum cs; cbn [read_frames]; [exists []; reflexivity|].
  destruct inp as [|c r]; [exists []; reflexivity|].
  destruct (c =? CHRSTX).
  - destruct r as [|l r1]; [exists [c]; reflexivity|]. cbn iota beta zeta.
    match goal with |- context [take_n ?a ?b ?c ?d] =>
      destruct (take_n a b c d) as [[[buf' r2] sum']|] eqn:ET end; [|eexists; symmetry; apply app_nil_r].
    apply take_n_some in ET. destruct ET as [q ->]. destruct (IH r2 buf' sum' cs) as [q' Hq'].
    exists (c :: l :: q ++ q'). rewrite Hq' at 1. cbn [app]. rewrite <- app_assoc. reflexivity.
  - destruct (c =? CHREOT); [|exists [c]; reflexivity].
    destruct r as [|k r1]; cbn iota beta zeta.
    + destruct (negb _); [exists [c]; reflexivity|]. destruct (negb _); exists [c]; reflexivity.
    + destruct (negb _); [exists [c; k]; reflexivity|]. destruct (negb _); exists [c; k]; reflexivity.
Qed.

(* a transfer that is read through has the header "SOH len title NUL offset NUL" and frames that end well; however
   the reading ends, only input has been taken *)
Lemma read_compressed_reads s p :
  match read_compressed s p with
  | ROk (cd, s') =>
      ro s s' /\
      exists hl r1 title r2 offs r3,
        s_in s = CHRSOH :: hl :: r1 /\ read_until CHRNUL r1 = Some (title, r2) /\
        read_until CHRNUL r2 = Some (offs, r3) /\ N.to_nat hl = (length title + length offs + 2)%nat /\
        read_frames (S (length r3)) r3 [] 0 (i_csize p) = FOk cd (s_in s') /\ s' = set_in s (s_in s')
  | RFail _ s' => ro s s'
  | RPanic => False
  end.
Proof.
  unfold read_compressed. destruct (s_in s) as [|c r] eqn:Ein; [apply ro_refl|].
  assert (H0 : ro s (set_in s (c :: r))) by (apply (ro_set_in s []); exact Ein).
  destruct (c =? CHRSOH) eqn:Ec.
  - apply N.eqb_eq in Ec. subst c. destruct r as [|hl r1]; [apply (ro_set_in2 s _ [CHRSOH] [] H0); reflexivity|].
    assert (H1 : ro s (set_in s r1)) by (apply (ro_set_in2 s _ [CHRSOH; hl] r1 H0); reflexivity).
    assert (L : forall a, ro s (set_in s a) -> ro s (set_in s [])).
    { intros a H. apply (ro_set_in2 s a a [] H). symmetry. apply app_nil_r. }
    destruct (read_until CHRNUL r1) as [[title r2]|] eqn:E1; [|exact (L _ H1)].
    pose proof (ro_set_in2 s _ _ _ H1 (read_until_some _ _ _ _ E1)) as H2.
    destruct (read_until CHRNUL r2) as [[offs r3]|] eqn:E2; [|exact (L _ H2)].
    pose proof (ro_set_in2 s _ _ _ H2 (read_until_some _ _ _ _ E2)) as H3.
    destruct (negb (N.to_nat hl =? length title + length offs + 2)%nat) eqn:El; [exact H3|].
    apply negb_false_iff, Nat.eqb_eq in El.
    cbv zeta. set (digits := match offs with 45 :: d => d | 43 :: d => d | _ => offs end).
    destruct digits as [|x xs]; [exact H3|].
    destruct (num_of_digits (x :: xs) 0) as [v|]; [|exact H3].
    destruct (9223372036854775807 <? v); [exact H3|]. destruct (negb (v =? 0)); [exact H3|].
    destruct (read_frames_rest (S (length r3)) r3 [] 0 (i_csize p)) as [q Hq].
    destruct (read_frames (S (length r3)) r3 [] 0 (i_csize p)) as [d r4|e r4] eqn:E; [|exact (ro_set_in2 s _ _ _ H3 Hq)].
    split; [exact (ro_set_in2 s _ _ _ H3 Hq)|]. exists hl, r1, title, r2, offs, r3. repeat split; assumption || reflexivity.
  - assert (H1 : ro s (set_in s r)) by (apply (ro_set_in2 s _ [c] r H0); reflexivity).
    destruct (c =? 42); [|exact H1].
    pose proof (next_line_ro true (set_in s r)) as Hn.
    destruct (next_line true (set_in s r)) as [[l s6]|e s'|]; cbn [res_ro] in Hn; [| |exact Hn];
      exact (ro_trans _ _ _ H1 Hn).
Qed.

Lemma read_compressed_ro s p : res_ro s (read_compressed s p).
Proof.
  pose proof (read_compressed_reads s p) as A. destruct (read_compressed s p) as [[cd s']|e s'|]; [exact (proj1 A)|exact A|exact A].
Qed.

Lemma read_compressed_ok s p cd s' : read_compressed s p = ROk (cd, s') ->
  exists hl r1 title r2 offs r3,
    s_in s = CHRSOH :: hl :: r1 /\ read_until CHRNUL r1 = Some (title, r2) /\
    read_until CHRNUL r2 = Some (offs, r3) /\ N.to_nat hl = (length title + length offs + 2)%nat /\
    read_frames (S (length r3)) r3 [] 0 (i_csize p) = FOk cd (s_in s') /\ s' = set_in s (s_in s').
Proof. intros H. pose proof (read_compressed_reads s p) as A. rewrite H in A. exact (proj2 A). Qed.

(* what stands behind a successful ProcessInbound call: data is the decompressed, parsed form of some cdata.
   The state s and the proposal p are existential and not tied to any session, and a state whose input is a
   framed transfer of cdata always exists, so the read_compressed conjunct adds nothing to
   proposal_message cdata = MOk mid data *)
Definition good_delivery (mid data : bytes) : Prop :=
  exists cdata s p s', read_compressed s p = ROk (cdata, s') /\ proposal_message cdata = MOk mid data.

(* ---- the writers ---- *)

Definition is_get (e : event) : Prop := e = EvGetOutbound.
Definition is_defer (e : event) : Prop := match e with EvSetDeferred _ => True | _ => False end.
Definition is_ans (e : event) : Prop := match e with EvAnswer _ _ => True | _ => False end.
Definition is_proc (e : event) : Prop := match e with EvProcess _ _ _ => True | _ => False end.

Lemma outbound_does s : does (act [] [] (if h_present (s_h s) then [EvGetOutbound] else [])) s (snd (outbound s)).
Proof. unfold outbound. destruct (h_present (s_h s)); [exact (does_ev s EvGetOutbound eq_refl)|apply does_refl]. Qed.
Lemma outbound_via s : via is_get s (snd (outbound s)).
Proof. apply (does_via _ _ _ _ (outbound_does s)). destruct (h_present (s_h s)); repeat constructor. Qed.

(* a writer reads nothing, and fails only for a reason of its own *)
Lemma write_compressed_does s p off :
  match write_compressed s p off with
  | ROk s' => exists w, does (act [] w []) s s'
  | RFail e s' => e = EOther /\ exists w, does (act [] w []) s s'
  | RPanic => False
  end.
Proof.
  unfold write_compressed.
  destruct ((off <? 0)%Z || (Z.of_nat (length (o_cdata p)) <? off)%Z); [split; [reflexivity|eexists; apply does_refl]|].
  cbv zeta. destruct (Z.of_nat (length (o_cdata p)) <? 6)%Z; [split; [reflexivity|]|]; eexists.
  - apply does_wr.
  - exact (does_trans _ _ _ _ _ (does_wr s _) (does_wr _ _)).
Qed.

(* how often a MID occurs in a list of MIDs *)
Definition occ (m : bytes) (l : list bytes) : nat := count_occ (list_eq_dec N.eq_dec) l m.

(* every entry of the block goes at most once into the log (deferred) or into the list of what was sent or rejected *)
Lemma send_accepted_does props : forall s ans sent,
  match send_accepted s props ans sent with
  | ROk (s', sent') => exists w E, does (act [] w E) s s' /\ Forall is_defer E /\
      forall m, (occ m (map fst sent') + occ m (own_mids E) <= occ m (map fst sent) + occ m (map o_mid props))%nat
  | RFail e s' => e = EOther /\ exists w E, does (act [] w E) s s' /\ Forall is_defer E /\
      forall m, (occ m (own_mids E) <= occ m (map o_mid props))%nat
  | RPanic => False
  end.
Proof.
  induction props as [|p ps IH]; intros s ans sent; cbn [send_accepted].
  { exists [], []. split; [apply does_refl|]. split; [constructor|intros m; cbn; lia]. }
  (* after a first step s -> s1 that logged E1 and put k in front of the list, the rest; E1 and k are empty or
     the MID of p, not both the latter *)
  assert (T : forall s1 w1 E1 k, does (act [] w1 E1) s s1 -> Forall is_defer E1 ->
            (forall m, occ m k + occ m (own_mids E1) <= occ m [o_mid p])%nat ->
            forall ans' sent', map fst sent' = k ++ map fst sent ->
            match send_accepted s1 ps ans' sent' with
            | ROk (s', sent'') => exists w E, does (act [] w E) s s' /\ Forall is_defer E /\
                forall m, (occ m (map fst sent'') + occ m (own_mids E) <= occ m (map fst sent) + occ m (map o_mid (p :: ps)))%nat
            | RFail e s' => e = EOther /\ exists w E, does (act [] w E) s s' /\ Forall is_defer E /\
                forall m, (occ m (own_mids E) <= occ m (map o_mid (p :: ps)))%nat
            | RPanic => False
            end).
  { intros s1 w1 E1 k D1 F1 C1 ans' sent' Ek. specialize (IH s1 ans' sent'). rewrite Ek in IH.
    destruct (send_accepted s1 ps ans' sent') as [[s' l]|e s'|]; [|destruct IH as [-> IH]; split; [reflexivity|]|exact IH];
      destruct IH as (w&E&D&F&C); exists (w1 ++ w), (E ++ E1);
      (split; [exact (does_trans _ _ _ _ _ D1 D)|]); (split; [apply Forall_app; auto|]);
      intros m; specialize (C m); specialize (C1 m); unfold occ in *; rewrite own_mids_app, !count_occ_app in *;
      change (map o_mid (p :: ps)) with ([o_mid p] ++ map o_mid ps); rewrite count_occ_app; unfold bytes in *; lia. }
  assert (Z : forall m, (occ m [o_mid p] + occ m (own_mids []) <= occ m [o_mid p])%nat) by (intros m; cbn; lia).
  assert (Z0 : forall m, (occ m [] + occ m (own_mids []) <= occ m [o_mid p])%nat) by (intros m; apply Nat.le_0_l).
  destruct ans as [|a r]; [exact (T s [] [] [] (does_refl s) (Forall_nil _) Z0 [] sent eq_refl)|].
  destruct a as [|[| |] off].
  - exact (T s [] [] [] (does_refl s) (Forall_nil _) Z0 r sent eq_refl).
  - pose proof (write_compressed_does s p off) as Hw.
    destruct (write_compressed s p off) as [s1|e s1|]; [| |exact Hw].
    + destruct Hw as [w Hw]. exact (T s1 w [] [o_mid p] Hw (Forall_nil _) Z r ((o_mid p, false) :: sent) eq_refl).
    + destruct Hw as [-> [w Hw]]. split; [reflexivity|]. exists w, []. split; [exact Hw|]. split; [constructor|intros m; apply Nat.le_0_l].
  - exact (T s [] [] [o_mid p] (does_refl s) (Forall_nil _) Z r ((o_mid p, true) :: sent) eq_refl).
  - apply (T _ [] _ [] (does_mark s (o_mid p) (EvSetDeferred (o_mid p)) eq_refl eq_refl)); [repeat constructor| |reflexivity].
    intros m. apply Nat.le_refl.
Qed.

Lemma answer_props_does props : forall s seen acc,
  exists E, does (act [] [] E) s (fst (answer_props s props seen acc)) /\ Forall is_ans E.
Proof.
  induction props as [|p r IH]; intros s seen acc; cbn [answer_props]; [exists []; split; [apply does_refl|constructor]|].
  destruct (mem_bytes (i_mid p) seen || negb ((i_code p =? Wl2kProposal) || (i_code p =? GzipProposal))
            || negb (h_present (s_h s))); [apply IH|].
  destruct (IH (ev s (EvAnswer (i_mid p) (policy_of (s_h s) (i_mid p)))) (i_mid p :: seen)
               (with_answer p (policy_of (s_h s) (i_mid p)) :: acc)) as (E&D&F).
  exists (E ++ [EvAnswer (i_mid p) (policy_of (s_h s) (i_mid p))]).
  split; [exact (does_trans _ _ _ _ _ (does_ev s (EvAnswer _ _) eq_refl) D)|].
  apply Forall_app. split; [exact F|repeat constructor].
Qed.

(* what a master writes before it reads: its message of the day and its greeting *)
Definition fw_text (fw : list bytes) : bytes := concat (map (fun a => 32 :: a) fw).
Definition sid_of (cfg : hs_cfg) : bytes :=
  if hs_gzip cfg then [66; 50; 70; 72; 77; 71; 36] else [66; 50; 70; 72; 77; 36].
Definition line1 (cfg : hs_cfg) : bytes := 59 :: 70 :: 87 :: 58 :: fw_text (hs_fw cfg).
Definition line2 (cfg : hs_cfg) : bytes :=
  91 :: (hs_name cfg ++ 45 :: hs_version cfg) ++ 45 :: sid_of cfg ++ [93].
Definition line3 (cfg : hs_cfg) : bytes :=
  59 :: 32 :: hs_target cfg ++ 32 :: 68 :: 69 :: 32 :: hs_mycall cfg ++ 32 :: 40 :: hs_locator cfg ++
  41 :: (if hs_master cfg then [62] else []).
Definition hello (cfg : hs_cfg) : bytes := line1 cfg ++ 13 :: line2 cfg ++ 13 :: line3 cfg ++ [13].

Lemma fw_items_nil cb fw : forall i, fw_items [] cb i fw = fw_text fw.
Proof.
  induction fw as [|a r IH]; intros i; [reflexivity|].
  cbn [fw_items]. rewrite IH. unfold fw_text. cbn [map concat]. destruct i; reflexivity.
Qed.

Lemma sid_line_eq cfg : sid_line cfg = line2 cfg ++ [CR].
Proof.
  unfold sid_line, line2, sid_of. destruct (hs_gzip cfg);
    [change (firstn (length localSID - 1) localSID ++ sGzip ++ lastn 1 localSID) with [66; 50; 70; 72; 77; 71; 36]
    |change localSID with [66; 50; 70; 72; 77; 36]]; repeat (rewrite <- app_assoc; cbn [app]); reflexivity.
Qed.

Lemma de_line_eq cfg : de_line cfg = line3 cfg ++ [CR].
Proof. unfold de_line, line3, str_DE, CR. destruct (hs_master cfg); cbn [app]; repeat (rewrite <- app_assoc; cbn [app]); reflexivity. Qed.

Lemma send_hello cfg : send_handshake cfg [] = Some (hello cfg).
Proof.
  unfold send_handshake. destruct (hs_cb cfg); rewrite fw_items_nil, sid_line_eq, de_line_eq; unfold hello, line1, str_FW, CR;
    repeat (rewrite <- app_assoc; cbn [app]); reflexivity.
Qed.

Definition d0 : hsdata := {| hd_sid := []; hd_have_sid := false; hd_challenge := [] |}.

(* the handshake: the master greets first, either side reads the peer's greeting, the slave answers it *)
Definition greeted (s : sess) : sess :=
  if s_master s then wr (fold_left (fun acc l => wr acc (l ++ [13])) (s_motd s) s) (hello (s_cfg s)) else s.
Definition hs_good (d : hsdata) : bool := hd_have_sid d && negb (beq_bytes (hd_sid d) []).

Definition hs_greet (s : sess) : bytes :=
  if s_master s then concat (map (fun l => l ++ [13]) (s_motd s)) ++ match send_handshake (s_cfg s) [] with Some b => b | None => [] end
  else [].

Lemma greeted_does s : does (act [] (hs_greet s) []) s (greeted s).
Proof.
  unfold greeted, hs_greet. destruct (s_master s); [|apply does_refl]. rewrite send_hello.
  exact (does_trans _ _ _ _ _ (does_fold_wr (fun l => l ++ [13]) (s_motd s) s) (does_wr _ _)).
Qed.

Lemma handshake_eq s :
  handshake s =
  match read_handshake (S (length (s_in s))) (greeted s) d0 with
  | ROk (d, s1) =>
      if hs_good d then
        if s_master s then ROk s1
        else match send_handshake (s_cfg s) (hd_challenge d) with Some g => ROk (wr s1 g) | None => RFail EOther s1 end
      else RFail EOther s1
  | RFail e s' => RFail e s'
  | RPanic => RPanic
  end.
Proof.
  unfold handshake, do_send_handshake, greeted. cbv zeta. fold d0. destruct (s_master s).
  - destruct (does_fold_wr (fun l => l ++ [13]) (s_motd s) s) as (r&w&_&_&->). cbn [upd s_cfg]. rewrite send_hello.
    destruct (read_handshake _ _ d0) as [[d s1]|e s'|]; reflexivity.
  - pose proof (read_handshake_ro (S (length (s_in s))) s d0) as Hr.
    destruct (read_handshake _ s d0) as [[d s1]|e s'|]; try reflexivity.
    destruct Hr as (p&r&_&->). reflexivity.
Qed.

(* the handshake logs nothing and leaves the flag alone; a master writes its greeting whatever it reads and nothing
   else, a slave writes (w) only when it has read a good greeting *)
Lemma handshake_does s :
  match handshake s with
  | ROk s' => exists p w, does (act p (hs_greet s ++ w) []) s s' /\ (s_master s = true -> w = [])
  | RFail _ s' => exists p, does (act p (hs_greet s) []) s s'
  | RPanic => False
  end.
Proof.
  pose proof (greeted_does s) as G. rewrite handshake_eq. pose proof (read_handshake_ro (S (length (s_in s))) (greeted s) d0) as Hr.
  destruct (read_handshake _ _ d0) as [[d s1]|e s'|]; cbn [res_ro] in Hr; [| |exact Hr];
    destruct Hr as (p&r&E&->);
    assert (D : does (act p (hs_greet s) []) s (set_in (greeted s) r))
      by (apply (does_eq _ _ _ _ (does_trans _ _ _ _ _ G (does_set_in _ p r E))); unfold andthen, act; cbn; rewrite app_nil_r; reflexivity).
  2:{ exists p. exact D. }
  assert (D0 : exists p w, does (act p (hs_greet s ++ w) []) s (set_in (greeted s) r) /\ (s_master s = true -> w = []))
    by (exists p, []; rewrite app_nil_r; split; [exact D|reflexivity]).
  destruct (hs_good d); [|exists p; exact D]. destruct (s_master s); [exact D0|].
  destruct (send_handshake (s_cfg s) (hd_challenge d)) as [b|]; [|exists p; exact D].
  exists p, b. split; [|discriminate].
  apply (does_eq _ _ _ _ (does_trans _ _ _ _ _ D (does_wr _ b))). unfold andthen, act. cbn. rewrite app_nil_r. reflexivity.
Qed.

Lemma handshake_quiet s :
  match handshake s with
  | ROk s' => exists p w, does (act p w []) s s'
  | RFail _ s' => exists p w, does (act p w []) s s'
  | RPanic => False
  end.
Proof.
  pose proof (handshake_does s) as H.
  destruct (handshake s); [destruct H as (p&w&D&_)|destruct H as (p&D)|exact H]; eauto.
Qed.

(* a message is handed over only with a payload that passed the reader and parsed *)
Definition good_proc (e : event) : Prop :=
  match e with EvProcess mid data ok => ok = true -> good_delivery mid data | _ => False end.

Lemma good_proc_is_proc e : good_proc e -> is_proc e.
Proof. destruct e; cbn; auto. Qed.

Definition rc_via P (s : sess) (r : rres) : Prop :=
  match r with RcOk s' => via P s s' | RcErr _ s' => via P s s' | RcPanic => False | RcUnknown => True end.

Lemma receive_accepted_via : forall props s, rc_via good_proc s (receive_accepted s props).
Proof.
  induction props as [|p r IH]; intros s; [apply via_refl|]. cbn [receive_accepted].
  destruct (i_answer p); try apply IH.
  pose proof (res_ro_via good_proc _ _ (read_compressed_ro s p)) as Hr.
  destruct (read_compressed s p) as [[cdata s1]|e s'|] eqn:ER; cbn [res_via snd] in Hr; [|exact Hr|exact Hr].
  destruct (proposal_message cdata) as [mid data|e|] eqn:EM; [|exact Hr|exact I].
  assert (Hev : forall ok, (ok = true -> good_delivery mid data) -> via good_proc s (ev s1 (EvProcess mid data ok)))
    by (intros ok G; exact (via_trans _ _ _ _ Hr (via_ev good_proc s1 (EvProcess mid data ok) G eq_refl))).
  destruct (mem_bytes mid (h_fail (s_h s1))); cbn [negb]; [apply Hev; discriminate|].
  specialize (IH (add_recv (ev s1 (EvProcess mid data true)) (i_mid p))).
  assert (H2 : via good_proc s (add_recv (ev s1 (EvProcess mid data true)) (i_mid p))).
  { eapply via_trans; [apply Hev; intros _; exists cdata, s, p, s1; auto|].
    exact (does_via _ _ _ _ (does_recv _ _) (Forall_nil _)). }
  destruct (receive_accepted _ r); cbn [rc_via] in *; auto; eapply via_trans; eassumption.
Qed.

(* one turn of the loop: its verdict, or the state in which the other side's turn begins *)
Definition turn (my : bool) (s : sess) : xres * sess + sess :=
  if my then
    match handle_outbound s with
    | ROk (quit, s1) => if quit then inl (XNil, s1) else inr s1
    | RFail e s' => inl (xerr e, s')
    | RPanic => inl (XPanic, s)
    end
  else
    match inbound_loop (S (length (s_in s))) s [] [] with
    | RFail e s' => inl (xerr e, s')
    | RPanic => inl (XPanic, s)
    | ROk (quit, props, s1) =>
        match receive_accepted s1 props with
        | RcOk s2 => if quit then inl (XNil, s2) else inr s2
        | RcErr e s' => inl (xerr e, s')
        | RcPanic => inl (XPanic, s1)
        | RcUnknown => inl (XUnknown, s1)
        end
    end.

Lemma turns_eq f my s :
  turns (S f) my s = match turn my s with inl t => t | inr s1 => turns f (negb my) s1 end.
Proof.
  cbn [turns]. unfold turn. destruct my.
  - destruct (handle_outbound s) as [[[|] s1]|e s1|]; reflexivity.
  - destruct (inbound_loop _ s [] []) as [[[q props] s1]|e s1|]; try reflexivity.
    destruct (receive_accepted s1 props); try reflexivity. destruct q; reflexivity.
Qed.

(* induction over the turns: a reflexive and transitive relation that every turn keeps holds between the
   first state and the last, and the verdict is the last turn's, or the fuel ran out *)
Lemma turns_rt (P : xres -> Prop) (R : sess -> sess -> Prop) :
  P XOutOfFuel -> (forall s, R s s) -> (forall a b c, R a b -> R b c -> R a c) ->
  (forall my s, match turn my s with inl (r, s') => P r /\ R s s' | inr s' => R s s' end) ->
  forall f my s, P (fst (turns f my s)) /\ R s (snd (turns f my s)).
Proof.
  intros P0 Hr Ht Hturn. induction f as [|f IH]; intros my s; [split; [exact P0|apply Hr]|]. rewrite turns_eq.
  specialize (Hturn my s). destruct (turn my s) as [[r s']|s']; [exact Hturn|].
  destruct (IH (negb my) s') as [I1 I2]. split; [exact I1|exact (Ht _ _ _ Hturn I2)].
Qed.

Lemma next_line_nopanic pe s : next_line pe s <> RPanic.
Proof. exact (res_via_nopanic _ _ _ _ (res_ro_via (fun _ => True) _ _ (next_line_ro pe s))). Qed.
Lemma handshake_nopanic s : handshake s <> RPanic.
Proof. intros E. pose proof (handshake_quiet s) as H. rewrite E in H. exact H. Qed.
Lemma read_reply_nopanic fuel : forall s, read_reply fuel s <> RPanic.
Proof. intros s. exact (res_via_nopanic _ _ _ _ (res_ro_via (fun _ => True) _ _ (read_reply_ro fuel s))). Qed.
Lemma receive_accepted_nopanic props : forall s, receive_accepted s props <> RcPanic.
Proof. intros s E. pose proof (receive_accepted_via props s) as H. rewrite E in H. exact H. Qed.

Lemma take_n_extends n : forall inp acc s b' r' s',
  take_n n inp acc s = Some (b', r', s') -> exists x, b' = x ++ acc.
Proof.
  induction n as [|n IHn]; intros inp acc s b' r' s' Hn.
  - injection Hn as <- _ _. exists []. reflexivity.
  - cbn in Hn. destruct inp as [|y inp]; [discriminate|]. apply IHn in Hn. destruct Hn as [x ->].
    exists (x ++ [y]). rewrite <- app_assoc. reflexivity.
Qed.

(* an accepted transfer has as many data bytes as the compressed size announced in the proposal *)
Lemma read_frames_ok_facts fuel : forall inp buf sum csize data rest,
  read_frames fuel inp buf sum csize = FOk data rest ->
  csize = Z.of_nat (length data) /\ exists pre, data = rev buf ++ pre.
Proof.
  induction fuel as [|f IH]; intros inp buf sum csize data rest H; [discriminate|].
  cbn [read_frames] in H. destruct inp as [|c r]; [discriminate|].
  destruct (c =? CHRSTX).
  - destruct r as [|l r1]; cbn iota beta zeta in H;
      (match type of H with context [take_n ?a ?b ?c ?d] =>
         destruct (take_n a b c d) as [[[buf' r2] sum']|] eqn:ET end; [|discriminate]);
      (apply IH in H; destruct H as [H1 [pre H2]]; split; [exact H1|];
       apply take_n_extends in ET; destruct ET as [x ->];
       rewrite rev_app_distr in H2; exists (rev x ++ pre); rewrite H2, <- app_assoc; reflexivity).
  - destruct (c =? CHREOT); [|discriminate].
    destruct r as [|k r1]; cbn iota beta zeta in H;
      (match type of H with context [negb ((sum + ?ck) mod 256 =? 0)] =>
         destruct (negb ((sum + ck) mod 256 =? 0)) end; [discriminate|]);
      (destruct (negb (csize =? Z.of_nat (length buf))%Z) eqn:E; [discriminate|]);
      (injection H as <- <-; apply negb_false_iff, Z.eqb_eq in E; rewrite rev'_rev; split;
       [rewrite E, rev_length; reflexivity|exists []; rewrite app_nil_r; reflexivity]).
Qed.

(* what a delivered payload means: the LZHUF reader consumed it to end-of-stream and Close
   succeeded (so, by C08_close_certifies, the CRC-16 and the declared size hold), and the
   message parser accepted the result *)
Theorem proposal_message_ok_facts cdata mid data :
  proposal_message cdata = MOk mid data ->
  exists d d', new_reader true [cdata] = Some d /\
    read_all_loop (S (S (length cdata * 8))) d 512 [] = (data, REof, d') /\
    close_reader d' = ErrNone /\ p_status (read_from data) = RfOk /\
    mid = hget (p_hdr (read_from data)) str_Mid.
Proof.
  unfold proposal_message, decompress. intros H.
  destruct (length cdata <? 6)%nat; [discriminate|].
  destruct (new_reader true [cdata]) as [d|]; [|discriminate].
  destruct (read_all_loop (S (S (length cdata * 8))) d 512 []) as [[out st] d'] eqn:ER.
  destruct st as [| |e]; [discriminate| |destruct e; discriminate].
  destruct (close_reader d') eqn:EC; try discriminate.
  destruct (p_status (read_from out)) as [|eof|e| |] eqn:EP; try discriminate; try (destruct eof; discriminate).
  injection H as <- <-. exists d, d'. repeat split; auto.
Qed.
