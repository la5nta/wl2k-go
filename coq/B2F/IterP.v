(* B2F/IterP.v -- the iteration `pair_iter` (B2F/PairIter.v) from the empty input converges.  The session of
   a ready pair (hypotheses of DeliverP.complete_exchange_delivers) is a DIALOGUE: chunks written alternately
   by master and slave, a chunk being everything its author writes before it has to wait for input.  Each
   side fed the other's chunks among the first j writes exactly its own among the first j+1 (`dialogue`), so
   a round adds two chunks.  Truncated inputs are followed with the forward lemmas of DeliverP.v plus lemmas
   that a side whose input ends at a chunk boundary stops there with a lost connection and writes nothing
   more; CutP.exchange_cut and its corner (an input ending right behind an EOT byte) are not needed: these
   truncations end behind a complete transfer, checksum byte included. *)
From Coq Require Import List NArith ZArith Bool Lia ZifyN ZifyNat ZifyBool Sorting.Permutation.
From Verif Require Import Base.Bytes Base.BytesP gen.Tables Lzhuf.Dec Msg.Message B2F.Secure B2F.Side B2F.SideP
  B2F.TermP B2F.CodecP B2F.CutP B2F.PairDefs B2F.PairLines B2F.PairXfer B2F.PairHs B2F.PairP B2F.PairIter B2F.DeliverP.
Import ListNotations.
Open Scope N_scope.

(* the chunks of one party among the first j chunks of D; b = true: the party that wrote the first chunk.
   The chunks of a session: the master's greeting; the slave's greeting and first command; a proposal block;
   an answer line, followed by the answerer's own next command when nothing was accepted; the transfers of a
   block; FF; FQ *)
Fixpoint take (b : bool) (j : nat) (D : list bytes) : bytes :=
  match j with
  | O => []
  | S k => match D with
           | [] => []
           | c :: D' => (if b then c else []) ++ take (negb b) k D'
           end
  end.

Lemma take_nil b j : take b j [] = [].
Proof. destruct j; reflexivity. Qed.
Lemma take_true_S k c D : take true (S k) (c :: D) = c ++ take false k D.
Proof. reflexivity. Qed.
Lemma take_false_S k c D : take false (S k) (c :: D) = take true k D.
Proof. reflexivity. Qed.
Lemma take_0 b D : take b 0 D = [].
Proof. reflexivity. Qed.
Lemma take_false_1 D : take false 1 D = [].
Proof. destruct D; reflexivity. Qed.
Lemma take_false_cons j c D : take false j (c :: D) = take true (pred j) D.
Proof. destruct j; reflexivity. Qed.
Lemma take_false_pred j D : take false (S (pred j)) D = take false j D.
Proof. destruct j; [apply take_false_1|reflexivity]. Qed.

Lemma take_all : forall D b j, (length D <= j)%nat -> take b j D = take b (length D) D.
Proof.
  induction D as [|c D IH]; intros b j H; [apply take_nil|].
  destruct j as [|j]; [cbn [length] in H; lia|]. cbn [length take]. f_equal. apply IH. cbn [length] in H. lia.
Qed.

Lemma take_head r D1 k : take true k ((70 :: r) :: D1) = [] \/ exists r', take true k ((70 :: r) :: D1) = 70 :: r'.
Proof. destruct k as [|k]; [left; reflexivity|right]. cbn [take app]. eexists. reflexivity. Qed.

Lemma fin_lost s : fin_state (xerr EConnLost) s = s.
Proof. reflexivity. Qed.

Lemma read_reply_empty f s : s_in s = [] -> read_reply (S f) s = RFail EConnLost (set_in s []).
Proof. intros H. cbn [read_reply]. unfold next_line. rewrite H. reflexivity. Qed.

Lemma listen_empty sy : s_in sy = [] -> wire (final false sy) = wire sy.
Proof.
  intros H.
  assert (E : inbound_loop (S (length (s_in sy))) sy [] [] = RFail EConnLost (set_in sy [])).
  { cbn [inbound_loop]. unfold next_line. rewrite H. reflexivity. }
  rewrite (final_recv_fail _ _ _ E), fin_lost. reflexivity.
Qed.

(* with nothing to read the receiver fails only at the first accepted transfer *)
Lemma receive_empty B : forall A s, length A = length B -> s_in s = [] ->
  receive_accepted s (zip_props B A) = match xfers B A with [] => RcOk s | _ => RcErr EConnLost s end.
Proof.
  induction B as [|p ps IH]; intros A s Hl Hin; [destruct A; reflexivity|].
  destruct A as [|a r]; [discriminate|]. cbn [length] in Hl. injection Hl as Hl.
  rewrite zip_props_cons. cbn [receive_accepted xfers]. change (i_answer (iprop_of p a)) with a.
  destruct a; cbn [app]; [|apply IH; assumption..].
  unfold read_compressed. rewrite Hin. unfold xfer_bytes. cbv zeta. cbn [app]. reflexivity.
Qed.

Lemma speak_block_empty sx p ps :
  h_present (s_h sx) = true -> sort_props (pendh (s_h sx)) = p :: ps -> s_in sx = [] ->
  wire (final true sx) = wire sx ++ proposal_bytes (firstn (N.to_nat MaxBlockSize) (p :: ps)).
Proof.
  intros Hpr Hsort Hin.
  pose proof (outbound_present sx Hpr) as Eo. rewrite Hsort in Eo.
  destruct (send_start _ _ _ _ Eo) as (_&_&E2&W2&_&_&Hstep). cbv zeta in E2, W2, Hstep.
  rewrite read_reply_empty in Hstep by (rewrite E2; exact Hin).
  rewrite (final_send_fail _ _ _ Hstep), fin_lost. rewrite <- W2. reflexivity.
Qed.

Lemma speak_block_answered sx p ps A :
  h_present (s_h sx) = true -> sort_props (pendh (s_h sx)) = p :: ps ->
  let B := firstn (N.to_nat MaxBlockSize) (p :: ps) in
  Forall prop_syn B -> length A = length B -> s_in sx = fs_line A ->
  wire (final true sx) = wire sx ++ proposal_bytes B ++ xfers B A.
Proof.
  intros Hpr Hsort B Hsyn Hl Hin.
  destruct (send_upto sx p ps A [] Hpr Hsort Hsyn Hl) as (s4&Hho&W4&I4&_).
  { rewrite app_nil_r. exact Hin. }
  fold B in Hho, W4.
  assert (Hpk : ho_peek (sent_of B A) s4 = RFail EConnLost (ev (mark_rej (sent_of B A) s4) EvBlockEnd)).
  { unfold ho_peek. cbv zeta. rewrite mark_rej_in, I4. reflexivity. }
  rewrite Hpk in Hho. rewrite (final_send_fail _ _ _ Hho), fin_lost, <- W4.
  exact (proj1 (mark_rej_out _ _)).
Qed.

(* a dialogue that begins with the chunk c of the speaker, from the rest D' of it (in which the listener
   speaks first); the listener fed nothing writes nothing (listen_empty) *)
Lemma dialogue_cons hx (qx : bool) hy c D' :
  (forall k sx, s_h sx = hx -> s_remote_nomsgs sx = qx -> s_in sx = take true k D' ->
     wire (final true sx) = wire sx ++ c ++ take false (S k) D') ->
  (forall k sy, s_h sy = hy -> s_in sy = c ++ take false k D' ->
     wire (final false sy) = wire sy ++ take true (S k) D') ->
  (forall j sx, s_h sx = hx -> s_remote_nomsgs sx = qx -> s_in sx = take false j (c :: D') ->
     wire (final true sx) = wire sx ++ take true (S j) (c :: D')) /\
  (forall j sy, s_h sy = hy -> s_in sy = take true j (c :: D') ->
     wire (final false sy) = wire sy ++ take false (S j) (c :: D')).
Proof.
  intros HX HY. split.
  - intros j sx Hx Qx Ix. rewrite take_false_cons in Ix.
    rewrite (HX _ sx Hx Qx Ix), take_true_S, take_false_pred. reflexivity.
  - intros [|k] sy Hy Iy; [|exact (HY k sy Hy Iy)].
    rewrite (listen_empty sy Iy), take_false_1, app_nil_r. reflexivity.
Qed.

(* the dialogue from a turn boundary (pp: the two sides write in turn), turn by turn along the plan:
   hx is the handler of the side whose turn it is (the speaker), qx its "the peer has
   nothing more" flag, hy the handler of the other side (the listener); the first chunk is the speaker's and
   begins with 'F' *)
Lemma joint_pp hx hy qx Tx Ty : plan hx hy qx Tx Ty ->
  exists D, (exists r D1, D = (70 :: r) :: D1) /\
    (length D <= 4 * (length (pendh hx) + length (pendh hy)) + (if qx then 1 else 2))%nat /\
    (forall j sx, s_h sx = hx -> s_remote_nomsgs sx = qx -> s_in sx = take false j D ->
       wire (final true sx) = wire sx ++ take true (S j) D) /\
    (forall j sy, s_h sy = hy -> s_in sy = take true j D ->
       wire (final false sy) = wire sy ++ take false (S j) D).
Proof.
  induction 1 as [hx hy (Px&_) _ Es _|hx hy Ty Tx (Px&_) _ Es _ (D'&(r&D1&ED)&HL&HS&HLs)
                 |hx hy qx p ps Ty Tx (Px&Lx&Wx&Nx&Fx) (Py&_) Es B A _ (D'&(r&D1&ED)&HL&HS&HLs)].
  - (* FQ *)
    exists [[70; 81; 13]]. split; [eexists _, _; reflexivity|]. split; [cbn [length]; lia|]. apply dialogue_cons.
    + intros k sx Hx Qx _.
      assert (Hho : handle_outbound sx = ROk (true, wr (ev sx EvGetOutbound) [70; 81; 13])).
      { rewrite send_none by (rewrite Hx; assumption). rewrite Qx. reflexivity. }
      rewrite (final_send_quit _ _ Hho), wire_wr, wire_ev, take_nil, app_nil_r. reflexivity.
    + intros k sy Hy Iy. rewrite take_nil in Iy.
      assert (Hil : inbound_loop (S (length (s_in sy))) sy [] [] = ROk (true, [], set_in sy [])).
      { apply inbound_fq; [exact Iy|lia]. }
      rewrite (final_recv_quit _ _ _ _ Hil eq_refl), take_nil, app_nil_r. reflexivity.
  - (* FF, then the peer's turn *)
    exists ([70; 70; 13] :: D'). split; [eexists _, _; reflexivity|].
    split; [cbn [length]; lia|]. apply dialogue_cons.
    + intros k sx Hx Qx Ix.
      assert (Hho : handle_outbound sx = ROk (false, wr (ev sx EvGetOutbound) [70; 70; 13])).
      { rewrite send_none by (rewrite Hx; assumption). rewrite Qx. reflexivity. }
      rewrite (final_send_ok _ _ Hho), (HLs k (wr (ev sx EvGetOutbound) [70; 70; 13]) Hx Ix).
      rewrite wire_wr, wire_ev, <- app_assoc. reflexivity.
    + intros k sy Hy Iy.
      assert (Hil : inbound_loop (S (length (s_in sy))) sy [] [] =
                    ROk (false, [], set_nomsgs (set_in sy (take false k D')) true)).
      { apply inbound_ff; [exact Iy|lia]. }
      rewrite (final_recv_ok _ _ _ _ Hil eq_refl).
      exact (HS k (set_nomsgs (set_in sy (take false k D')) true) Hy eq_refl eq_refl).
  - (* a block of proposals *)
    destruct (block_facts hx p ps Lx Wx Nx Es) as (Bne&HpB&HB&NdB&LB&WB&[rB ErB]). cbv zeta in *.
    fold B in Bne, HpB, HB, NdB, LB, WB, ErB.
    assert (Hl : length A = length B) by (unfold A; apply map_length).
    pose proof (pend_block hx B A p Hl HpB (proj1 (HB p HpB)) (proj2 (HB p HpB))) as Hlt.
    set (hx' := with_gone hx _) in *.
    assert (Hsyn : Forall prop_syn B) by (eapply Forall_impl; [|exact LB]; intros q [Hq' _]; exact Hq').
    (* the speaker *)
    assert (SP0 : forall sx, s_h sx = hx -> s_in sx = [] -> wire (final true sx) = wire sx ++ proposal_bytes B).
    { intros sx Hx Ix. apply (speak_block_empty sx p ps); [rewrite Hx; exact Px|rewrite Hx; exact Es|exact Ix]. }
    assert (SP2 : forall sx k, s_h sx = hx -> s_in sx = fs_line A ++ take true k D' ->
                  wire (final true sx) = wire sx ++ proposal_bytes B ++ xfers B A ++ take false (S k) D').
    { intros sx k Hx Ix. destruct k as [|k].
      - rewrite take_0, app_nil_r in Ix. rewrite take_false_1, app_nil_r.
        apply (speak_block_answered sx p ps A); [rewrite Hx; exact Px|rewrite Hx; exact Es|exact Hsyn|exact Hl|exact Ix].
      - destruct (send_fwd sx p ps A (r ++ take false k D1)) as (sx'&Ex&Hho&Wsx&Isx&_&_&_&Hsx&Qsx).
        { rewrite Hx. exact Px. } { rewrite Hx. exact Es. } { exact Hsyn. } { exact Hl. }
        { rewrite Ix, ED, take_true_S. reflexivity. }
        fold B in Hho, Wsx, Hsx.
        assert (Hsx' : s_h sx' = hx') by (rewrite Hsx, Hx; reflexivity).
        rewrite (final_send_ok _ _ Hho).
        rewrite (HLs (S k) sx' Hsx'); [rewrite Wsx, <- !app_assoc; reflexivity|].
        rewrite Isx, ED, take_true_S. reflexivity. }
    (* the listener *)
    assert (LP2 : forall sy k, s_h sy = hy -> s_in sy = proposal_bytes B ++ xfers B A ++ take false k D' ->
                  wire (final false sy) = wire sy ++ fs_line A ++ take true (S k) D').
    { intros sy k Hy Iy.
      destruct (recv_fwd sy B (take false k D')) as (sy1&sy2&Ey&Hil&Hrc&Isy&Wsy&Hsy&Qsy&_); try assumption.
      { rewrite Hy. exact Py. }
      { intros q Hq'. rewrite Hy. apply Fx, HB, Hq'. }
      { rewrite Hy. fold A. exact Iy. }
      rewrite Hy in Hil, Hrc, Wsy. fold A in Hil, Hrc, Wsy.
      rewrite (final_recv_ok _ _ _ _ Hil Hrc).
      rewrite (HS k sy2); [rewrite Wsy, <- app_assoc; reflexivity|congruence|exact Qsy|exact Isy]. }
    assert (LP1 : xfers B A <> [] -> forall sy, s_h sy = hy -> s_in sy = proposal_bytes B ->
                  wire (final false sy) = wire sy ++ fs_line A).
    { intros Hx0 sy Hy Iy.
      destruct (recv_block_fwd sy B []) as (sy1&E1&Hil&I1&W1&_); try assumption.
      { rewrite Hy. exact Py. } { rewrite app_nil_r. exact Iy. }
      rewrite Hy in Hil, W1. fold A in Hil, W1.
      pose proof (receive_empty B A sy1 Hl I1) as Hrc.
      destruct (xfers B A) eqn:EX; [congruence|].
      rewrite (final_recv_err _ _ _ _ _ _ Hil Hrc), fin_lost. exact W1. }
    assert (HX : xfers B A = [] \/ xfers B A <> []) by (destruct (xfers B A); [left; reflexivity|right; discriminate]).
    destruct HX as [EX|NX].
    + (* nothing is accepted: the answer line and the answerer's next command are one chunk *)
      subst D'. rewrite EX in SP2, LP2. cbn [app] in SP2, LP2.
      exists (proposal_bytes B :: (fs_line A ++ 70 :: r) :: D1).
      split; [rewrite ErB; eexists _, _; reflexivity|].
      split; [cbn [length] in *; destruct qx; lia|]. apply dialogue_cons.
      * intros k sx Hx _ Ix. destruct k as [|k].
        -- rewrite (SP0 sx Hx Ix), take_false_1, app_nil_r. reflexivity.
        -- rewrite take_true_S, <- app_assoc in Ix. rewrite (SP2 sx (S k) Hx Ix). reflexivity.
      * intros k sy Hy Iy. rewrite take_false_cons, <- (take_false_cons k (70 :: r)) in Iy.
        rewrite (LP2 sy k Hy Iy), !take_true_S, <- app_assoc. reflexivity.
    + (* the transfers are a chunk of their own *)
      specialize (LP1 NX).
      exists (proposal_bytes B :: fs_line A :: xfers B A :: D').
      split; [rewrite ErB; eexists _, _; reflexivity|].
      split; [cbn [length] in *; destruct qx; lia|]. apply dialogue_cons.
      * intros k sx Hx _ Ix. destruct k as [|k].
        -- rewrite (SP0 sx Hx Ix), take_false_1, app_nil_r. reflexivity.
        -- rewrite take_true_S, take_false_cons in Ix.
           rewrite (SP2 sx (pred k) Hx Ix), take_false_pred, take_false_S, take_true_S. reflexivity.
      * intros k sy Hy Iy. destruct k as [|[|k]].
        -- rewrite app_nil_r in Iy. rewrite (LP1 sy Hy Iy), take_true_S, app_nil_r. reflexivity.
        -- rewrite take_false_1, app_nil_r in Iy. rewrite (LP1 sy Hy Iy), take_true_S, take_false_1, app_nil_r. reflexivity.
        -- rewrite take_false_S, take_true_S in Iy. rewrite (LP2 sy k Hy Iy), take_true_S, take_false_S. reflexivity.
Qed.

Lemma hs_empty s s' : s_in s = [] -> handshake s <> ROk s'.
Proof.
  intros Hin. rewrite handshake_eq, read_handshake_eq. pose proof (does_in _ _ _ (greeted_does s)) as G.
  cbn [act e_rd app] in G. rewrite <- G, Hin. discriminate.
Qed.

(* a side whose handshake succeeds on some input is, fed nothing, stopped by a lost link *)
Lemma hs_starved c i s2 : handshake (init_state c i) = ROk s2 -> exists s1, handshake (init_state c []) = RFail EConnLost s1.
Proof.
  intros H. change i with ([] ++ i) in H. rewrite init_state_ext in H.
  destruct (hs_back _ _ _ H) as [(s1&H1&_)|(s1&H1&_)]; [|exists s1; exact H1].
  exfalso. exact (hs_empty _ _ (init_state_in c []) H1).
Qed.

Lemma pendh_le h : (length (pendh h) <= length (h_outbox h))%nat.
Proof.
  unfold pendh. induction (h_outbox h) as [|p l IH]; [cbn; lia|]. cbn [filter].
  destruct (negb _); cbn [length]; lia.
Qed.

(* `take` of a dialogue whose first chunks are written out *)
Ltac tk := repeat (rewrite take_true_S || rewrite take_false_S || rewrite take_0 || rewrite take_false_1).

(* master m, slave s: the master wrote the first chunk *)
Lemma dialogue_ms (m s : side_cfg) :
  c_master m = true -> c_master s = false -> hs_compat m s -> side_ready m s -> side_ready s m ->
  exists D, (length D <= 4 * (length (h_outbox (c_handler m)) + length (h_outbox (c_handler s))) + 3)%nat /\
    (forall j, x_wire (exchange m (take false j D)) = take true (S j) D) /\
    (forall j, x_wire (exchange s (take true j D)) = take false (S j) D).
Proof.
  intros Mm Ms (Mg&Sg&sm&ss&Hm1&Hm2&Hm3&Hs1&Hs2&Hs3) Rm Rs.
  pose proof (side_ready_noerr m s Rm) as Bm. pose proof (side_ready_noerr s m Rs) as Bs.
  destruct Rm as (_&Om&Gm). destruct Rs as (_&Os&Gs). pose proof Om as (Pm&_). pose proof Os as (Ps&_).
  destruct (plan_exists (S (2 * (length (pendh (c_handler s)) + length (pendh (c_handler m))) + 1))%nat
              (c_handler s) (c_handler m) false) as (Tx&Ty&HP); try assumption; [lia|discriminate|].
  destruct (joint_pp _ _ _ _ _ HP) as (D&(r&D1&ED)&HL&HS&HLs).
  assert (Hm0 : x_wire (exchange m []) = Mg).
  { destruct (hs_starved m _ _ Hm1) as [s1 H1].
    pose proof (handshake_master_out (init_state m (Sg ++ [70])) [] sm (eq_trans (init_state_master m _) Mm) Hm1) as Ho.
    rewrite init_state_set_in, H1 in Ho.
    rewrite (proj1 (exchange_fail m [] _ _ Bm H1)), fin_lost, <- Hm3. exact Ho. }
  assert (Hs0 : x_wire (exchange s []) = []).
  { destruct (hs_starved s _ _ Hs1) as [s1 H1].
    pose proof (handshake_slave_fail_out _ _ _ (eq_trans (init_state_master s []) Ms) H1) as Ho.
    rewrite (proj1 (exchange_fail s [] _ _ Bs H1)), fin_lost, Ho. unfold wire. rewrite init_state_out. reflexivity. }
  exists (Mg :: (Sg ++ 70 :: r) :: D1). split.
  { pose proof (pendh_le (c_handler m)) as P1. pose proof (pendh_le (c_handler s)) as P2. rewrite ED in HL.
    cbn [length] in HL |- *. clear -HL P1 P2. unfold bytes in *. lia. }
  split.
  - intros j. destruct j as [|[|k]].
    + tk. rewrite app_nil_r. exact Hm0.
    + tk. rewrite app_nil_r. exact Hm0.
    + tk. rewrite <- app_assoc. cbn [app].
      destruct (ms_boundary m s Mg Sg sm ss (r ++ take false k D1) [] Hm1 Hm2 Hs1 Hs2 Ps) as (Hhm&_&_&Hsy&_&_&Iy).
      rewrite (proj1 (exchange_ok m _ _ Bm Hhm)), Mm. cbn [negb].
      rewrite (HLs (S k) _ Hsy) by (rewrite Iy, ED, take_true_S; reflexivity).
      rewrite ED. tk. change (wire (ext (r ++ take false k D1) sm)) with (wire sm). rewrite Hm3. reflexivity.
  - intros j. destruct j as [|k].
    + tk. exact Hs0.
    + tk. rewrite take_false_cons.
      destruct (ms_boundary m s Mg Sg sm ss [] (take true (pred k) D1) Hm1 Hm2 Hs1 Hs2 Ps) as (_&Hhs&Hsx&_&Qx&Ix&_).
      rewrite (proj1 (exchange_ok s _ _ Bs Hhs)), Ms. cbn [negb].
      rewrite (HS k _ Hsx Qx) by (rewrite Ix, ED, take_false_cons; reflexivity).
      rewrite ED. tk. change (wire (ext (take true (pred k) D1) ss)) with (wire ss). rewrite Hs3, <- app_assoc. reflexivity.
Qed.

(* either side may be the master; the master's chunks are the ones counted by `take true` *)
Theorem dialogue (a b : side_cfg) :
  c_master a = negb (c_master b) ->
  hs_compat (if c_master a then a else b) (if c_master a then b else a) ->
  side_ready a b -> side_ready b a ->
  exists D, (length D <= 4 * (length (h_outbox (c_handler a)) + length (h_outbox (c_handler b))) + 3)%nat /\
    (forall j, x_wire (exchange a (take (negb (c_master a)) j D)) = take (c_master a) (S j) D) /\
    (forall j, x_wire (exchange b (take (c_master a) j D)) = take (negb (c_master a)) (S j) D).
Proof.
  intros Hrole Hhs Ra Rb. destruct (roles_cases a b Hrole) as [[Ma Mb]|[Ma Mb]]; rewrite Ma in *.
  - exact (dialogue_ms a b Ma Mb Hhs Ra Rb).
  - destruct (dialogue_ms b a Mb Ma Hhs Rb Ra) as (D&HL&H1&H2). exists D. cbn [negb].
    split; [lia|]. split; assumption.
Qed.

(* two chunks per round *)
Lemma iter_in_take a b (ba : bool) D :
  (forall j, x_wire (exchange a (take (negb ba) j D)) = take ba (S j) D) ->
  (forall j, x_wire (exchange b (take ba j D)) = take (negb ba) (S j) D) ->
  forall k j, iter_in k a b (take (negb ba) j D) = take (negb ba) (j + 2 * k) D.
Proof.
  intros Ha Hb. induction k as [|k IH]; intros j; cbn [iter_in].
  - f_equal. lia.
  - rewrite Ha, Hb, IH. f_equal. lia.
Qed.

Lemma take_closed a b (ba : bool) D j :
  (forall j, x_wire (exchange a (take (negb ba) j D)) = take ba (S j) D) ->
  (forall j, x_wire (exchange b (take ba j D)) = take (negb ba) (S j) D) ->
  (length D <= j)%nat ->
  closed a b (take (negb ba) j D) (take ba (length D) D).
Proof.
  intros Ha Hb Hj. unfold closed. rewrite Ha.
  rewrite (take_all D ba (S j)) by lia. split; [reflexivity|].
  rewrite <- (take_all D ba (S j)) by lia. rewrite Hb.
  rewrite (take_all D (negb ba) (S (S j))) by lia. rewrite (take_all D (negb ba) j) by lia. reflexivity.
Qed.

(* rounds after which the iteration from [] has reached the closed pair: one block per outbox entry, four
   chunks per block (proposals, answer, transfers, the peer's FF), two chunks per round.  Attained for empty
   outboxes (iter_bound_attained); with blocks of up to five proposals the iteration is faster for larger
   outboxes (DeliverP.dx_iter: 8 messages, closed after 6 rounds; iter_bound = 18). *)
Definition iter_bound (a b : side_cfg) : nat :=
  (2 * (length (h_outbox (c_handler a)) + length (h_outbox (c_handler b))) + 2)%nat.

Theorem pair_iter_converges (a b : side_cfg) :
  c_master a = negb (c_master b) ->
  hs_compat (if c_master a then a else b) (if c_master a then b else a) ->
  side_ready a b -> side_ready b a ->
  exists in_a in_b, closed a b in_a in_b /\
    iter_in (iter_bound a b) a b [] = in_a /\
    forall n, (iter_bound a b <= n)%nat -> pair_iter n a b [] = (exchange a in_a, exchange b in_b).
Proof.
  intros Hrole Hhs Ra Rb. destruct (dialogue a b Hrole Hhs Ra Rb) as (D&HL&Ha&Hb).
  set (ba := c_master a) in *. set (k0 := iter_bound a b).
  assert (Ek : iter_in k0 a b [] = take (negb ba) (2 * k0) D).
  { change (@nil N) with (take (negb ba) 0 D) at 1. rewrite (iter_in_take a b ba D Ha Hb k0 0%nat). reflexivity. }
  assert (Hc : closed a b (take (negb ba) (2 * k0) D) (take ba (length D) D)).
  { apply take_closed; [exact Ha|exact Hb|]. unfold k0, iter_bound. lia. }
  exists (take (negb ba) (2 * k0) D), (take ba (length D) D). split; [exact Hc|]. split; [exact Ek|].
  intros n Hn. pose proof (pair_iter_stop k0 a b n [] Hn) as Hr. rewrite Ek in Hr.
  destruct Hc as [C1 C2]. rewrite C1 in Hr. apply Hr. exact C2.
Qed.

Theorem pair_iter_delivers_from_empty (a b : side_cfg) (n : nat) :
  c_master a = negb (c_master b) ->
  hs_compat (if c_master a then a else b) (if c_master a then b else a) ->
  side_ready a b -> side_ready b a ->
  (iter_bound a b <= n)%nat ->
  let '(oa, ob) := pair_iter n a b [] in
  closed a b (x_wire ob) (x_wire oa) /\ oa = exchange a (x_wire ob) /\ ob = exchange b (x_wire oa) /\
  x_res oa = XNil /\ x_res ob = XNil /\
  delivered (c_handler a) (c_handler b) oa ob /\ delivered (c_handler b) (c_handler a) ob oa /\
  (forall p, In p (h_outbox (c_handler a)) -> policy_of (c_handler b) (o_mid p) = AAccept ->
     delivered_once ob (o_mid p) /\ sent_once oa (o_mid p)) /\
  (forall p, In p (h_outbox (c_handler b)) -> policy_of (c_handler a) (o_mid p) = AAccept ->
     delivered_once oa (o_mid p) /\ sent_once ob (o_mid p)).
Proof.
  intros Hrole Hhs Ra Rb Hn.
  destruct (pair_iter_converges a b Hrole Hhs Ra Rb) as (ia&ib&Hc&_&Hit). rewrite (Hit n Hn).
  destruct (closed_exchange a b Hrole Hhs Ra Rb ia ib Hc) as (R1&R2&D1&D2). destruct Hc as [C1 C2].
  rewrite C1, C2. split; [split; assumption|]. split; [reflexivity|]. split; [reflexivity|].
  split; [exact R1|]. split; [exact R2|]. split; [exact D1|]. split; [exact D2|].
  split; intros p Hp Hacc; eapply delivered_once_of; eassumption.
Qed.

(* the conclusion of PairIter.C01_exchange_statement, for the n of that statement, under the
   hypotheses that make it true (DeliverP.C01_exchange_statement_is_false: they cannot be dropped) *)
Theorem C01_exchange_holds (a b : side_cfg) (n : nat) :
  c_master a = negb (c_master b) ->
  hs_compat (if c_master a then a else b) (if c_master a then b else a) ->
  side_ready a b -> side_ready b a ->
  (n >= 4 * (length (h_outbox (c_handler a)) + length (h_outbox (c_handler b))) + 8)%nat ->
  let '(oa, ob) := pair_iter n a b [] in
  x_res oa = XNil /\ x_res ob = XNil /\
  forall p, In p (h_outbox (c_handler a)) -> policy_of (c_handler b) (o_mid p) = AAccept ->
            delivered_once ob (o_mid p) /\ sent_once oa (o_mid p).
Proof.
  intros Hrole Hhs Ra Rb Hn.
  assert (Hn' : (iter_bound a b <= n)%nat) by (unfold iter_bound; lia).
  pose proof (pair_iter_delivers_from_empty a b n Hrole Hhs Ra Rb Hn') as H.
  destruct (pair_iter n a b []) as [oa ob]. destruct H as (_&_&_&R1&R2&_&_&H1&_).
  split; [exact R1|]. split; [exact R2|exact H1].
Qed.

(* the same with the hypotheses decided by computation (PairP.hs_check, DeliverP.side_check) *)
Corollary C01_exchange_check (a b : side_cfg) (n : nat) :
  c_master a = negb (c_master b) ->
  hs_check (if c_master a then a else b) (if c_master a then b else a) = true ->
  side_check a b = true -> side_check b a = true ->
  (n >= 4 * (length (h_outbox (c_handler a)) + length (h_outbox (c_handler b))) + 8)%nat ->
  let '(oa, ob) := pair_iter n a b [] in
  x_res oa = XNil /\ x_res ob = XNil /\
  forall p, In p (h_outbox (c_handler a)) -> policy_of (c_handler b) (o_mid p) = AAccept ->
            delivered_once ob (o_mid p) /\ sent_once oa (o_mid p).
Proof.
  intros H1 H2 H3 H4. apply C01_exchange_holds; [exact H1|apply hs_check_sound, H2|apply side_check_sound, H3|apply side_check_sound, H4].
Qed.

(* two sides with empty outboxes, a the slave: after one round the run of a is still cut *)
Example iter_bound_attained :
  let a := cx_side false [] [] [] in let b := cx_side true [] [] [] in
  iter_bound a b = 2%nat /\ x_res (fst (pair_iter 1 a b [])) = XConnLost /\ x_res (fst (pair_iter 2 a b [])) = XNil.
Proof. vm_compute. repeat split. Qed.

Print Assumptions joint_pp.
Print Assumptions dialogue.
Print Assumptions pair_iter_converges.
Print Assumptions pair_iter_delivers_from_empty.
Print Assumptions C01_exchange_holds.
Print Assumptions C01_exchange_check.
Print Assumptions iter_bound_attained.

(* Uniqueness of the closed pair is not stated: pair_iter_converges gives the pair the iteration reaches,
   and DeliverP.closed_exchange covers every closed pair. *)
