(* B2F/ConvergeFaultsP.v -- ConvergeManyP.convergence_many with a STORAGE FAULT IN ANY of the faulty sessions:
   history_f installs arbitrary h_fail lists for each next session.  It is an instance of ConvergeManyP.sessions
   like `history`, so the theorem is the same (sessions_converge); the h_fail := [] of next_cfg matters only for
   side_ready of the last pair, of which `nofail` is asked here.  And entries the ORIGINAL policy defers stay
   pending (deferred_stays_pending: the ADefer clause of ConvergeOnceP.entry_spec). *)
From Coq Require Import List NArith ZArith Bool Lia ZifyN ZifyNat ZifyBool Sorting.Permutation.
From Verif Require Import Base.Bytes Base.BytesP gen.Tables Lzhuf.Dec Msg.Message B2F.Secure B2F.Side B2F.SideP
  B2F.TermP B2F.CodecP B2F.CutP B2F.PairDefs B2F.PairLines B2F.PairXfer B2F.PairHs B2F.PairP B2F.PairIter B2F.DeliverP
  B2F.ConvergeP B2F.ConvergeCutP B2F.ConvergeOnceP B2F.ConvergeManyP.
Import ListNotations.
Open Scope N_scope.

Definition set_fail (h : hstate) (f : list bytes) : hstate :=
  {| h_present := h_present h; h_prepare_err := h_prepare_err h; h_outbox := h_outbox h; h_gone := h_gone h;
     h_policy := h_policy h; h_fail := f |}.
Definition next_cfg_f (c : side_cfg) (o : outcome) (f : list bytes) : side_cfg :=
  {| c_master := c_master c; c_motd := c_motd c; c_hs := c_hs c; c_handler := set_fail (next_handler (c_handler c) o) f |}.

Lemma leaves_next_f c o f : leaves c o (next_cfg_f c o f).
Proof. repeat split. Qed.

(* a sequence of cut sessions; fx, fy: the MIDs at which ProcessInbound fails in the NEXT session *)
Inductive history_f : side_cfg -> side_cfg -> list (outcome * outcome) -> side_cfg -> side_cfg -> Prop :=
| hf_nil x y : history_f x y [] x y
| hf_cut x y in_x in_y fx fy l x' y' :
    cut_session x y in_x in_y ->
    history_f (next_cfg_f x (exchange x in_x) fx) (next_cfg_f y (exchange y in_y) fy) l x' y' ->
    history_f x y ((exchange x in_x, exchange y in_y) :: l) x' y'.

Lemma history_f_sessions x y l xn yn : history_f x y l xn yn -> sessions x y l xn yn.
Proof.
  induction 1 as [x y|x y in_x in_y fx fy l xn yn Hcut _ IH]; [constructor|].
  exact (ss_cut _ _ _ _ _ _ _ _ _ Hcut (leaves_next_f _ _ fx) (leaves_next_f _ _ fy) IH).
Qed.

(* all that is asked of the last, complete session: no MID still in x's outbox is in y's h_fail (with h_gone =
   [] and soundness, which the history gives, this is DeliverP.side_ready: ConvergeP.ready_of_sound) *)
Definition nofail (x y : side_cfg) : Prop :=
  forall p, In p (h_outbox (c_handler x)) -> ~ In (o_mid p) (h_fail (c_handler y)).

Definition swap_f := ConvergeManyP.swap.

(* C02_many_sessions_faults.  The handlers of the faulty sessions may fail at any MIDs: the h_fail of the first
   pair is arbitrary, those of the later pairs are the lists of history_f.  Same conclusion as
   ConvergeManyP.convergence_many, from the same theorem. *)
Theorem convergence_many_f (x y : side_cfg) l xn yn (in_x' in_y' : bytes) :
  c_master x = negb (c_master y) ->
  hs_compat (if c_master x then x else y) (if c_master x then y else x) ->
  side_sound x -> side_sound y ->
  history_f x y l xn yn -> l <> [] -> nofail xn yn -> nofail yn xn -> closed xn yn in_x' in_y' ->
  let Lx := logs_x l ++ x_events (exchange xn in_x') in let Ly := logs_y l ++ x_events (exchange yn in_y') in
  (forall p, In p (h_outbox (c_handler x)) -> policy_of (c_handler y) (o_mid p) = AAccept ->
     filter (stored_ev (o_mid p)) Ly = [EvProcess (o_mid p) (pm_data p) true] /\
     length (filter (sent_ev (o_mid p)) Lx) = 1%nat) /\
  (forall p, In p (h_outbox (c_handler y)) -> policy_of (c_handler x) (o_mid p) = AAccept ->
     filter (stored_ev (o_mid p)) Lx = [EvProcess (o_mid p) (pm_data p) true] /\
     length (filter (sent_ev (o_mid p)) Ly) = 1%nat).
Proof.
  intros Hrole Hhs Sx Sy Hh Hne Fx Fy Hc.
  destruct (sessions_converge x y l xn yn in_x' in_y' (conj Hrole (conj Hhs (conj Sx Sy))) (history_f_sessions _ _ _ _ _ Hh)
              Hne Fx Fy Hc) as [[_ H1] [_ H2]].
  split; intros p Hp Ha; [specialize (H1 p Hp)|specialize (H2 p Hp)]; rewrite Ha in *; assumption.
Qed.

(* f3_: three sessions of ConvergeP.cv_a2 (slave; A1, A2) and cv_b0 [] (master).  Session 1: the link fails inside
   the transfer of A2 (180 of 213 bytes): A1 stored, nothing reported.  Session 2, not cut, but b's store fails
   for A2 (h_fail = [A2]): b rejects A1 (a reports it), accepts A2, the store fails (EvProcess A2 _ false), both
   sides end with an error.  Session 3, complete, no fault: A2 delivered and reported. *)
Definition f3_a1 := next_cfg_f cv_a2 (exchange cv_a2 (cp_in_a cv_a2 (cv_b0 []) 180 1000)) [].
Definition f3_b1 := next_cfg_f (cv_b0 []) (exchange (cv_b0 []) (cp_in_b cv_a2 (cv_b0 []) 180 1000)) [[65;50]].
Definition f3_a2 := next_cfg_f f3_a1 (exchange f3_a1 (cp_in_a f3_a1 f3_b1 1000 1000)) [].
Definition f3_b2 := next_cfg_f f3_b1 (exchange f3_b1 (cp_in_b f3_a1 f3_b1 1000 1000)) [].
Definition f3_ia := cv_in f3_a2 f3_b2.
Definition f3_ib := x_wire (exchange f3_a2 f3_ia).
Definition f3_l : list (outcome * outcome) :=
  [(exchange cv_a2 (cp_in_a cv_a2 (cv_b0 []) 180 1000), exchange (cv_b0 []) (cp_in_b cv_a2 (cv_b0 []) 180 1000));
   (exchange f3_a1 (cp_in_a f3_a1 f3_b1 1000 1000), exchange f3_b1 (cp_in_b f3_a1 f3_b1 1000 1000))].

(* the first session is that of ConvergeManyP (cv3_s1); the other two, each evaluated once *)
Definition f3_a1v := Eval vm_compute in f3_a1.
Definition f3_b1v := Eval vm_compute in f3_b1.
Lemma f3_a1_eq : f3_a1 = f3_a1v.
Proof. unfold f3_a1. rewrite (proj1 (proj2 cv3_s1)), cv_a2_eq. vm_compute. reflexivity. Qed.
Lemma f3_b1_eq : f3_b1 = f3_b1v.
Proof. unfold f3_b1. rewrite (proj2 (proj2 cv3_s1)). vm_compute. reflexivity. Qed.

Definition f3_o2a := Eval vm_compute in exchange f3_a1 (cp_in_a f3_a1 f3_b1 1000 1000).
Definition f3_o2b := Eval vm_compute in exchange f3_b1 (cp_in_b f3_a1 f3_b1 1000 1000).
Lemma f3_s2 :
  cut_session f3_a1 f3_b1 (cp_in_a f3_a1 f3_b1 1000 1000) (cp_in_b f3_a1 f3_b1 1000 1000) /\
  exchange f3_a1 (cp_in_a f3_a1 f3_b1 1000 1000) = f3_o2a /\
  exchange f3_b1 (cp_in_b f3_a1 f3_b1 1000 1000) = f3_o2b.
Proof. apply (cp_run f3_a1 f3_b1 1000 1000 3 true false). rewrite f3_a1_eq, f3_b1_eq. vm_compute. reflexivity. Qed.

Definition f3_a2v := Eval vm_compute in f3_a2.
Definition f3_b2v := Eval vm_compute in f3_b2.
Lemma f3_a2_eq : f3_a2 = f3_a2v.
Proof. unfold f3_a2. rewrite (proj1 (proj2 f3_s2)), f3_a1_eq. vm_compute. reflexivity. Qed.
Lemma f3_b2_eq : f3_b2 = f3_b2v.
Proof. unfold f3_b2. rewrite (proj2 (proj2 f3_s2)), f3_b1_eq. vm_compute. reflexivity. Qed.

Definition f3_o3a := Eval vm_compute in exchange f3_a2 f3_ia.
Definition f3_o3b := Eval vm_compute in exchange f3_b2 f3_ib.
Lemma f3_s3 : closed f3_a2 f3_b2 f3_ia f3_ib /\ exchange f3_a2 f3_ia = f3_o3a /\ exchange f3_b2 f3_ib = f3_o3b.
Proof. unfold f3_ib, f3_ia. apply (cp_full f3_a2 f3_b2 3). rewrite f3_a2_eq, f3_b2_eq. vm_compute. reflexivity. Qed.

Example faults_three_sessions_logs :
  (map (fun oo => (x_res (fst oo), x_res (snd oo))) f3_l,
   map strip (logs_x f3_l ++ x_events (exchange f3_a2 f3_ia)),
   map strip (logs_y f3_l ++ x_events (exchange f3_b2 f3_ib))) =
  ([(XConnLost, XConnLost); (XOther, XOther)],
   [EvPrepare; EvGetOutbound; EvBlockEnd;
    EvPrepare; EvGetOutbound; EvSetSent [65;49] true; EvBlockEnd;
    EvPrepare; EvGetOutbound; EvSetSent [65;50] false; EvBlockEnd; EvGetOutbound],
   [EvPrepare; EvAnswer [65;49] AAccept; EvAnswer [65;50] AAccept; EvProcess [65;49] [] true;
    EvPrepare; EvAnswer [65;49] AReject; EvAnswer [65;50] AAccept; EvProcess [65;50] [] false;
    EvPrepare; EvAnswer [65;50] AAccept; EvProcess [65;50] [] true; EvGetOutbound]).
Proof.
  unfold f3_l, logs_x, logs_y. cbn [map flat_map fst snd].
  rewrite (proj1 (proj2 cv3_s1)), (proj2 (proj2 cv3_s1)), (proj1 (proj2 f3_s2)), (proj2 (proj2 f3_s2)),
    (proj1 (proj2 f3_s3)), (proj2 (proj2 f3_s3)).
  vm_compute. reflexivity.
Qed.

Example faults_three_sessions_history :
  history_f cv_a2 (cv_b0 []) f3_l f3_a2 f3_b2 /\ f3_l <> [] /\ nofail f3_a2 f3_b2 /\ nofail f3_b2 f3_a2 /\
  closed f3_a2 f3_b2 f3_ia f3_ib.
Proof.
  split; [|split; [discriminate|split; [intros p _ []|split; [intros p _ []|exact (proj1 f3_s3)]]]].
  unfold f3_l. apply (hf_cut cv_a2 (cv_b0 []) _ _ [] [[65;50]]); [exact (proj1 cv3_s1)|].
  apply (hf_cut f3_a1 f3_b1 _ _ [] []); [exact (proj1 f3_s2)|]. apply hf_nil.
Qed.

(* the conclusion, by the theorem *)
Example faults_three_sessions_delivered :
  forall p, In p (h_outbox (c_handler cv_a2)) ->
    filter (stored_ev (o_mid p)) (logs_y f3_l ++ x_events (exchange f3_b2 f3_ib)) = [EvProcess (o_mid p) (pm_data p) true] /\
    length (filter (sent_ev (o_mid p)) (logs_x f3_l ++ x_events (exchange f3_a2 f3_ia))) = 1%nat.
Proof.
  intros p Hp. destruct (cv2_hypotheses []) as (H1&H2&H3&H4).
  destruct faults_three_sessions_history as (Hh&Hne&F1&F2&Hc).
  assert (Hhs : hs_compat (if c_master cv_a2 then cv_a2 else cv_b0 []) (if c_master cv_a2 then cv_b0 [] else cv_a2))
    by (apply hs_check_sound; exact H2).
  apply (proj1 (convergence_many_f cv_a2 (cv_b0 []) f3_l f3_a2 f3_b2 f3_ia f3_ib H1 Hhs
                  (sound_check_sound _ H3) (sound_check_sound _ H4) Hh Hne F1 F2 Hc) p Hp).
  reflexivity.
Qed.

(* C02_deferred_stays_pending: an entry the peer's original policy defers is never reported sent and never handed to the peer's handler,
   in no session of the history nor in the complete last one, and is still in the owner's outbox at the end *)
Theorem deferred_stays_pending (x y : side_cfg) l xn yn (in_x' in_y' : bytes) :
  c_master x = negb (c_master y) ->
  hs_compat (if c_master x then x else y) (if c_master x then y else x) ->
  side_sound x -> side_sound y ->
  history_f x y l xn yn -> l <> [] -> nofail xn yn -> nofail yn xn -> closed xn yn in_x' in_y' ->
  forall p, In p (h_outbox (c_handler x)) -> policy_of (c_handler y) (o_mid p) = ADefer ->
    filter (sent_ev (o_mid p)) (logs_x l ++ x_events (exchange xn in_x')) = [] /\
    filter (proc (o_mid p)) (logs_y l ++ x_events (exchange yn in_y')) = [] /\
    In p (h_outbox (c_handler xn)) /\
    In p (h_outbox (c_handler (next_cfg xn (exchange xn in_x')))).
Proof.
  intros Hrole Hhs Sx Sy Hh Hne Fx Fy Hc p Hp Hd. apply history_f_sessions in Hh.
  destruct (sessions_converge x y l xn yn in_x' in_y' (conj Hrole (conj Hhs (conj Sx Sy))) Hh Hne Fx Fy Hc) as [[_ H] _].
  specialize (H p Hp). rewrite Hd in H. destruct H as [H2 H1]. split; [exact H1|]. split; [exact H2|].
  rewrite filter_app in H1. apply app_eq_nil in H1. destruct H1 as [H0 H1].
  assert (Hn : In p (h_outbox (c_handler xn))).
  { apply (sessions_outbox _ _ _ _ _ Hh). split; [exact Hp|]. unfold sent_in. rewrite existsb_filter, H0. reflexivity. }
  split; [exact Hn|]. apply In_next_outbox. split; [exact Hn|]. unfold sent_in. rewrite existsb_filter, H1. reflexivity.
Qed.

Print Assumptions convergence_many_f.
Print Assumptions faults_three_sessions_logs.
Print Assumptions faults_three_sessions_history.
Print Assumptions faults_three_sessions_delivered.
Print Assumptions deferred_stays_pending.
