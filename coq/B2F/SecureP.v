(* B2F/SecureP.v — the MD5 model passes the RFC 1321 test suite; secure_response (the int32
   arithmetic of fbb/secure.go) equals spec_response: the top byte is masked to 6 bits, so pr
   stays below 2^30 and nothing wraps; the lines send_handshake writes depend on the
   passwords only through the responses. *)
From Coq Require Import Lia ZifyN ZifyNat ZifyBool.
From Verif Require Import Base.Bytes Base.BytesP B2F.Md5 B2F.Secure gen.Tables.
Open Scope N_scope.

(* RFC 1321 test suite (A.5) *)
Definition hexdigest (l : bytes) : bytes :=
  flat_map (fun b => [ (if b / 16 <? 10 then 48 + b / 16 else 87 + b / 16);
                       (if b mod 16 <? 10 then 48 + b mod 16 else 87 + b mod 16) ]) l.

Example md5_empty : hexdigest (md5 []) =
  [100;52;49;100;56;99;100;57;56;102;48;48;98;50;48;52;101;57;56;48;48;57;57;56;101;99;102;56;52;50;55;101].
Proof. vm_compute. reflexivity. Qed.                      (* d41d8cd98f00b204e9800998ecf8427e *)
Example md5_a : hexdigest (md5 [97]) =
  [48;99;99;49;55;53;98;57;99;48;102;49;98;54;97;56;51;49;99;51;57;57;101;50;54;57;55;55;50;54;54;49].
Proof. vm_compute. reflexivity. Qed.                      (* 0cc175b9c0f1b6a831c399e269772661 *)
Example md5_abc : hexdigest (md5 [97;98;99]) =
  [57;48;48;49;53;48;57;56;51;99;100;50;52;102;98;48;100;54;57;54;51;102;55;100;50;56;101;49;55;102;55;50].
Proof. vm_compute. reflexivity. Qed.                      (* 900150983cd24fb0d6963f7d28e17f72 *)
(* "12345678901234567890123456789012345678901234567890123456789012345678901234567890": two blocks *)
Example md5_80digits :
  hexdigest (md5 (flat_map (fun _ => [49;50;51;52;53;54;55;56;57;48]) (seq 0 8))) =
  [53;55;101;100;102;52;97;50;50;98;101;51;99;57;53;53;97;99;52;57;100;97;50;101;50;49;48;55;98;54;55;97].
Proof. vm_compute. reflexivity. Qed.                      (* 57edf4a22be3c955ac49da2e2107b67a *)

Lemma md5_wf msg : length (md5 msg) = 16%nat /\ Forall (fun b => b < 256) (md5 msg).
Proof.
  unfold md5. set (st := fold_left _ _ _). split; [reflexivity|].
  repeat (apply Forall_app; split); apply le32_bytes.
Qed.

Lemma seq_split_rev a k : (a <= k)%nat -> rev (seq 0 k) = rev (seq a (k - a)) ++ rev (seq 0 a).
Proof.
  intros H. rewrite <- rev_app_distr. f_equal.
  replace k with (a + (k - a))%nat at 1 by lia. apply seq_app.
Qed.

Lemma lastn_digitsk k a n : (a <= k)%nat -> lastn a (digitsk k n) = digitsk a n.
Proof.
  intros H. unfold digitsk. rewrite (seq_split_rev a k H), map_app.
  apply lastn_app_exact. rewrite map_length, rev_length, seq_length. reflexivity.
Qed.

(* the digit of weight 10^i is not changed by reduction modulo a higher power of ten:
   10^k = 10^i * (10 * m) *)
Lemma digit_mod_pow v i k : i < k -> (v mod 10 ^ k / 10 ^ i) mod 10 = (v / 10 ^ i) mod 10.
Proof.
  intros H. replace k with (i + N.succ (k - N.succ i)) by lia.
  set (m := 10 ^ (k - N.succ i)). set (a := 10 ^ i).
  assert (Ha : a <> 0) by (apply N.pow_nonzero; discriminate).
  assert (Hm : m <> 0) by (apply N.pow_nonzero; discriminate).
  rewrite N.pow_add_r, N.pow_succ_r'. fold a m.
  rewrite N.mod_mul_r by lia.
  rewrite (N.mul_comm a), N.div_add, N.div_small, N.add_0_l by (try apply N.mod_lt; exact Ha).
  rewrite N.mod_mul_r, (N.mul_comm 10), N.mod_add, N.mod_mod by (discriminate || exact Hm). reflexivity.
Qed.

Lemma digitsk_mod k v : digitsk k (v mod 10 ^ N.of_nat k) = digitsk k v.
Proof.
  unfold digitsk. apply map_ext_in. intros i Hi. apply in_rev, in_seq in Hi.
  f_equal. apply digit_mod_pow. lia.
Qed.

(* digits8 is digitsk 8 by conversion *)
Lemma last8_fmt (v : Z) : (0 <= v)%Z -> lastn 8 (fmt_0wd 8 v) = digits8 (Z.to_N v mod 10 ^ 8).
Proof.
  intros Hv. unfold fmt_0wd.
  destruct v as [|p|p]; try lia; rewrite lastn_digitsk by lia; symmetry; exact (digitsk_mod 8 _).
Qed.

Lemma wrap32_id z : (-2147483648 <= z < 2147483648)%Z -> wrap32 z = z.
Proof. intros H. unfold wrap32. rewrite Z.mod_small by lia. lia. Qed.

(* the low 8 bits of a * 2^8 are zero, so or-ing in a byte adds it *)
Lemma lor_low8 a b : (0 <= a)%Z -> (0 <= b < 256)%Z -> Z.lor (Z.shiftl a 8) b = (a * 256 + b)%Z.
Proof.
  intros Ha Hb. rewrite Z.shiftl_mul_pow2 by lia. change (2 ^ 8)%Z with 256%Z.
  assert (H : Z.land (a * 256) b = 0%Z).
  { rewrite <- (Z.mod_small b 256 Hb). change 256%Z with (2 ^ 8)%Z. rewrite <- (Z.land_ones b 8) by lia.
    rewrite (Z.land_comm b), Z.land_assoc, Z.land_ones, Z.mod_mul by lia. apply Z.land_0_l. }
  rewrite <- (Z.lxor_lor _ _ H). symmetry. apply Z.add_nocarry_lxor. exact H.
Qed.

(* 4194304 = 2^22: with pr below it the shifted value with its new byte is below 2^30, inside
   int32, and neither wrap32 does anything *)
Lemma pr_step_val sum pr i :
  (0 <= pr < 4194304)%Z -> (nth i sum 0%N < 256)%N ->
  pr_step sum pr i = (pr * 256 + Z.of_N (nth i sum 0%N))%Z.
Proof.
  intros Hp Hb. unfold pr_step.
  assert (Hs : Z.shiftl pr 8 = (pr * 256)%Z) by (rewrite Z.shiftl_mul_pow2 by lia; reflexivity).
  rewrite (wrap32_id (Z.shiftl pr 8)) by (rewrite Hs; lia).
  rewrite lor_low8 by lia. apply wrap32_id. lia.
Qed.

Lemma land63 b : N.land b 63 = b mod 64.
Proof. change 63 with (N.ones 6). rewrite N.land_ones. reflexivity. Qed.

Lemma le4_mod30 b0 b1 b2 b3 : b0 < 256 -> b1 < 256 -> b2 < 256 ->
  le_to_N [b0; b1; b2; b3] mod 2 ^ 30 = ((b3 mod 64 * 256 + b2) * 256 + b1) * 256 + b0.
Proof.
  intros H0 H1 H2. cbn [le_to_N].
  replace (b0 + 256 * (b1 + 256 * (b2 + 256 * (b3 + 256 * 0))))
    with (b0 + 256 * b1 + 65536 * b2 + b3 * 16777216) by lia.
  change (2 ^ 30) with (16777216 * 64).
  rewrite N.mod_mul_r, N.mod_add, N.div_add, N.mod_small, N.div_small by lia. lia.
Qed.

Theorem response_of_sum_spec sum :
  (4 <= length sum)%nat -> Forall (fun b => b < 256) sum ->
  response_of_sum sum = spec_of_sum sum.
Proof.
  intros Hlen Hwf.
  destruct sum as [|b0 [|b1 [|b2 [|b3 rest]]]]; simpl in Hlen; try lia.
  inversion Hwf as [|? ? H0 Hwf1]; subst. inversion Hwf1 as [|? ? H1 Hwf2]; subst.
  inversion Hwf2 as [|? ? H2 Hwf3]; subst. inversion Hwf3 as [|? ? H3 _]; subst.
  unfold response_of_sum, spec_of_sum.
  cbn [nth firstn].
  rewrite land63.
  pose proof (N.mod_lt b3 64 ltac:(discriminate)) as Hb3.
  rewrite (wrap32_id (Z.of_N (b3 mod 64))) by lia.
  rewrite (pr_step_val _ _ 2) by (cbn [nth]; lia). cbn [nth].
  rewrite (pr_step_val _ _ 1) by (cbn [nth]; lia). cbn [nth].
  rewrite (pr_step_val _ _ 0) by (cbn [nth]; lia). cbn [nth].
  rewrite last8_fmt by lia. rewrite le4_mod30 by assumption.
  f_equal. f_equal. lia.
Qed.

Theorem secure_response_spec c p :
  secure_response c p = spec_response winlinkSecureSalt c p.
Proof.
  unfold secure_response, spec_response.
  destruct (md5_wf (c ++ p ++ winlinkSecureSalt)) as [Hl Hf].
  apply response_of_sum_spec; [lia|assumption].
Qed.

(* the salt the code uses is the published 64-byte Winlink salt (checked against the
   literal written here, independent of the source) *)
Definition published_salt : bytes :=
  [77;197;101;206;190;249;93;200;51;243;93;237;71;94;239;138;68;108;70;185;225;137;217;16;
   51;122;193;48;194;195;198;175;172;169;70;84;61;62;104;186;114;52;61;168;66;129;192;208;
   187;249;232;193;41;113;41;45;240;16;29;228;208;228;61;20].
Lemma salt_is_published : winlinkSecureSalt = published_salt.
Proof. reflexivity. Qed.

Lemma digits8_shape v : length (digits8 v) = 8%nat /\ Forall (fun b => 48 <= b <= 57) (digits8 v).
Proof. exact (digitsk_shape 8 v). Qed.

Lemma send_handshake_no_callback cfg c :
  c <> [] -> hs_cb cfg = None -> send_handshake cfg c = None.
Proof.
  intros Hc Hcb. unfold send_handshake. rewrite Hcb. destruct c; [congruence|reflexivity].
Qed.

Lemma fw_items_spec c cb i fw :
  c <> [] ->
  fw_items c cb i fw =
  concat (map (fun '(k, a) =>
                 match k with
                 | O => 32 :: a
                 | S _ => expected_fw_item winlinkSecureSalt c a (fst (nth k cb ([], true)))
                 end)
              (combine (seq i (length fw)) fw)).
Proof.
  intros Hc. revert i. induction fw as [|a r IH]; intros i; [reflexivity|].
  cbn [fw_items length seq combine map concat]. rewrite IH. f_equal.
  destruct i as [|i']; [reflexivity|].
  destruct c as [|c0 c']; [congruence|].
  unfold expected_fw_item. destruct (nth (S i') cb ([], true)) as [pw e]. cbn [fst].
  destruct pw; [reflexivity|]. rewrite secure_response_spec. reflexivity.
Qed.

Theorem send_handshake_lines cfg c cb pw0 :
  c <> [] -> hs_cb cfg = Some cb -> nth 0 cb ([], true) = (pw0, false) ->
  send_handshake cfg c =
  Some (str_FW
        ++ concat (map (fun '(k, a) =>
                          match k with
                          | O => 32 :: a
                          | S _ => expected_fw_item winlinkSecureSalt c a (fst (nth k cb ([], true)))
                          end) (combine (seq 0 (length (hs_fw cfg))) (hs_fw cfg)))
        ++ [CR] ++ sid_line cfg
        ++ str_PR ++ spec_response winlinkSecureSalt c pw0 ++ [CR] ++ de_line cfg).
Proof.
  intros Hc Hcb H0. unfold send_handshake. rewrite Hcb.
  destruct c as [|c0 c']; [congruence|]. rewrite H0.
  rewrite fw_items_spec by congruence. rewrite secure_response_spec.
  repeat rewrite <- app_assoc. reflexivity.
Qed.

Theorem send_handshake_callback_error cfg c cb pw0 :
  c <> [] -> hs_cb cfg = Some cb -> nth 0 cb ([], true) = (pw0, true) ->
  send_handshake cfg c = None.
Proof.
  intros Hc Hcb H0. unfold send_handshake. rewrite Hcb.
  destruct c as [|c0 c']; [congruence|]. rewrite H0. reflexivity.
Qed.

(* Non-interference: the wire bytes depend on the passwords only through the responses. *)
Theorem send_handshake_noninterference cfg1 cfg2 c cb1 cb2 :
  hs_fw cfg1 = hs_fw cfg2 -> hs_name cfg1 = hs_name cfg2 -> hs_version cfg1 = hs_version cfg2 ->
  hs_target cfg1 = hs_target cfg2 -> hs_mycall cfg1 = hs_mycall cfg2 ->
  hs_locator cfg1 = hs_locator cfg2 -> hs_master cfg1 = hs_master cfg2 ->
  hs_gzip cfg1 = hs_gzip cfg2 ->
  hs_cb cfg1 = Some cb1 -> hs_cb cfg2 = Some cb2 ->
  (forall k, snd (nth k cb1 ([], true)) = snd (nth k cb2 ([], true))) ->
  (forall k, (fst (nth k cb1 ([], true)) = [] <-> fst (nth k cb2 ([], true)) = [])) ->
  (forall k, secure_response c (fst (nth k cb1 ([], true)))
           = secure_response c (fst (nth k cb2 ([], true)))) ->
  send_handshake cfg1 c = send_handshake cfg2 c.
Proof.
  intros Hfw Hn Hv Ht Hm Hl Hma Hg Hc1 Hc2 Herr Hemp Hresp.
  unfold send_handshake. rewrite Hc1, Hc2.
  assert (Hsid : sid_line cfg1 = sid_line cfg2) by (unfold sid_line; rewrite Hn, Hv, Hg; reflexivity).
  assert (Hde : de_line cfg1 = de_line cfg2) by (unfold de_line; rewrite Ht, Hm, Hl, Hma; reflexivity).
  assert (Hitems : forall i fw, fw_items c cb1 i fw = fw_items c cb2 i fw).
  { intros i fw; revert i. induction fw as [|a r IH]; intros i; [reflexivity|].
    cbn [fw_items]. rewrite IH. f_equal.
    destruct i as [|i']; [reflexivity|]. destruct c as [|c0 c']; [reflexivity|].
    specialize (Hemp (S i')). specialize (Hresp (S i')).
    destruct (nth (S i') cb1 ([], true)) as [p1 e1], (nth (S i') cb2 ([], true)) as [p2 e2].
    cbn [fst] in Hemp, Hresp. destruct Hemp as [H12 H21].
    destruct p1 as [|x1 p1], p2 as [|x2 p2].
    - reflexivity.
    - discriminate (H12 eq_refl).
    - discriminate (H21 eq_refl).
    - rewrite Hresp. reflexivity. }
  rewrite Hfw, Hsid, Hde, Hitems.
  destruct c as [|c0 c']; [reflexivity|].
  specialize (Herr 0%nat). specialize (Hresp 0%nat).
  destruct (nth 0 cb1 ([], true)) as [p1 e1], (nth 0 cb2 ([], true)) as [p2 e2].
  cbn [fst snd] in Herr, Hresp. subst e2. destruct e1; [reflexivity|]. rewrite Hresp. reflexivity.
Qed.
