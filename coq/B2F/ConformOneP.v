(* C05, one library side against an arbitrary peer (one_side_conforms): if the independent grammar finds
   fault with a session that the library side ends with nil, it is with the peer's part.  The validator's
   state is kept synchronised with the library's at turn boundaries: sender_turn2 and receiver_turn are the
   two steps, turns_conform the induction, slave_greet and master_greet_A / _B the greetings.  What is asked
   of the peer (peer_ok) is shown necessary by the examples at the end.  Of cfg_scope only the master's prompt
   is (cx_no_prompt): cx_motd shows one harmful MOTD line, and ConformScopeP.v replaces "no MOTD" by a
   condition on its lines and drops the clause about the slave (secure login). *)
From Coq Require Import List NArith ZArith Bool Lia ZifyN ZifyNat ZifyBool.
From Verif Require Import Base.Bytes Base.BytesP Base.Utf8 gen.Tables Lzhuf.Dec Lzhuf.Canon Msg.Message B2F.Secure B2F.SecureP B2F.Side B2F.SideP
  B2F.TermP B2F.CodecP B2F.CutP B2F.PairDefs B2F.PairLines B2F.PairXfer B2F.PairHs B2F.PairP B2F.PairIter B2F.DeliverP
  B2F.Grammar B2F.GrammarP B2F.ConformP.
Import ListNotations.
Open Scope N_scope.

(* what is asked of a line of the peer: the offsets it asks for in an answer line respect the protocol
   limit (ConformP.offset_limit_cx).  It is asked of every line of the peer's stream that parses as an
   "FS" line, not only of those the session uses as answers. *)
Definition elem_off (e : elem) : Prop :=
  match e with Line l => forall G, fs_answers l = Some G -> Forall off_small G | _ => True end.

Lemma elem_ok_off e : elem_ok e -> elem_off e.
Proof. destruct e; try (intros; exact I). intros [_ H]. exact H. Qed.

Theorem sender_turn2 r s q s1 f a b :
  handle_outbound s = ROk (q, s1) -> Forall blk_conf (hob s) -> Forall elem_off (toks (s_in s)) ->
  (length (toks (tailw true s)) + length (toks (s_in s)) < S f)%nat ->
  notblame r (Grammar.turns (S f) (mkst r (toks (tailw true s)) (toks (s_in s)) a b) r) \/
  (q = false /\ exists a' b',
     Grammar.turns (S f) (mkst r (toks (tailw true s)) (toks (s_in s)) a b) r =
     Grammar.turns f (mkst r (toks (tailw false s1)) (toks (s_in s1)) a' b') (negb r) /\
     Forall elem_off (toks (s_in s1)) /\ Forall blk_conf (hob s1) /\
     (length (toks (tailw false s1)) + length (toks (s_in s1)) < f)%nat).
Proof. exact (sender_turn_any elem_off (fun l H => H) r s q s1 f a b). Qed.

Lemma inbound_loop_fuel : forall f1 f2 s props lines, (inlen s < f1)%nat -> (inlen s < f2)%nat ->
  inbound_loop f1 s props lines = inbound_loop f2 s props lines.
Proof.
  induction f1 as [|f1 IH]; intros f2 s props lines H1 H2; [lia|]. destruct f2 as [|f2]; [lia|].
  rewrite !inbound_loop_eq.
  destruct (next_line true s) as [[line s1]|e s1|] eqn:En; try reflexivity.
  apply TermP.next_line_ok in En.
  destruct (il_line s1 props lines line) as [p l|r0]; [|reflexivity].
  apply IH; lia.
Qed.

Lemma digit_okb y : is_digit y = true -> okb y = true.
Proof. unfold is_digit, okb, is_space_rune. lia. Qed.

Lemma parse_prop_shape l p : parse_prop l = Some p ->
  exists c rest ty mid us cs zero y,
    l = 70 :: c :: 32 :: rest /\ (c = 67 \/ c = 68) /\ split_on 32 rest = [ty; mid; us; cs; zero] /\
    type_ok ty = true /\ ends_with y l /\ is_digit y = true.
Proof.
  unfold parse_prop. pose proof (join_split 32 l) as El. pose proof (split_on_parts 32 l) as Hp.
  destruct (split_on 32 l) as [|cmd [|ty [|mid [|us [|cs [|zero [|x xs]]]]]]]; try discriminate.
  match goal with |- (if ?c then _ else _) = _ -> _ => destruct c eqn:C end; [|discriminate]. intros _.
  repeat (apply andb_true_iff in C; destruct C as [C ?]).
  inversion Hp as [|? ? _ Hp']; subst. cbn [join_with].
  assert (Hz : exists z' y, zero = z' ++ [y] /\ is_digit y = true).
  { unfold all_digits in *. destruct zero as [|z0 zs]; [discriminate|].
    destruct (exists_last (l := z0 :: zs)) as (z'&y&Ez); [discriminate|]. exists z', y. split; [exact Ez|].
    match goal with H : forallb is_digit (z0 :: zs) = true |- _ => rewrite Ez, forallb_app in H; apply andb_true_iff in H; destruct H as [_ H];
      cbn [forallb] in H; rewrite andb_true_r in H; exact H end. }
  destruct Hz as (z'&y&Ez&Hy).
  exists (if beq_bytes cmd [70; 67] then 67 else 68), (join_with 32 [ty; mid; us; cs; zero]), ty, mid, us, cs, zero, y.
  split; [|split; [destruct (beq_bytes cmd [70; 67]); auto|split; [apply split_join; [discriminate|exact Hp']|split; [|split; [|exact Hy]]]]].
  - apply orb_true_iff in C. destruct C as [C|C]; rewrite (beq_bytes_true _ _ C); reflexivity.
  - match goal with H : beq_bytes ty [69; 77] || beq_bytes ty [67; 77] = true |- _ =>
      apply orb_true_iff in H; destruct H as [H|H]; apply beq_bytes_true in H; subst ty; reflexivity end.
  - cbn [join_with]. rewrite Ez. apply ends_with_app, ends_with_cons, ends_with_app, ends_with_cons, ends_with_app, ends_with_cons,
      ends_with_app, ends_with_cons, ends_with_app, ends_with_cons, ends_with_app, ends_with_one.
Qed.

Lemma parse_prop_clean l p : parse_prop l = Some p -> clean_string l = l.
Proof.
  intros H. destruct (parse_prop_shape l p H) as (c&rest&ty&mid&us&cs&zero&y&->&_&_&_&He&Hy).
  apply (clean_string_id 70 _ y); [reflexivity|apply digit_okb, Hy|exact He].
Qed.

Lemma il_line_comment s1 props lines c : prefixb [59] c = true -> il_line s1 props lines c = IlCont props lines.
Proof.
  intros H. destruct (prefixb_head _ _ _ H) as (m&->&_). unfold il_line. destruct (prefixb str_PM (59 :: m)); reflexivity.
Qed.

Lemma il_line_ff s1 props lines : il_line s1 props lines [70; 70] = IlDone (ROk (false, [], set_nomsgs s1 true)).
Proof. reflexivity. Qed.
Lemma il_line_fq s1 props lines : il_line s1 props lines [70; 81] = IlDone (ROk (true, [], s1)).
Proof. reflexivity. Qed.

Lemma il_line_prop s1 props lines l p : parse_prop l = Some p ->
  exists ip, il_line s1 props lines l = IlCont (ip :: props) (l :: lines).
Proof.
  intros H. destruct (parse_prop_shape l p H) as (c&rest&ty&mid&us&cs&zero&y&->&Hc&Hs&Hty&_&_).
  eexists. exact (il_line_shape s1 props lines c rest ty mid us cs zero Hc Hs Hty).
Qed.

Lemma hex_okb h : hex_digit h <> None -> okb h = true.
Proof.
  unfold hex_digit. destruct (is_digit h) eqn:E1; [intros _; apply digit_okb, E1|].
  destruct ((65 <=? h) && (h <=? 70)) eqn:E2; [intros _; unfold okb, is_space_rune; lia|].
  destruct ((97 <=? h) && (h <=? 102)) eqn:E3; [intros _; unfold okb, is_space_rune; lia|congruence].
Qed.

Lemma valid_prompt_shape l acc : valid_prompt l acc = true ->
  exists h1 h2, l = [70; 62; 32; h1; h2] /\ okb h2 = true.
Proof.
  unfold valid_prompt.
  destruct l as [|a l]; [discriminate|].
  destruct (N.eq_dec a 70) as [->|Ha]; [|rewrite match_lit_70 by exact Ha; discriminate].
  destruct l as [|b l]; [discriminate|].
  destruct (N.eq_dec b 62) as [->|Hb]; [|rewrite match_lit_62 by exact Hb; discriminate].
  destruct l as [|c l]; [discriminate|].
  destruct (N.eq_dec c 32) as [->|Hc]; [|rewrite match_lit_32 by exact Hc; discriminate].
  destruct l as [|h1 l]; [discriminate|]. destruct l as [|h2 l]; [discriminate|]. destruct l as [|x xs]; [|discriminate].
  destruct (hex_digit h1) eqn:E1; [|discriminate]. destruct (hex_digit h2) eqn:E2; [|discriminate].
  intros _. exists h1, h2. split; [reflexivity|]. apply hex_okb. congruence.
Qed.

Lemma answer_props_length : forall props s seen acc,
  length (snd (answer_props s props seen acc)) = (length props + length acc)%nat.
Proof.
  induction props as [|p r IH]; intros s seen acc; cbn [answer_props].
  - cbn [snd]. rewrite rev'_rev, rev_length. reflexivity.
  - destruct (mem_bytes (i_mid p) seen || negb ((i_code p =? Wl2kProposal) || (i_code p =? GzipProposal)) || negb (h_present (s_h s)));
      rewrite IH; cbn [length]; lia.
Qed.

(* what inbound_loop does with a line it has read *)
Definition il_next (f : nat) (s1 : sess) (props : list iprop) (lines : list bytes) (line : bytes) : ires :=
  match il_line s1 props lines line with IlCont p l => inbound_loop f s1 p l | IlDone r0 => r0 end.

(* the library is in its proposal loop, the grammar looks for the peer's next command: either the
   grammar finds fault with the peer, or both have read the same line (the library: cleaned) and
   stand behind it *)
Lemma cmd_sync r mine props lines res : forall f s, inbound_loop f s props lines = ROk res ->
  Forall elem_off (toks (s_in s)) ->
  forall F a b, (length (toks (s_in s)) < F)%nat ->
  match next_cmd F (mkst r mine (toks (s_in s)) a b) (negb r) with
  | inr v => notblame r v
  | inl None => True
  | inl (Some (l, st')) =>
      exists f' s1 b', il_next f' s1 props lines (clean_string l) = ROk res /\ eqo s s1 /\
        st' = mkst r mine (toks (s_in s1)) a b' /\ Forall elem_off (toks (s_in s1)) /\
        (length (toks (s_in s1)) < length (toks (s_in s)))%nat /\ is_comment l = false
  end.
Proof.
  induction f as [|f IH]; intros s H Hok F a b HF; [discriminate|]. rewrite inbound_loop_eq in H.
  destruct (next_line true s) as [[line s1]|e s1|] eqn:En; try discriminate.
  destruct (peer_line _ _ _ _ En) as (l&rr&_&->&->&[Ht|(e&rest&Ht&Hne)]); (destruct F as [|F]; [lia|]).
  2:{ rewrite Ht. destruct (next_cmd_theirs_bad r mine e rest a b F Hne) as [k ->]. apply negb_neq. }
  rewrite Ht in *. inversion Hok as [|? ? _ Hok']; subst. cbn [length] in HF.
  cbn [next_cmd]. rewrite pop_theirs. destruct (is_comment l) eqn:Ec.
  - assert (Eil : il_line (set_in s rr) props lines (clean_string l) = IlCont props lines)
      by (destruct (comment_clean_cases l Ec) as [E0|Hc]; [rewrite E0; reflexivity|apply il_line_comment, Hc]).
    rewrite Eil in H.
    specialize (IH (set_in s rr) H Hok' F a (S b) ltac:(cbn [set_in s_in]; lia)).
    cbn [set_in s_in] in IH.
    destruct (next_cmd F (mkst r mine (toks rr) a (S b)) (negb r)) as [[[l' st3]|]|v]; try exact IH.
    destruct IH as (f'&s1&b'&I1&I2&I3&I4&I5&I6). exists f', s1, b'.
    split; [exact I1|]. split; [eapply eqo_trans; [apply eqo_set_in|exact I2]|]. split; [exact I3|]. split; [exact I4|].
    split; [cbn [length]; lia|exact I6].
  - exists f, (set_in s rr), (S b). split; [exact H|]. split; [apply eqo_set_in|]. split; [reflexivity|].
    split; [exact Hok'|]. split; [cbn [set_in s_in length]; lia|exact Ec].
Qed.

Lemma il_next_prompt f s1 p0 pr lines m res :
  il_next f s1 (p0 :: pr) lines (70 :: 62 :: m) = ROk res ->
  res = (false, snd (answer_props (set_nomsgs s1 false) (rev' (p0 :: pr)) [] []),
         wr (fst (answer_props (set_nomsgs s1 false) (rev' (p0 :: pr)) [] []))
            ([70; 83; 32] ++ map (fun p => answer_byte (i_answer p)) (snd (answer_props (set_nomsgs s1 false) (rev' (p0 :: pr)) [] [])) ++ [13])).
Proof.
  unfold il_next, il_line.
  change (prefixb str_PM (70 :: 62 :: m)) with false. cbv iota.
  change (70 =? 59) with false. cbv iota.
  rewrite length2_ltb. change (false || negb (70 =? 70)) with false. cbv iota.
  change (in_list 62 [65; 66; 67; 68]) with false. cbv iota.
  change (62 =? 70) with false. change (62 =? 81) with false. change (62 =? 62) with true. cbv iota.
  change (slice_from 2 (70 :: 62 :: m)) with (Some m). cbv iota zeta beta.
  destruct (negb _); [discriminate|].
  destruct (answer_props (set_nomsgs s1 false) (rev' (p0 :: pr)) [] []) as [s2 answered]. cbn [fst snd].
  intros H. congruence.
Qed.

Lemma il_line_prompt s1 p0 pr lines m res :
  il_line s1 (p0 :: pr) lines (70 :: 62 :: m) = IlDone (ROk res) ->
  res = (false, snd (answer_props (set_nomsgs s1 false) (rev' (p0 :: pr)) [] []),
         wr (fst (answer_props (set_nomsgs s1 false) (rev' (p0 :: pr)) [] []))
            ([70; 83; 32] ++ map (fun p => answer_byte (i_answer p)) (snd (answer_props (set_nomsgs s1 false) (rev' (p0 :: pr)) [] [])) ++ [13])).
Proof. intros H. apply (il_next_prompt 0 s1 p0 pr lines m). unfold il_next. rewrite H. reflexivity. Qed.

(* the block of proposals: read_block of the grammar against the proposal loop of the library *)
Lemma block_sync r mine res : forall fb f s1 props lines first gacc gprops a b,
  il_next f s1 props lines (clean_string first) = ROk res ->
  Forall elem_off (toks (s_in s1)) -> length props = length gprops ->
  match read_block fb (mkst r mine (toks (s_in s1)) a b) (negb r) first gacc gprops with
  | inr v => notblame r v
  | inl (gp, st') =>
      exists s2 answered b', res = (false, answered, s2) /\ length answered = length gp /\
        wire s2 = wire s1 ++ fs_line (map i_answer answered) /\ hob s2 = hob s1 /\
        st' = mkst r mine (toks (s_in s2)) a b' /\ Forall elem_off (toks (s_in s2)) /\
        (length (toks (s_in s2)) < length (toks (s_in s1)))%nat
  end.
Proof.
  induction fb as [|fb IH]; intros f s1 props lines first gacc gprops a b H Hok Hl; [apply negb_neq|].
  rewrite read_block_S. destruct (parse_prop first) as [p|] eqn:Ep; [|apply negb_neq].
  rewrite (parse_prop_clean _ _ Ep) in H.
  destruct (il_line_prop s1 props lines first p Ep) as [ip Eil]. unfold il_next in H. rewrite Eil in H.
  destruct (5 <? length (gprops ++ [p]))%nat; [apply negb_neq|].
  pose proof (cmd_sync r mine _ _ _ _ _ H Hok _ a b (mkst_fuel r mine _ a b)) as Hc.
  destruct (next_cmd _ (mkst r mine (toks (s_in s1)) a b) (negb r)) as [[[l st']|]|v]; [|apply negb_neq|exact Hc].
  destruct Hc as (f'&s1'&b'&Hn&Hq&->&Hok'&Hlen&Hcm).
  destruct (prefixb [70; 62] l) eqn:Epf.
  - destruct (valid_prompt l (gacc ++ [first])) eqn:Ev; [|apply negb_neq].
    destruct (valid_prompt_shape _ _ Ev) as (h1&h2&->&Hh2).
    rewrite (clean_string_id 70 [62; 32; h1; h2] h2 eq_refl Hh2) in Hn by (exists [70; 62; 32; h1]; reflexivity).
    apply il_next_prompt in Hn.
    pose proof (answer_props_out (rev' (ip :: props)) (set_nomsgs s1' false) [] []) as [Ho Hh].
    pose proof (answer_props_in (rev' (ip :: props)) (set_nomsgs s1' false) [] []) as Hin.
    pose proof (answer_props_length (rev' (ip :: props)) (set_nomsgs s1' false) [] []) as Hal.
    destruct (answer_props (set_nomsgs s1' false) (rev' (ip :: props)) [] []) as [sB answered]. cbn [fst snd] in *.
    eexists. exists answered, b'. split; [exact Hn|].
    split; [rewrite Hal, rev'_rev, rev_length, app_length; cbn [length]; clear -Hl; lia|].
    split; [rewrite wire_wr, Ho; change (wire (set_nomsgs s1' false)) with (wire s1');
            rewrite <- (wire_eqo _ _ Hq); unfold fs_line; rewrite map_map; reflexivity|].
    split; [unfold hob; cbn [wr s_h]; rewrite Hh; cbn [set_nomsgs s_h]; rewrite (eqo_h _ _ Hq); reflexivity|].
    cbn [wr s_in]. rewrite Hin. cbn [set_nomsgs s_in]. split; [reflexivity|]. split; [exact Hok'|exact Hlen].
  - specialize (IH f' s1' (ip :: props) (first :: lines) l (gacc ++ [first]) (gprops ++ [p]) a b' Hn Hok'
                   ltac:(rewrite app_length; cbn [length]; lia)).
    destruct (read_block fb (mkst r mine (toks (s_in s1')) a b') (negb r) l (gacc ++ [first]) (gprops ++ [p])) as [[gp st']|v]; [|exact IH].
    destruct IH as (s2&answered&b''&I1&I2&I3&I4&I5&I6&I7). exists s2, answered, b''.
    split; [exact I1|]. split; [exact I2|]. split; [rewrite I3, (wire_eqo _ _ Hq); reflexivity|].
    split; [rewrite I4; unfold hob; rewrite (eqo_h _ _ Hq); reflexivity|]. split; [exact I5|]. split; [exact I6|lia].
Qed.

Lemma take_k_take_n : forall n r acc d r' buf sum b r2 s2,
  take_k n r acc = Some (d, r') -> take_n n r buf sum = Some (b, r2, s2) -> r2 = r'.
Proof.
  induction n as [|n IH]; intros r acc d r' buf sum b r2 s2 H1 H2; cbn [take_k take_n] in *; [congruence|].
  destruct r as [|x r]; [discriminate|]. eapply IH; eassumption.
Qed.

(* the tokeniser of the grammar and read_frames of the library parse the same frames: whenever both
   succeed they stop at the same byte *)
Lemma blocks_frames : forall f s acc sum d bok cok r3, blocks f s acc sum = Some (d, bok, cok, r3) ->
  forall f' buf sum' cs data r4, read_frames f' s buf sum' cs = FOk data r4 -> r4 = r3.
Proof.
  induction f as [|f IH]; intros s acc sum d bok cok r3 H f' buf sum' cs data r4 H'; [discriminate|].
  cbn [blocks] in H.
  destruct s as [|x s]; [discriminate|].
  destruct (N.eq_dec x 2) as [->|H2]; [|destruct (N.eq_dec x 4) as [->|H4]; [|rewrite match_lit_2_4 in H by assumption; discriminate]];
    (destruct s as [|l s]; [discriminate|]); (destruct f' as [|f']; [discriminate|]); cbn [read_frames] in H'.
  - change (2 =? CHRSTX) with true in H'. cbv iota beta zeta in H'.
    destruct (take_k (if l =? 0 then 256%nat else N.to_nat l) s []) as [[dd r']|] eqn:E; [|discriminate].
    destruct (take_n (if l =? 0 then 256%nat else N.to_nat l) s buf sum') as [[[b' r2] s2]|] eqn:E'; [|discriminate].
    rewrite (take_k_take_n _ _ _ _ _ _ _ _ _ _ E E') in H'. eapply IH; eassumption.
  - injection H as _ _ _ <-.
    change (4 =? CHRSTX) with false in H'. change (4 =? CHREOT) with true in H'. cbv iota beta zeta in H'.
    destruct (negb _) in H'; [discriminate|]. destruct (negb _) in H'; [discriminate|]. congruence.
Qed.

Lemma read_compressed_rest s ip hl title offs r2 d bok cok r3 cd s' :
  s_in s = 1 :: hl :: title ++ 0 :: offs ++ 0 :: r2 -> ~ In 0 title -> ~ In 0 offs ->
  blocks (S (length r2)) r2 [] 0 = Some (d, bok, cok, r3) ->
  read_compressed s ip = ROk (cd, s') -> s' = set_in s r3.
Proof.
  intros Hs Ht Ho Hb Hrc. destruct (read_compressed_ok _ _ _ _ Hrc) as (hl'&r1&t'&r2'&o'&r3'&Es&E1&E2&_&F&->).
  rewrite Hs in Es. injection Es as <- <-. change CHRNUL with 0 in E1, E2.
  rewrite read_until_notin in E1 by exact Ht. injection E1 as <- <-.
  rewrite read_until_notin in E2 by exact Ho. injection E2 as <- <-.
  rewrite (blocks_frames _ _ _ _ _ _ _ _ Hb _ _ _ _ _ _ F). reflexivity.
Qed.

(* send_transfers of the grammar (the peer is the proposer) against receive_accepted *)
Lemma xfer_sync r mine : forall answered gp s1 s2 a b, length answered = length gp ->
  receive_accepted s1 answered = RcOk s2 -> Forall elem_off (toks (s_in s1)) ->
  match send_transfers (mkst r mine (toks (s_in s1)) a b) (negb r) gp (map to_gans (map i_answer answered)) with
  | inr v => notblame r v
  | inl st4 => exists b', st4 = mkst r mine (toks (s_in s2)) a b' /\ Forall elem_off (toks (s_in s2)) /\
       (length (toks (s_in s2)) <= length (toks (s_in s1)))%nat
  end.
Proof.
  induction answered as [|ip rest IH]; intros [|g gp] s1 s2 a b Hl Hr Hok; try discriminate.
  - cbn in Hr. injection Hr as <-. cbn [map send_transfers]. exists b. split; [reflexivity|]. split; [exact Hok|lia].
  - cbn [length] in Hl. injection Hl as Hl. cbn [map send_transfers]. cbn [receive_accepted] in Hr.
    destruct (i_answer ip) eqn:Ea; cbn [to_gans]; try (apply IH; assumption).
    destruct (first_elem_cases (s_in s1)) as [E Ht|l0 r0 E Hn0 Ht|hl t o r2 d bok cok r3 E Hnt Hno Hb Ht|gb Ht]; rewrite Ht in *.
    + assert (Ep : pop (mkst r mine [] a b) (negb r) = None) by (destruct r; reflexivity). rewrite Ep. apply negb_neq.
    + rewrite pop_theirs. cbn [valid_transfer]. apply negb_neq.
    + rewrite pop_theirs. destruct (valid_transfer _ g 0); [|apply negb_neq].
      destruct (read_compressed s1 ip) as [[cd s1']|e s1'|] eqn:Erc; try discriminate.
      pose proof (read_compressed_rest _ _ _ _ _ _ _ _ _ _ _ _ E Hnt Hno Hb Erc) as ->.
      destruct (proposal_message cd) as [mid data|e|]; try discriminate.
      destruct (mem_bytes mid (h_fail (s_h (set_in s1 r3)))); [discriminate|].
      inversion Hok as [|? ? _ Hok']; subst.
      specialize (IH gp _ s2 a (S b) Hl Hr). cbn [add_recv ev set_in s_in] in IH. specialize (IH Hok').
      destruct (send_transfers (mkst r mine (toks r3) a (S b)) (negb r) gp (map to_gans (map i_answer rest))) as [st4|v]; [|exact IH].
      destruct IH as (b'&I1&I2&I3). exists b'. split; [exact I1|]. split; [exact I2|]. cbn [length]. lia.
    + rewrite pop_theirs. cbn [valid_transfer]. apply negb_neq.
Qed.

Lemma clean_ff : clean_string [70; 70] = [70; 70]. Proof. vm_compute. reflexivity. Qed.
Lemma clean_fq : clean_string [70; 81] = [70; 81]. Proof. vm_compute. reflexivity. Qed.

(* r is the role of the library (true = master).  The validator's state is synchronised with the
   library's state s at the start of a turn of the PEER: the elements of the library still to be
   examined are those of what the library will write from now on (tailw false s), the elements of
   the peer those of the library's unread input.  Whatever the peer sends (elem_off), if the
   library's receiving turn succeeds then either the validator does not blame the library, or it
   reaches the library's turn in a state synchronised with the library's, with less fuel. *)
Theorem receiver_turn r s q props s1 s2 f a b :
  inbound_loop (S (length (s_in s))) s [] [] = ROk (q, props, s1) -> receive_accepted s1 props = RcOk s2 ->
  Forall elem_off (toks (s_in s)) ->
  (length (toks (tailw false s)) + length (toks (s_in s)) < S f)%nat ->
  notblame r (Grammar.turns (S f) (mkst r (toks (tailw false s)) (toks (s_in s)) a b) (negb r)) \/
  (q = false /\ exists a' b',
     Grammar.turns (S f) (mkst r (toks (tailw false s)) (toks (s_in s)) a b) (negb r) =
     Grammar.turns f (mkst r (toks (tailw true s2)) (toks (s_in s2)) a' b') r /\
     Forall elem_off (toks (s_in s2)) /\ hob s2 = hob s /\
     (length (toks (tailw true s2)) + length (toks (s_in s2)) < f)%nat).
Proof.
  intros Hil Hrc Hok Hf. rewrite turns_S, !negb_involutive.
  pose proof (cmd_sync r (toks (tailw false s)) _ _ _ _ _ Hil Hok _ a b (mkst_fuel r (toks (tailw false s)) _ a b)) as Hc.
  destruct (next_cmd _ (mkst r (toks (tailw false s)) (toks (s_in s)) a b) (negb r)) as [[[l st1]|]|v];
    [|left; apply negb_neq|left; exact Hc].
  destruct Hc as (f'&s1'&b'&Hn&Hq&->&Hok'&Hlen&Hcm).
  pose proof (receive_accepted_silent props s1) as Hsil. rewrite Hrc in Hsil. destruct Hsil as [Hout _].
  pose proof (f_equal h_outbox (receive_accepted_h _ _ _ Hrc)) as Hhob. fold (hob s2) (hob s1) in Hhob.
  destruct (beq_bytes l [70; 70]) eqn:E1.
  { (* FF *)
    apply beq_bytes_true in E1. subst l. rewrite clean_ff in Hn. unfold il_next in Hn. rewrite il_line_ff in Hn.
    assert (q = false /\ props = [] /\ s1 = set_nomsgs s1' true) as (->&->&->) by (repeat split; congruence).
    cbn in Hrc. injection Hrc as <-.
    assert (Ht : tailw false s = tailw true (set_nomsgs s1' true)).
    { apply tailw_intro. rewrite (final_recv_ok _ _ _ _ Hil eq_refl), tailw_eq.
      change (wire (set_nomsgs s1' true)) with (wire s1'). rewrite (wire_eqo _ _ Hq). reflexivity. }
    right. split; [reflexivity|]. exists a, b'. rewrite <- Ht. cbn [set_nomsgs s_in].
    split; [reflexivity|]. split; [exact Hok'|].
    split; [unfold hob; cbn [set_nomsgs s_h]; rewrite (eqo_h _ _ Hq); reflexivity|lia]. }
  destruct (beq_bytes l [70; 81]) eqn:E2.
  { (* FQ *)
    apply beq_bytes_true in E2. subst l. rewrite clean_fq in Hn. unfold il_next in Hn. rewrite il_line_fq in Hn.
    assert (q = true /\ props = [] /\ s1 = s1') as (->&->&->) by (repeat split; congruence).
    cbn in Hrc. injection Hrc as <-.
    assert (Ht : tailw false s = []).
    { apply tailw_intro. rewrite (final_recv_quit _ _ _ _ Hil eq_refl), app_nil_r. symmetry. apply wire_eqo, Hq. }
    left. rewrite Ht. change (toks []) with (@nil elem).
    destruct r; cbn [mkst gm gs nm ns]; destruct (toks (s_in s1')); cbn [notblame]; try exact I; discriminate. }
  (* a block of proposals *)
  pose proof (block_sync r (toks (tailw false s)) _ 6 f' s1' [] [] l [] [] a b' Hn Hok' eq_refl) as Hb.
  destruct (read_block 6 (mkst r (toks (tailw false s)) (toks (s_in s1')) a b') (negb r) l [] []) as [[gp st2]|v]; [|left; exact Hb].
  destruct Hb as (sB&answered&b2&Eres&Hla&Hw&Hh&->&Hok2&Hlen2).
  assert (q = false /\ props = answered /\ s1 = sB) as (->&->&->) by (repeat split; congruence).
  set (A := map i_answer answered) in *.
  assert (Ht : tailw false s = fs_line A ++ tailw true s2).
  { apply tailw_intro. rewrite (final_recv_ok _ _ _ _ Hil Hrc), tailw_eq, (wire_out _ _ Hout), Hw, <- (wire_eqo _ _ Hq), <- app_assoc.
    reflexivity. }
  rewrite Ht, toks_fs_line in *.
  rewrite <- mkst_swap, after_block_fs, mkst_swap by (unfold A; rewrite map_length; exact Hla). rewrite negb_involutive.
  pose proof (xfer_sync r (toks (tailw true s2)) answered gp sB s2 (S a) b2 Hla Hrc Hok2) as Hx. fold A in Hx.
  destruct (send_transfers (mkst r (toks (tailw true s2)) (toks (s_in sB)) (S a) b2) (negb r) gp (map to_gans A)) as [st4|v]; [|left; exact Hx].
  destruct Hx as (b3&->&Hok3&Hlen3).
  right. split; [reflexivity|]. exists (S a), b3. split; [reflexivity|]. split; [exact Hok3|].
  split; [rewrite Hhob, Hh; unfold hob; rewrite (eqo_h _ _ Hq); reflexivity|].
  cbn [length] in Hf. lia.
Qed.

(* from a synchronised state at a turn boundary, a run of the library that ends with nil is not
   blamed by the validator (my = true: it is the library's turn) *)
Theorem turns_conform r : forall F (my : bool) s a b,
  fst (run my s) = XNil ->
  Forall blk_conf (hob s) -> Forall elem_off (toks (s_in s)) ->
  (length (toks (tailw my s)) + length (toks (s_in s)) < F)%nat ->
  notblame r (Grammar.turns F (mkst r (toks (tailw my s)) (toks (s_in s)) a b) (if my then r else negb r)).
Proof.
  induction F as [|F IH]; intros my s a b Hx Hc Hok Hf; [lia|]. destruct my.
  - rewrite run_send in Hx.
    destruct (handle_outbound s) as [[q s1]|e s1|] eqn:Hho; [|destruct e; discriminate|discriminate].
    destruct (sender_turn2 r s q s1 F a b Hho Hc Hok Hf) as [H|(->&a'&b'&E&Hok1&Hc1&Hl)]; [exact H|].
    rewrite E. apply (IH false); assumption.
  - rewrite run_recv in Hx.
    destruct (inbound_loop (S (length (s_in s))) s [] []) as [[[q props] s1]|e s1|] eqn:Hil; [|destruct e; discriminate|discriminate].
    destruct (receive_accepted s1 props) as [s2|e s2| |] eqn:Hrc; [|destruct e; discriminate|discriminate|discriminate].
    destruct (receiver_turn r s q props s1 s2 F a b Hil Hrc Hok Hf) as [H|(->&a'&b'&E&Hok2&Hh&Hl)]; [exact H|].
    rewrite E. apply (IH true); try assumption. rewrite Hh. exact Hc.
Qed.

Lemma exchange_nil cfg input : x_res (exchange cfg input) = XNil ->
  h_present (c_handler cfg) && h_prepare_err (c_handler cfg) = false /\
  exists s2, handshake (init_state cfg input) = ROk s2.
Proof.
  unfold exchange. cbv zeta. fold (init_state cfg input).
  destruct (h_present (c_handler cfg) && h_prepare_err (c_handler cfg)); [rewrite finish_res; discriminate|].
  destruct (handshake (init_state cfg input)) as [s2|e s2|];
    [intros _; split; [reflexivity|eauto]|rewrite finish_res; destruct e; discriminate|rewrite finish_res; discriminate].
Qed.

Lemma exchange_nil_run cfg peer : x_res (exchange cfg peer) = XNil ->
  exists s2, handshake (init_state cfg peer) = ROk s2 /\ fst (run (negb (c_master cfg)) s2) = XNil /\
    x_wire (exchange cfg peer) = wire s2 ++ tailw (negb (c_master cfg)) s2 /\ hob s2 = h_outbox (c_handler cfg).
Proof.
  intros Hx. destruct (exchange_nil _ _ Hx) as (Bp&s2&Hhsk). exists s2.
  destruct (exchange_ok3 cfg peer s2 Bp Hhsk) as (Rx&Wx&_).
  split; [exact Hhsk|]. split; [rewrite <- Rx; exact Hx|]. split; [rewrite Wx; apply tailw_eq|].
  unfold hob. rewrite (handshake_h _ _ Hhsk), init_state_h. reflexivity.
Qed.

(* the master writes every MOTD line followed by CR, then its greeting, and reads *)
Lemma handshake_master_inv s s2 : s_master s = true -> handshake s = ROk s2 ->
  exists d, read_handshake (S (length (s_in s)))
              (wr (fold_left (fun acc l => wr acc (l ++ [13])) (s_motd s) s) (hello (s_cfg s))) d0 = ROk (d, s2).
Proof.
  intros Hm. rewrite handshake_eq. unfold greeted. rewrite Hm.
  destruct (read_handshake _ _ d0) as [[d1 s3]|e s3|]; try discriminate.
  destruct (hs_good d1); [|discriminate]. intros H. injection H as <-. exists d1. reflexivity.
Qed.

(* the slave reads, then writes the greeting that Secure.send_handshake makes of the challenge *)
Lemma handshake_slave_inv s s2 : s_master s = false -> handshake s = ROk s2 ->
  exists d s1 g, read_handshake (S (length (s_in s))) s d0 = ROk (d, s1) /\ s2 = wr s1 g /\
    send_handshake (s_cfg s) (hd_challenge d) = Some g.
Proof.
  intros Hm. rewrite handshake_eq. unfold greeted. rewrite Hm.
  destruct (read_handshake _ s d0) as [[d1 s1]|e s1|]; try discriminate.
  destruct (hs_good d1); [|discriminate]. destruct (send_handshake (s_cfg s) (hd_challenge d1)) as [g|] eqn:Eg; [|discriminate].
  intros H. injection H as <-. exists d1, s1, g. split; [reflexivity|]. split; [reflexivity|exact Eg].
Qed.

(* the (cleaned) line ends the greeting for the library *)
Definition stops (c : bytes) : bool :=
  negb (prefixb [91] c && suffixb [93] c) && negb (prefixb str_FWp c) && negb (prefixb str_PQ c) && suffixb [62] c.
Definition stops_lib (l : bytes) : bool := stops (clean_string l).

Lemma rh_line_stops d c : stops c = match rh_line d c with RhStop => true | _ => false end.
Proof.
  unfold stops, rh_line. destruct (prefixb [91] c && suffixb [93] c).
  { destruct (parse_sid c) as [sid|]; [destruct (containsb sFBComp2 sid)|]; reflexivity. }
  destruct (prefixb str_FWp c); [destruct (prefixb str_FWfull c); reflexivity|].
  destruct (prefixb str_PQ c); [destruct (length c <? 5)%nat; reflexivity|]. destruct (suffixb [62] c); reflexivity.
Qed.

Lemma rh_inv f s d d' s' : read_handshake (S f) s d = ROk (d', s') ->
  (exists r0, s_in s = 70 :: r0 /\ s_master s = true /\ d' = d /\ s' = s) \/
  (exists c s1, (s_master s = true -> forall r0, s_in s <> 70 :: r0) /\ next_line false s = ROk (c, s1) /\
     ((stops c = true /\ d' = d /\ s' = s1) \/ (stops c = false /\ exists d'', read_handshake f s1 d'' = ROk (d', s')))).
Proof.
  rewrite read_handshake_eq. destruct (s_in s) as [|b0 r0] eqn:Ei; [discriminate|].
  destruct ((b0 =? 70) && s_master s) eqn:Eb.
  { apply andb_true_iff in Eb. destruct Eb as [E1 E2]. apply N.eqb_eq in E1. subst b0.
    intros H. injection H as <- <-. left. exists r0. repeat split; assumption. }
  destruct (next_line false s) as [[c s1]|e s1|]; try discriminate.
  assert (Hnf : s_master s = true -> forall r1, b0 :: r0 <> 70 :: r1).
  { intros Hm r1 E. injection E as -> _. rewrite Hm in Eb. discriminate. }
  intros H. right. exists c, s1. split; [exact Hnf|]. split; [reflexivity|]. rewrite (rh_line_stops d c).
  destruct (rh_line d c); [right; split; [reflexivity|eexists; exact H]|left; injection H as <- <-; repeat split|discriminate].
Qed.

(* the hypothesis on the greeting of a peer that is the master: line by line, up to the first line that
   ends the greeting, the grammar (the raw line ends with '>') and the library (the cleaned line ends with
   '>' and is neither a SID nor a ";FW" nor a ";PQ" line) agree on whether the line ends the greeting.
   Needed in both directions (ConformP.greeting_desync_cx, greeting_blank_cx), though a disagreement need
   not always end with the library blamed. *)
Fixpoint greet_agree (es : list elem) : Prop :=
  match es with
  | Line l :: r => suffixb [62] l = stops_lib l /\ (suffixb [62] l = false -> greet_agree r)
  | _ => True
  end.

(* how the closed streams of the examples (below, and ConformScopeP.pq_prompt_not_agree) violate it: the SID
   line does not end the greeting, and the two readers classify the line after it differently *)
Lemma second_line_not_agree l1 l2 r : suffixb [62] l1 = false -> suffixb [62] l2 <> stops_lib l2 ->
  ~ greet_agree (Line l1 :: Line l2 :: r).
Proof. intros H1 H2 [_ H]. exact (H2 (proj1 (H H1))). Qed.

Lemma master_hs_S F l r gsv a b sids :
  master_handshake (S F) {| gm := Line l :: r; gs := gsv; nm := a; ns := b |} sids =
  let sids' := if prefixb [91] l && suffixb [93] l then S sids else sids in
  if prefixb [91] l && suffixb [93] l && negb (valid_sid l) then inr (VBad true 21 a)
  else if prefixb [59; 70; 87] l && negb (valid_fw l) then inr (VBad true 22 a)
  else if suffixb [62] l then
    (if (sids' =? 1)%nat then inl {| gm := r; gs := gsv; nm := S a; ns := b |} else inr (VBad true 23 a))
  else master_handshake F {| gm := r; gs := gsv; nm := S a; ns := b |} sids'.
Proof. reflexivity. Qed.

Lemma master_hs_bad F e r gsv a b sids : (forall l, e <> Line l) ->
  master_handshake (S F) {| gm := e :: r; gs := gsv; nm := a; ns := b |} sids = inr (VBad true 24 a).
Proof. intros H. destruct e; [exfalso; eapply H; reflexivity|reflexivity..]. Qed.

Lemma slave_greet gsv : forall f s d d' s', s_master s = false -> read_handshake f s d = ROk (d', s') ->
  greet_agree (toks (s_in s)) -> Forall elem_off (toks (s_in s)) ->
  forall F a sids, (length (toks (s_in s)) < F)%nat ->
  match master_handshake F {| gm := toks (s_in s); gs := gsv; nm := a; ns := 0 |} sids with
  | inr v => notblame false v
  | inl st' => exists a', st' = {| gm := toks (s_in s'); gs := gsv; nm := a'; ns := 0 |} /\ eqo s s' /\
                 Forall elem_off (toks (s_in s')) /\ (length (toks (s_in s')) <= length (toks (s_in s)))%nat
  end.
Proof.
  induction f as [|f IH]; intros s d d' s' Hm H Hg Hok F a sids HF; [discriminate|].
  destruct (rh_inv _ _ _ _ _ H) as [(r0&_&Hm'&_)|(c&s1&_&Hnl&Hcase)]; [congruence|].
  destruct (peer_line _ _ _ _ Hnl) as (l&rr&_&->&->&[Ht|(e&rest&Ht&Hne)]); (destruct F as [|F]; [lia|]).
  2:{ rewrite Ht, master_hs_bad by exact Hne. cbn [notblame]. discriminate. }
  rewrite Ht in *. rewrite master_hs_S. cbv zeta.
  destruct (prefixb [91] l && suffixb [93] l && negb (valid_sid l)); [cbn [notblame]; discriminate|].
  destruct (prefixb [59; 70; 87] l && negb (valid_fw l)); [cbn [notblame]; discriminate|].
  cbn [greet_agree] in Hg. destruct Hg as [Hg1 Hg2]. inversion Hok as [|? ? _ Hok']; subst. cbn [length] in HF.
  unfold stops_lib in Hg1. destruct (suffixb [62] l) eqn:E62.
  - destruct Hcase as [(Hst&->&->)|(Hst&_)]; [|congruence].
    destruct (_ =? 1)%nat; [|cbn [notblame]; discriminate].
    exists (S a). split; [reflexivity|]. split; [apply eqo_set_in|]. split; [exact Hok'|]. cbn [set_in s_in length]. lia.
  - destruct Hcase as [(Hst&_)|(Hst&d''&Hrh)]; [congruence|].
    specialize (IH (set_in s rr) d'' d' s' Hm Hrh (Hg2 eq_refl) Hok' F (S a)
                   (if prefixb [91] l && suffixb [93] l then S sids else sids) ltac:(cbn [set_in s_in]; lia)).
    cbn [set_in s_in] in IH.
    destruct (master_handshake F _ _) as [st'|v]; [|exact IH].
    destruct IH as (a'&I1&I2&I3&I4). exists a'. split; [exact I1|]. split; [eapply eqo_trans; [apply eqo_set_in|exact I2]|].
    split; [exact I3|]. cbn [length]. lia.
Qed.

Lemma prefix59_comment p l : prefixb (59 :: p) l = true -> is_comment l = true.
Proof.
  intros H. destruct (prefixb_head _ _ _ H) as (m&->&_). reflexivity.
Qed.

Lemma slave_hs_line F gv l r a b sids : prefixb [70] l = false ->
  (exists k1 k2, slave_handshake (S F) {| gm := gv; gs := Line l :: r; nm := a; ns := b |} sids = inr (VBad false k1 k2)) \/
  ((is_comment l = true \/ (prefixb [91] l = true /\ suffixb [93] l = true)) /\ exists sids',
     slave_handshake (S F) {| gm := gv; gs := Line l :: r; nm := a; ns := b |} sids =
     slave_handshake F {| gm := gv; gs := r; nm := a; ns := S b |} sids').
Proof.
  intros H. rewrite slave_hs_S, H. cbv zeta.
  destruct (prefixb [91] l && suffixb [93] l) eqn:E1.
  { apply andb_true_iff in E1. destruct (valid_sid l); [right; split; [right; exact E1|eauto]|left; eauto]. }
  destruct (prefixb [59; 70; 87] l) eqn:E2.
  { destruct (valid_fw l); [right; split; [left; eapply prefix59_comment; exact E2|eauto]|left; eauto]. }
  destruct (prefixb [59; 80; 82] l) eqn:E3.
  { destruct (valid_pr l); [right; split; [left; eapply prefix59_comment; exact E3|eauto]|left; eauto]. }
  destruct (is_comment l) eqn:E4; [right; split; [left; reflexivity|eauto]|left; eauto].
Qed.

Lemma slave_hs_bad F gv e r a b sids : (forall l, e <> Line l) ->
  slave_handshake (S F) {| gm := gv; gs := e :: r; nm := a; ns := b |} sids = inr (VBad false 37 b).
Proof. intros H. destruct e; [exfalso; eapply H; reflexivity|reflexivity..]. Qed.

Lemma not70_prefix s l rr : s_in s = l ++ 13 :: rr -> (forall r0, s_in s <> 70 :: r0) -> prefixb [70] l = false.
Proof.
  intros Hs Hn. destruct l as [|x m]; [reflexivity|]. cbn [prefixb]. rewrite andb_true_r.
  apply N.eqb_neq. intros <-. apply (Hn (m ++ 13 :: rr)). exact Hs.
Qed.

(* phase A: while the library reads the slave's greeting (read_handshake), the grammar reads the
   same lines (slave_handshake) or blames the peer *)
Lemma master_greet_A gmv a : forall f s d d' s', s_master s = true -> read_handshake f s d = ROk (d', s') ->
  Forall elem_off (toks (s_in s)) ->
  forall F b sids, (length (toks (s_in s)) < F)%nat ->
  (exists k1 k2, slave_handshake F {| gm := gmv; gs := toks (s_in s); nm := a; ns := b |} sids = inr (VBad false k1 k2)) \/
  (exists F' b' sids', slave_handshake F {| gm := gmv; gs := toks (s_in s); nm := a; ns := b |} sids =
                        slave_handshake F' {| gm := gmv; gs := toks (s_in s'); nm := a; ns := b' |} sids' /\
     (length (toks (s_in s')) < F')%nat /\ eqo s s' /\ Forall elem_off (toks (s_in s')) /\
     (length (toks (s_in s')) <= length (toks (s_in s)))%nat).
Proof.
  induction f as [|f IH]; intros s d d' s' Hm H Hok F b sids HF; [discriminate|].
  destruct (rh_inv _ _ _ _ _ H) as [(r0&_&_&_&->)|(c&s1&Hnf&Hnl&Hcase)].
  { right. exists F, b, sids. split; [reflexivity|]. split; [exact HF|]. split; [apply eqo_refl|]. split; [exact Hok|lia]. }
  destruct (peer_line _ _ _ _ Hnl) as (l&rr&Hs&->&->&[Ht|(e&rest&Ht&Hne)]); (destruct F as [|F]; [lia|]).
  2:{ left. rewrite Ht, slave_hs_bad by exact Hne. eauto. }
  rewrite Ht in *. inversion Hok as [|? ? _ Hok']; subst. cbn [length] in HF.
  destruct (slave_hs_line F gmv l (toks rr) a b sids (not70_prefix _ _ _ Hs (Hnf Hm))) as [Hbad|(_&sids'&Eq)]; [left; exact Hbad|].
  rewrite Eq. destruct Hcase as [(_&_&->)|(_&d''&Hrh)].
  - right. exists F, (S b), sids'. cbn [set_in s_in]. split; [reflexivity|]. split; [lia|]. split; [apply eqo_set_in|].
    split; [exact Hok'|cbn [length]; lia].
  - destruct (IH (set_in s rr) d'' d' s' Hm Hrh Hok' F (S b) sids' ltac:(cbn [set_in s_in]; lia)) as [Hbad|(F'&b'&sids''&I1&I2&I3&I4&I5)];
      cbn [set_in s_in] in *; [left; exact Hbad|].
    right. exists F', b', sids''. split; [exact I1|]. split; [exact I2|]. split; [eapply eqo_trans; [apply eqo_set_in|exact I3]|].
    split; [exact I4|cbn [length]; lia].
Qed.

(* phase B: the library may have stopped reading the greeting earlier than the grammar (after a line
   that ends with '>'): its proposal loop then skips the comment lines that the grammar still takes
   for greeting lines *)
Lemma run_skip s l r0 : s_in s = l ++ 13 :: r0 -> ~ In 13 l -> is_comment l = true ->
  run false s = run false (set_in s r0).
Proof.
  intros Hs Hn Hcm. rewrite !run_recv. rewrite (inbound_loop_eq (length (s_in s)) s).
  rewrite (next_line_raw true s l r0 Hs Hn).
  assert (He : err_line (clean_string l) = false /\ il_line (set_in s r0) [] [] (clean_string l) = IlCont [] []).
  { destruct (comment_clean_cases l Hcm) as [E0|Hc]; [rewrite E0; split; reflexivity|]. split; [|apply il_line_comment, Hc].
    destruct (prefixb_head _ _ _ Hc) as (m&->&_). reflexivity. }
  destruct He as [He Eil]. rewrite He, andb_false_r, Eil.
  rewrite (inbound_loop_fuel (length (s_in s)) (S (length (s_in (set_in s r0))))).
  - pose proof (inbound_loop_nopanic (S (length (s_in (set_in s r0)))) (set_in s r0) [] []) as Np.
    destruct (inbound_loop (S (length (s_in (set_in s r0)))) (set_in s r0) [] []) as [[[q props] s1]|e s1|]; [reflexivity|reflexivity|congruence].
  - unfold inlen. cbn [set_in s_in]. rewrite Hs, app_length. cbn [length]. lia.
  - unfold inlen. lia.
Qed.

Lemma suffixb_one_inv y l : suffixb [y] l = true -> ends_with y l.
Proof. apply suffixb_iff. Qed.

Lemma run_sid s l r0 : s_in s = l ++ 13 :: r0 -> ~ In 13 l -> prefixb [91] l = true -> suffixb [93] l = true ->
  fst (run false s) <> XNil.
Proof.
  intros Hs Hn H1 H2. rewrite run_recv, (inbound_loop_eq (length (s_in s)) s), (next_line_raw true s l r0 Hs Hn).
  destruct (prefixb_head _ _ _ H1) as (m&->&_).
  rewrite (clean_string_id 91 m 93 eq_refl eq_refl (suffixb_one_inv _ _ H2)).
  change (err_line (91 :: m)) with false. rewrite andb_false_r.
  unfold il_line. change (prefixb str_PM (91 :: m)) with false. cbv iota.
  change (91 =? 59) with false. cbv iota. change (negb (91 =? 70)) with true. rewrite orb_true_r. discriminate.
Qed.

Lemma master_greet_B gmv a : forall F s b sids, fst (run false s) = XNil ->
  Forall elem_off (toks (s_in s)) -> (length (toks (s_in s)) < F)%nat ->
  match slave_handshake F {| gm := gmv; gs := toks (s_in s); nm := a; ns := b |} sids with
  | inr v => notblame true v
  | inl st' => exists s' b' l rest, st' = {| gm := gmv; gs := toks (s_in s'); nm := a; ns := b' |} /\
       toks (s_in s') = Line (70 :: l) :: rest /\ run false s' = run false s /\ eqo s s' /\
       Forall elem_off (toks (s_in s')) /\ (length (toks (s_in s')) <= length (toks (s_in s)))%nat
  end.
Proof.
  induction F as [|F IH]; intros s b sids Hx Hok HF; [lia|].
  destruct (first_elem_cases (s_in s)) as [E Ht|l r0 E Hn Ht|hl t o r2 dd bok cok r3 E _ _ _ Ht|g Ht].
  - rewrite Ht. cbn [notblame slave_handshake gs]. discriminate.
  - destruct (prefixb [70] l) eqn:E70.
    + rewrite Ht, slave_hs_S, E70. destruct (sids =? 1)%nat; [|cbn [notblame]; discriminate].
      destruct (prefixb_head _ _ _ E70) as (m&->&_).
      exists s, b, m, (toks r0). rewrite Ht. split; [reflexivity|]. split; [reflexivity|]. split; [reflexivity|].
      split; [apply eqo_refl|]. split; [rewrite <- Ht; exact Hok|lia].
    + rewrite Ht in Hok, HF. inversion Hok as [|? ? _ Hok']; subst. cbn [length] in HF.
      rewrite Ht.
      destruct (slave_hs_line F gmv l (toks r0) a b sids E70) as [(k1&k2&Hbad)|([Hcm|[Hs1 Hs2]]&sids'&Eq)].
      * rewrite Hbad. cbn [notblame]. discriminate.
      * rewrite Eq. pose proof (run_skip s l r0 E Hn Hcm) as Hrun.
        specialize (IH (set_in s r0) (S b) sids' ltac:(rewrite <- Hrun; exact Hx) Hok' ltac:(cbn [set_in s_in]; lia)).
        cbn [set_in s_in] in IH.
        destruct (slave_handshake F _ sids') as [st'|v]; [|exact IH].
        destruct IH as (s'&b'&l'&rest&I1&I2&I3&I4&I5&I6). exists s', b', l', rest.
        split; [exact I1|]. split; [exact I2|]. split; [rewrite I3; symmetry; exact Hrun|].
        split; [eapply eqo_trans; [apply eqo_set_in|exact I4]|]. split; [exact I5|cbn [length]; lia].
      * exfalso. exact (run_sid s l r0 E Hn Hs1 Hs2 Hx).
  - rewrite Ht. cbn [notblame slave_handshake gs]. discriminate.
  - rewrite Ht. cbn [notblame slave_handshake gs]. discriminate.
Qed.

Lemma send_head s q s1 : handle_outbound s = ROk (q, s1) -> Forall blk_conf (hob s) ->
  exists l rest, toks (tailw true s) = Line (70 :: l) :: rest.
Proof.
  intros Hho Hc. apply turn_head.
  destruct (send_tail _ _ _ Hho) as [[_ Ht]|[(_&_&Ht)|(B&T&s2&Bne&_&HB&Ht&_)]]; [left; exact Ht|right; left; eauto|right; right].
  exists B, T. split; [exact Bne|]. split; [exact (incl_Forall HB Hc)|exact Ht].
Qed.

(* what is asked of the configuration of the library side beyond side_conf (the grammar's own
   conditions): a master greets without MOTD and ends its greeting with the prompt (cx_motd and
   cx_no_prompt below); a slave has no password callback.  ConformScopeP.cfg_scope' admits harmless MOTD
   lines and the secure login. *)
Definition cfg_scope (cfg : side_cfg) : Prop :=
  (c_master cfg = true -> c_motd cfg = [] /\ hs_master (c_hs cfg) = true) /\
  (c_master cfg = false -> hs_cb (c_hs cfg) = None).

(* what is asked of the peer: elem_off on the lines of its stream and, when it is the master, greet_agree;
   nothing is asked of the greeting of a peer that is the slave *)
Definition peer_ok (cfg : side_cfg) (peer : bytes) : Prop :=
  Forall elem_off (toks peer) /\ (c_master cfg = false -> greet_agree (toks peer)).

Lemma wire_init cfg i : wire (init_state cfg i) = [].
Proof. unfold wire. rewrite init_state_out. reflexivity. Qed.

(* a line that the grammar's reader of the master's greeting passes over without counting a SID: it is not
   bracketed, it is a valid ";FW" line if it begins with ";FW", and it does not end with '>' *)
Definition mh_pass (l : bytes) : Prop :=
  prefixb [91] l && suffixb [93] l = false /\ prefixb [59; 70; 87] l && negb (valid_fw l) = false /\ suffixb [62] l = false.

Lemma master_hs_passes gsv rest F sids : forall ls a, Forall mh_pass ls ->
  master_handshake (S (length ls + F)) {| gm := map Line ls ++ rest; gs := gsv; nm := a; ns := 0 |} sids =
  master_handshake (S F) {| gm := rest; gs := gsv; nm := (length ls + a)%nat; ns := 0 |} sids.
Proof.
  induction ls as [|l ls IH]; intros a H; [reflexivity|]. inversion H as [|? ? (P2&P3&P4) H']; subst.
  change (S (length (l :: ls) + F)) with (S (S (length ls + F))).
  cbn [map app]. rewrite master_hs_S. cbv zeta. rewrite P2, P3, P4. cbn [andb].
  rewrite IH by exact H'. replace (length ls + S a)%nat with (length (l :: ls) + a)%nat by (cbn [length]; lia). reflexivity.
Qed.

(* the session of a library master that ends its greeting with the prompt and whose MOTD reaches the
   grammar as lines ML that it passes over *)
Theorem master_conforms_lines cfg peer ML :
  side_conf cfg -> c_master cfg = true -> hs_master (c_hs cfg) = true ->
  concat (map (fun l => l ++ [13]) (c_motd cfg)) = concat (map (fun l => l ++ [13]) ML) ->
  Forall line_ok ML -> Forall mh_pass ML -> Forall elem_off (toks peer) ->
  x_res (exchange cfg peer) = XNil ->
  notblame true (validate (x_wire (exchange cfg peer)) peer).
Proof.
  intros (Hhs&Hob) Mc Hhm HML HLo Hpass Hel Hx.
  destruct (exchange_nil_run _ _ Hx) as (s2&Hhsk&Rx&Wx&Hob2). rewrite Mc in Rx, Wx. cbn [negb] in Rx, Wx.
  destruct (PairP.init_state_facts cfg peer) as (Iin&_&_&Im&_). rewrite Mc in Im.
  pose proof (init_state_hs cfg peer) as Icfg. pose proof (init_state_motd cfg peer) as Imotd.
  pose proof Hhs as (Hok&_&_).
  destruct (handshake_master_inv _ _ Im Hhsk) as (d&Hrh). rewrite Icfg, Imotd, Iin in Hrh.
  set (s0 := wr (fold_left (fun acc l => wr acc (l ++ [13])) (c_motd cfg) (init_state cfg peer)) (hello (c_hs cfg))) in *.
  assert (Im0 : s_master s0 = true) by (unfold s0; cbn [wr s_master]; rewrite (proj1 (does_static _ _ _ (does_fold_wr (fun l => l ++ [13]) _ _))); exact Im).
  assert (Iin0 : s_in s0 = peer) by (unfold s0; cbn [wr s_in]; rewrite fold_wr_in; exact Iin).
  pose proof (read_handshake_eqo (S (length peer)) s0 d0) as Hq0. rewrite Hrh in Hq0. cbn [res_eqo] in Hq0.
  assert (W2 : wire s2 = concat (map (fun l => l ++ [13]) ML) ++ hello (c_hs cfg)).
  { rewrite <- (wire_eqo _ _ Hq0). unfold s0. rewrite wire_wr, wire_fold_wr, wire_init. cbn [app]. f_equal. exact HML. }
  rewrite Wx, W2. clear Wx W2. set (T := tailw false s2) in *. set (MB := concat (map (fun l => l ++ [13]) ML)).
  unfold validate. cbv zeta.
  change (tokens (S (length ((MB ++ hello (c_hs cfg)) ++ T))) ((MB ++ hello (c_hs cfg)) ++ T)) with (toks ((MB ++ hello (c_hs cfg)) ++ T)).
  change (tokens (S (length peer)) peer) with (toks peer).
  rewrite <- !app_assoc. unfold MB. rewrite toks_lines by exact HLo. rewrite hello_toks by exact Hok.
  rewrite app_length, map_length. cbn [length].
  rewrite master_hs_passes by exact Hpass. rewrite master_hs_ok by (first [exact Hhs|exact Hhm]).
  set (n := S (S (S (_ + 0)%nat))).
  assert (Hel0 : Forall elem_off (toks (s_in s0))) by (rewrite Iin0; exact Hel).
  destruct (master_greet_A (toks T) n _ s0 d0 d s2 Im0 Hrh Hel0 (S (length (toks peer))) 0%nat 0%nat
              ltac:(rewrite Iin0; lia)) as [(k1&k2&E)|(F'&b'&sids'&E&HF'&Hq&Hok'&Hle)];
    rewrite Iin0 in E; rewrite E; [cbn [notblame]; discriminate|].
  pose proof (master_greet_B (toks T) n F' s2 b' sids' Rx Hok' HF') as HB.
  destruct (slave_handshake F' _ sids') as [st'|v]; [|exact HB].
  destruct HB as (s'&b''&l&rest&->&Hhead&Hrun&Hq'&Hok''&Hle').
  assert (ET : T = tailw false s').
  { unfold T, tailw, final. rewrite Hrun, (wire_eqo _ _ Hq'). reflexivity. }
  change {| gm := toks T; gs := toks (s_in s'); nm := n; ns := b'' |} with (mkst true (toks T) (toks (s_in s')) n b'').
  rewrite ET.
  apply (turns_conform true _ false s' n b'').
  - rewrite Hrun. exact Rx.
  - unfold hob in *. rewrite <- (eqo_h _ _ Hq'), Hob2. exact Hob.
  - exact Hok''.
  - rewrite Iin0 in Hle. rewrite <- ET. lia.
Qed.

(* the grammar reads the bytes g as the greeting lines ES of a slave, up to the slave's first command *)
Definition greets (g : bytes) (ES : list elem) : Prop :=
  (forall X, toks (g ++ X) = ES ++ toks X) /\
  (forall gmv a l rest f,
     slave_handshake (length ES + S f) {| gm := gmv; gs := ES ++ Line (70 :: l) :: rest; nm := a; ns := 0 |} 0 =
     inl {| gm := gmv; gs := Line (70 :: l) :: rest; nm := a; ns := length ES |}).

Lemma hello_greets h : hs_conf h -> greets (hello h) [Line (line1 h); Line (line2 h); Line (line3 h)].
Proof.
  intros Hhs. split.
  - intros X. rewrite hello_toks by apply Hhs. reflexivity.
  - intros gmv a l rest f. cbn [length Nat.add app]. apply slave_hs_ok, Hhs.
Qed.

(* the session of a library slave whose greeting, whatever the challenge, is one the grammar reads *)
Theorem slave_conforms_greets cfg peer :
  side_conf cfg -> c_master cfg = false -> peer_ok cfg peer ->
  (forall c g, send_handshake (c_hs cfg) c = Some g -> exists ES, greets g ES) ->
  x_res (exchange cfg peer) = XNil ->
  notblame false (validate peer (x_wire (exchange cfg peer))).
Proof.
  intros (Hhs&Hob) Mc (Hel&Hga) Hgr Hx.
  destruct (exchange_nil_run _ _ Hx) as (s2&Hhsk&Rx&Wx&Hob2). rewrite Mc in Rx, Wx, Hga. cbn [negb] in Rx, Wx.
  specialize (Hga eq_refl).
  destruct (PairP.init_state_facts cfg peer) as (Iin&_&_&Im&_). rewrite Mc in Im.
  pose proof (init_state_hs cfg peer) as Icfg.
  destruct (handshake_slave_inv _ _ Im Hhsk) as (d&s1&g&Hrh&->&Hg). rewrite Icfg, Iin in *.
  destruct (Hgr _ _ Hg) as (ES&Htk&Hsh).
  pose proof (read_handshake_eqo (S (length peer)) (init_state cfg peer) d0) as Hq0. rewrite Hrh in Hq0. cbn [res_eqo] in Hq0.
  rewrite wire_wr, <- (wire_eqo _ _ Hq0), wire_init in Wx. cbn [app] in Wx.
  rewrite Wx. set (s2 := wr s1 g) in *. set (T := tailw true s2) in *.
  unfold validate. cbv zeta.
  change (tokens (S (length (g ++ T))) (g ++ T)) with (toks (g ++ T)).
  change (tokens (S (length peer)) peer) with (toks peer).
  rewrite Htk.
  assert (Hob2' : Forall blk_conf (hob s2)) by (rewrite Hob2; exact Hob).
  pose proof Rx as Rx'. rewrite run_send in Rx.
  destruct (handle_outbound s2) as [[q s3]|e s3|] eqn:Hho; [|destruct e; discriminate|discriminate].
  destruct (send_head _ _ _ Hho Hob2') as (l&rest&Hhead). fold T in Hhead.
  pose proof (slave_greet (ES ++ toks T) _ (init_state cfg peer) d0 d s1 Im Hrh) as HG. rewrite Iin in HG.
  specialize (HG Hga Hel (S (length (toks peer))) 0%nat 0%nat ltac:(lia)).
  destruct (master_handshake (S (length (toks peer))) _ 0) as [st'|v]; [|exact HG].
  destruct HG as (a'&->&Hq&Hok'&Hle).
  rewrite Hhead, app_length. cbn [length].
  replace (S (length ES + S (length rest))) with (length ES + S (S (length rest)))%nat by lia.
  rewrite Hsh. rewrite <- Hhead.
  change {| gm := toks (s_in s1); gs := toks T; nm := a'; ns := length ES |} with (mkst false (toks T) (toks (s_in s2)) (length ES) a').
  apply (turns_conform false _ true s2 (length ES) a').
  - exact Rx'.
  - exact Hob2'.
  - exact Hok'.
  - fold T. change (s_in s2) with (s_in s1). rewrite Hhead in *. cbn [length]. lia.
Qed.

Theorem one_side_conforms : forall (cfg : side_cfg) (peer_stream : bytes),
  side_conf cfg -> cfg_scope cfg -> peer_ok cfg peer_stream ->
  let o := exchange cfg peer_stream in
  x_res o = XNil ->
  let '(m, s) := if c_master cfg then (x_wire o, peer_stream) else (peer_stream, x_wire o) in
  match validate m s with VOk => True | VBad who _ _ => who <> c_master cfg end.
Proof.
  intros cfg peer Hsc (Hsc1&Hsc2) Hpeer. cbv zeta. intros Hx.
  destruct (c_master cfg) eqn:Mc.
  - destruct (Hsc1 eq_refl) as [Hmotd Hhm].
    refine (master_conforms_lines cfg peer [] Hsc Mc Hhm _ (Forall_nil _) (Forall_nil _) (proj1 Hpeer) Hx).
    rewrite Hmotd. reflexivity.
  - refine (slave_conforms_greets cfg peer Hsc Mc Hpeer _ Hx).
    intros c g Hg. exists [Line (line1 (c_hs cfg)); Line (line2 (c_hs cfg)); Line (line3 (c_hs cfg))].
    destruct c as [|c0 c']; [|rewrite (send_handshake_no_callback _ (c0 :: c')) in Hg by (first [discriminate|exact (Hsc2 eq_refl)]); discriminate].
    rewrite send_hello in Hg. injection Hg as <-. apply hello_greets, Hsc.
Qed.

Ltac toks_compute s := let t := eval vm_compute in (toks s) in change (toks s) with t.
Ltac elem_off_lines :=
  repeat (apply Forall_cons;
          [cbn [elem_off]; intros G HG; vm_compute in HG; discriminate HG|]);
  apply Forall_nil.

(* (1) ConformP.greeting_desync_cx: the master's line ";FW: X>" ends the greeting for the grammar and not
   for the library; the library is blamed.  The stream satisfies elem_off, it violates greet_agree only. *)
Example greeting_desync_elem_off : Forall elem_off (toks kx_peer_greeting).
Proof. toks_compute kx_peer_greeting. elem_off_lines. Qed.
Example greeting_desync_not_agree : ~ greet_agree (toks kx_peer_greeting).
Proof. toks_compute kx_peer_greeting. apply second_line_not_agree; vm_compute; [reflexivity|discriminate]. Qed.

(* (2) the other direction: the master's line "X> " (a blank after the prompt) ends the greeting for the
   library (cleanString) and not for the grammar, which goes on to "F>" (for the library: the empty
   block of proposals, answered by FQ); the peer's "FQ" then follows the library's FQ: the LIBRARY is
   blamed (something follows the quit).  cx_: the streams and sides of examples that are new in this file *)
Definition cx_peer_blank : bytes :=
  [91;82;45;49;45;66;50;70;36;93;13] ++ [88;62;32;13] ++ [70;62;13] ++ [70;81;13].
Example greeting_blank_cx : kx_verdict (kx_good false []) cx_peer_blank = (XNil, VBad false 14 4).
Proof. vm_compute. reflexivity. Qed.
Example greeting_blank_elem_off : Forall elem_off (toks cx_peer_blank).
Proof. toks_compute cx_peer_blank. elem_off_lines. Qed.
Example greeting_blank_not_agree : ~ greet_agree (toks cx_peer_blank).
Proof. toks_compute cx_peer_blank. apply second_line_not_agree; vm_compute; [reflexivity|discriminate]. Qed.

(* ConformP.offset_limit_cx: the peer answers "FS !1000000", the library restarts at 0 and is blamed; the
   stream satisfies greet_agree, it violates elem_off only *)
Example offset_limit_agree : greet_agree (toks kx_peer_offset).
Proof. toks_compute kx_peer_offset. cbn [greet_agree]. split; [vm_compute; reflexivity|]. intros _. split; [vm_compute; reflexivity|discriminate]. Qed.
Example offset_limit_not_off : ~ Forall elem_off (toks kx_peer_offset).
Proof.
  intros H. rewrite Forall_forall in H.
  specialize (H (Line [70;83;32;33;49;48;48;48;48;48;48]) ltac:(toks_compute kx_peer_offset; cbn [In]; auto)).
  cbn [elem_off] in H. specialize (H [GAccept 1000000] ltac:(vm_compute; reflexivity)).
  inversion H as [|? ? H1 _]; subst. cbn [off_small] in H1. lia.
Qed.

Definition cx_slave_stream : bytes :=
  [59;70;87;58;32;88;13] ++ [91;82;45;49;45;66;50;70;36;93;13] ++ [59;32;120;13] ++ [70;70;13].
(* the reference: a conforming master against this slave is accepted *)
Example cx_slave_stream_ok : kx_verdict (kx_good true []) cx_slave_stream = (XNil, VOk).
Proof. vm_compute. reflexivity. Qed.
Example cx_slave_stream_peer_ok : peer_ok (kx_good true []) cx_slave_stream.
Proof. split; [toks_compute cx_slave_stream; elem_off_lines|discriminate]. Qed.
(* a MOTD line ";FW: a|b" of the library master is refused by the grammar (as ConformP.kx_motd) *)
Example cx_motd : kx_verdict (kx_side true [119] [[76;65;49;66]] [[59;70;87;58;32;97;124;98]] []) cx_slave_stream = (XNil, VBad true 22 0).
Proof. vm_compute. reflexivity. Qed.
(* a master whose greeting does not end with the prompt (hs_master = false): the grammar never sees the
   end of the master's greeting *)
Definition cx_noprompt_side : side_cfg :=
  {| c_master := true; c_motd := [];
     c_hs := {| hs_fw := [[76;65;49;66]]; hs_name := [119]; hs_version := [49]; hs_target := [88];
                hs_mycall := [76;65;49;66]; hs_locator := []; hs_master := false; hs_gzip := false; hs_cb := None |};
     c_handler := {| h_present := true; h_prepare_err := false; h_outbox := []; h_gone := []; h_policy := []; h_fail := [] |} |}.
Example cx_no_prompt : kx_verdict cx_noprompt_side cx_slave_stream = (XNil, VBad true 24 4).
Proof. vm_compute. reflexivity. Qed.

(* a line without outer blanks or NUL: empty, or its first and last bytes are printable non-blank ASCII *)
Definition tidy (l : bytes) : Prop :=
  l = [] \/ exists x m y, l = x :: m /\ okb x = true /\ okb y = true /\ ends_with y l.

Lemma tidy_clean l : tidy l -> clean_string l = l.
Proof. intros [->|(x&m&y&->&Hx&Hy&He)]; [vm_compute; reflexivity|apply (clean_string_id x m y Hx Hy He)]. Qed.

(* a syntactic sufficient condition for greet_agree: tidy lines, and the first line that ends with '>' is
   neither a ";FW" nor a ";PQ" line *)
Fixpoint greet_simple (es : list elem) : Prop :=
  match es with
  | Line l :: r => tidy l /\ (if suffixb [62] l then prefixb str_FWp l = false /\ prefixb str_PQ l = false else greet_simple r)
  | _ => True
  end.

Lemma greet_simple_agree es : greet_simple es -> greet_agree es.
Proof.
  induction es as [|e es IH]; intros H; [exact I|]. destruct e as [l| |]; try exact I.
  cbn [greet_simple greet_agree] in *. destruct H as [Ht H]. unfold stops_lib, stops. rewrite (tidy_clean _ Ht).
  destruct (suffixb [62] l) eqn:E.
  - destruct H as [H1 H2]. rewrite H1, H2, (suffixb_one 93 62 l (suffixb_one_inv _ _ E)).
    split; [rewrite andb_false_r; reflexivity|discriminate].
  - split; [rewrite andb_false_r; reflexivity|]. intros _. apply IH, H.
Qed.

Lemma peer_simple_ok cfg peer :
  Forall elem_off (toks peer) -> (c_master cfg = false -> greet_simple (toks peer)) -> peer_ok cfg peer.
Proof. intros H1 H2. split; [exact H1|]. intros Hm. apply greet_simple_agree, H2, Hm. Qed.

Print Assumptions sender_turn2.
Print Assumptions receiver_turn.
Print Assumptions turns_conform.
Print Assumptions slave_greet.
Print Assumptions master_greet_A.
Print Assumptions master_greet_B.
Print Assumptions one_side_conforms.
Print Assumptions greeting_blank_cx.
Print Assumptions cx_motd.
Print Assumptions cx_no_prompt.
Print Assumptions peer_simple_ok.
