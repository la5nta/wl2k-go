(* C03, termination: no function of the session lengthens what is left to read, and a reader that
   succeeds has consumed a line.  (The turns and the whole exchange: CutP.v, exchange_terminates.) *)
From Coq Require Import List NArith ZArith Bool Lia.
From Verif Require Import Base.Bytes Base.BytesP gen.Tables Msg.Message B2F.Secure B2F.Side B2F.PairDefs B2F.SideP.
Import ListNotations.
Open Scope N_scope.

Definition inlen (s : sess) : nat := length (s_in s).

Lemma next_line_ok pe s line s' : next_line pe s = ROk (line, s') -> (inlen s' < inlen s)%nat.
Proof.
  intros H. destruct (next_line_cr _ _ _ _ H) as [raw E]. unfold inlen. rewrite E, !app_length. cbn [length]. lia.
Qed.

Lemma via_inlen P s s' : via P s s' -> (inlen s' <= inlen s)%nat.
Proof. intros H. destruct (via_in _ _ _ H) as [p E]. unfold inlen. rewrite E, app_length. lia. Qed.

Lemma wr_inlen s b : inlen (wr s b) = inlen s. Proof. reflexivity. Qed.
Lemma ev_inlen s e : inlen (ev s e) = inlen s. Proof. reflexivity. Qed.
Lemma mark_gone_inlen s m : inlen (mark_gone s m) = inlen s. Proof. reflexivity. Qed.
Lemma add_sent_inlen s m : inlen (add_sent s m) = inlen s. Proof. reflexivity. Qed.
Lemma add_recv_inlen s m : inlen (add_recv s m) = inlen s. Proof. reflexivity. Qed.
Lemma set_nomsgs_inlen s b : inlen (set_nomsgs s b) = inlen s. Proof. reflexivity. Qed.

Lemma read_reply_ok : forall fuel s line s', read_reply fuel s = ROk (line, s') -> (inlen s' < inlen s)%nat.
Proof.
  intros fuel s line s' H. destruct (read_reply_cr _ _ _ _ H) as [p0 E].
  unfold inlen. rewrite E, !app_length. cbn [length]. lia.
Qed.

Lemma receive_accepted_inlen : forall (props : list iprop) (s : sess),
  match receive_accepted s props with
  | RcOk s' => (inlen s' <= inlen s)%nat
  | RcErr _ s' => (inlen s' <= inlen s)%nat
  | RcPanic => True
  | RcUnknown => True
  end.
Proof.
  intros props s. pose proof (receive_accepted_via props s) as A.
  destruct (receive_accepted s props); try exact I; exact (via_inlen _ _ _ A).
Qed.

Lemma handshake_inlen s : match handshake s with
                          | ROk s' => (inlen s' <= inlen s)%nat
                          | _ => True end.
Proof.
  pose proof (handshake_quiet s) as A.
  destruct (handshake s); try exact I. destruct A as (p&w&D). exact (via_inlen _ _ _ (does_via (fun _ => True) _ _ _ D (Forall_nil _))).
Qed.
