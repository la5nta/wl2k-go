(* C05, the pieces: what the model side (B2F/Side.v) prints is read back by the independent grammar
   (B2F/Grammar.v).  Decimal fields round-trip through the grammar's reader, the block prompt carries
   the checksum the grammar demands, the answer line is read as one answer per proposal.  (The
   proposal line and whole sessions are in ConformP.v.) *)
From Coq Require Import Lia ZifyN ZifyNat ZifyBool.
From Verif Require Import Base.Bytes Base.BytesP Base.Utf8 B2F.Secure Msg.Message B2F.Side B2F.Grammar gen.Tables.
Open Scope N_scope.

Lemma dec_value_app a b acc : dec_value (a ++ b) acc = dec_value b (dec_value a acc).
Proof. revert acc. induction a as [|x a IH]; intros acc; [reflexivity|]. cbn [app dec_value]. apply IH. Qed.

Lemma dec_value_digitsk k : forall n acc, dec_value (digitsk k n) acc = acc * 10 ^ N.of_nat k + n mod 10 ^ N.of_nat k.
Proof.
  induction k as [|k IH]; intros n acc.
  - cbn. rewrite N.mod_1_r. lia.
  - rewrite digitsk_succ. cbn [dec_value]. rewrite IH. unfold digit_char.
    rewrite Nat2N.inj_succ, N.pow_succ_r'.
    set (P := 10 ^ N.of_nat k).
    assert (HP : P <> 0) by (unfold P; apply N.pow_nonzero; discriminate).
    rewrite (N.mul_comm 10 P). rewrite (N.mod_mul_r n P 10 HP) by discriminate.
    set (d := (n / P) mod 10). set (m := n mod P). clearbody d m.
    replace (48 + d - 48) with d by lia. nia.
Qed.

Lemma ndigits_aux_bound fuel : forall n, n < 10 ^ N.of_nat (S fuel) -> n < 10 ^ N.of_nat (ndigits_aux fuel n).
Proof.
  induction fuel as [|f IH]; intros n H.
  - cbn [ndigits_aux]. exact H.
  - cbn [ndigits_aux]. destruct (n <? 10) eqn:E.
    + apply N.ltb_lt in E. change (10 ^ N.of_nat 1) with 10. exact E.
    + rewrite Nat2N.inj_succ, N.pow_succ_r'.
      assert (Hd : n / 10 < 10 ^ N.of_nat (S f)).
      { apply N.div_lt_upper_bound; [discriminate|]. rewrite <- N.pow_succ_r', <- Nat2N.inj_succ. exact H. }
      specialize (IH (n / 10) Hd).
      pose proof (N.div_mod n 10 ltac:(discriminate)). pose proof (N.mod_upper_bound n 10 ltac:(discriminate)). nia.
Qed.

(* 41 digits are what the fuel of Bytes.ndigits lets dec_of_N print (ConformP.dec_len) *)
Theorem dec_roundtrip n : n < 10 ^ 41 -> dec_value (dec_of_N n) 0 = n.
Proof.
  intros H. unfold dec_of_N, ndigits. rewrite dec_value_digitsk. cbn [N.mul].
  apply N.mod_small. apply ndigits_aux_bound. exact H.
Qed.

Lemma dec_all_digits n : all_digits (dec_of_N n) = true.
Proof.
  unfold all_digits. pose proof (dec_of_N_nonempty n). destruct (dec_of_N n) eqn:E; [congruence|].
  rewrite <- E. apply dec_digits.
Qed.

(* the two readers of Msg/Message.v compute dec_value on digits *)
Lemma num_of_digits_value : forall l acc, forallb is_digit l = true ->
  num_of_digits l acc = Some (dec_value l acc).
Proof.
  induction l as [|d r IH]; intros acc H; [reflexivity|].
  cbn [forallb] in H. apply andb_true_iff in H. destruct H as [Hd Hr].
  cbn [num_of_digits dec_value]. unfold digit_val. rewrite Hd. apply IH. exact Hr.
Qed.

Lemma atoi_digits ds : ds <> [] -> forallb is_digit ds = true ->
  atoi_ignore_err ds = if 9223372036854775807 <? dec_value ds 0 then max_int else Z.of_N (dec_value ds 0).
Proof.
  intros Hne H. destruct ds as [|c r]; [congruence|].
  (* no sign: the first byte is a digit *)
  unfold atoi_ignore_err. cbv beta iota.
  rewrite match_lit_45_43 by (intros ->; revert H; cbn [forallb]; discriminate).
  cbv beta iota. rewrite num_of_digits_value by exact H. reflexivity.
Qed.

Theorem atoi_dec_of_N n : n <= 9223372036854775807 -> atoi_ignore_err (dec_of_N n) = Z.of_N n.
Proof.
  intros Hn. rewrite atoi_digits by (apply dec_of_N_nonempty || apply dec_digits).
  rewrite dec_roundtrip by (eapply N.le_lt_trans; [exact Hn|reflexivity]).
  apply N.ltb_ge in Hn. rewrite Hn. reflexivity.
Qed.

Definition ascii_line (l : bytes) : Prop := Forall (fun b => b < 128) l.

Lemma runes_ascii fuel : forall l, ascii_line l -> (length l <= fuel)%nat -> runes fuel l = l.
Proof.
  induction fuel as [|f IH]; intros l Ha Hl.
  - destruct l; [reflexivity|cbn in Hl; lia].
  - destruct l as [|x r]; [reflexivity|]. inversion Ha as [|? ? Hx Hr]; subst.
    cbn [runes]. unfold decode_rune. apply N.ltb_lt in Hx. rewrite Hx. cbn [skipn].
    rewrite IH; [reflexivity|exact Hr|cbn in Hl; lia].
Qed.

Lemma rune_sum_ascii l : ascii_line l -> rune_sum l = sumN l.
Proof. intros H. unfold rune_sum. rewrite runes_ascii; [reflexivity|exact H|lia]. Qed.

Definition prompt_ok (n : N) : bool :=
  match fmt_02X n with
  | [h1; h2] => match hex_digit h1, hex_digit h2 with
                | Some a, Some b => a * 16 + b =? n
                | _, _ => false end
  | _ => false
  end.
Lemma prompt_ok_all : forall n, n < 256 -> prompt_ok n = true.
Proof. apply byte_sweep. vm_compute. reflexivity. Qed.

Lemma sum_lines_ascii lines : Forall ascii_line lines ->
  fold_left (fun acc l => acc + rune_sum l + 13) lines 0 = fold_left (fun acc x => acc + sumN x + 13) lines 0.
Proof.
  generalize 0. induction lines as [|l r IH]; intros acc H; [reflexivity|].
  inversion H; subst. cbn [fold_left]. rewrite rune_sum_ascii by assumption. apply IH. assumption.
Qed.

(* the prompt line the model writes after a block of ASCII proposal lines is the one the
   grammar accepts for those lines *)
Theorem prompt_valid lines : Forall ascii_line lines ->
  valid_prompt ([70; 62; 32] ++ fmt_02X (block_checksum lines)) lines = true.
Proof.
  intros Ha. unfold block_checksum. rewrite sum_lines_ascii by exact Ha.
  set (sum := fold_left (fun acc x => acc + sumN x + 13) lines 0).
  set (c := (256 - sum mod 256) mod 256).
  assert (Hc : c < 256) by (unfold c; apply N.mod_upper_bound; discriminate).
  pose proof (prompt_ok_all c Hc) as Hp. unfold prompt_ok in Hp.
  destruct (fmt_02X c) as [|h1 [|h2 [|x y]]]; try discriminate. cbn [app valid_prompt].
  destruct (hex_digit h1) as [a|]; [|discriminate]. destruct (hex_digit h2) as [b|]; [|discriminate].
  apply N.eqb_eq in Hp. apply N.eqb_eq. fold sum. rewrite <- N.add_assoc, Hp. apply neg_mod256.
Qed.

Definition to_gans (a : answer) : gans :=
  match a with AAccept => GAccept 0 | AReject => GReject | ADefer => GDefer end.

Lemma parse_fs_answers l : forall fuel, (length l < fuel)%nat ->
  parse_fs fuel (map answer_byte l) = Some (map to_gans l).
Proof.
  induction l as [|a r IH]; intros fuel H; (destruct fuel as [|f]; [cbn in H; lia|]); [reflexivity|].
  cbn [map parse_fs]. cbn [length] in H. specialize (IH f ltac:(lia)).
  destruct a; cbn; rewrite IH; reflexivity.
Qed.

(* the "FS" line the model writes is read by the grammar as one answer per proposal *)
Theorem answer_line_valid (ans : list answer) :
  fs_answers ([70; 83; 32] ++ map answer_byte ans) = Some (map to_gans ans).
Proof. cbn [app fs_answers]. apply parse_fs_answers. rewrite map_length. lia. Qed.
