(* C05: the session model (B2F/Side.v, `exchange`) against the independent grammar (B2F/Grammar.v,
   `validate master_stream slave_stream`).  pair_conforms: every complete session of two library sides whose
   configurations satisfy side_conf (what the grammar asks of a greeting and of a prepared proposal) is
   accepted.  `script` describes the two streams after the greetings turn by turn; the grammar accepts every
   script (turns_script), and the streams of a ready pair at a turn boundary form one (joint_shape).
   One side against an arbitrary peer: the sending turn (sender_turn_any), for which the two readers of an
   answer line are shown to read the same answers (fs_agree); the rest is in ConformOneP.v.  At the end,
   closed sessions: of two library sides (kx_run: an instance of pair_conforms, and sessions that violate one
   clause of side_conf and are refused), and of one side against a written-out peer stream (kx_verdict: the
   counterexamples behind C05_statement_is_false and behind what ConformOneP asks of the peer). *)
From Coq Require Import List NArith ZArith Bool Lia ZifyN ZifyNat ZifyBool Sorting.Permutation.
From Verif Require Import Base.Bytes Base.BytesP Base.Utf8 gen.Tables Lzhuf.Dec Lzhuf.Canon Msg.Message B2F.Secure B2F.Side B2F.SideP
  B2F.TermP B2F.CodecP B2F.CutP B2F.PairDefs B2F.PairLines B2F.PairXfer B2F.PairHs B2F.PairP B2F.PairIter B2F.DeliverP
  B2F.Grammar B2F.GrammarP.
Import ListNotations.
Open Scope N_scope.

(* the tokeniser with the fuel that Grammar.validate gives it *)
Definition toks (s : bytes) : list elem := tokens (S (length s)) s.

Lemma take_until_split c : forall s acc, take_until c s acc =
  match split_at c s with (a, Some r) => Some (rev acc ++ a, r) | (_, None) => None end.
Proof.
  induction s as [|x s IH]; intros acc; cbn [take_until split_at]; [reflexivity|].
  destruct (x =? c); [rewrite rev'_rev, app_nil_r; reflexivity|].
  rewrite IH. destruct (split_at c s) as [a [r|]]; [|reflexivity]. cbn [rev]. rewrite <- app_assoc. reflexivity.
Qed.

Lemma take_until_some c s a r : take_until c s [] = Some (a, r) -> s = a ++ c :: r /\ ~ In c a.
Proof.
  rewrite take_until_split. pose proof (split_at_spec c s) as H.
  destruct (split_at c s) as [a' [r'|]]; [|discriminate]. intros E. injection E as <- <-. exact H.
Qed.

Lemma take_until_len c s a r : take_until c s [] = Some (a, r) -> (length r < length s)%nat.
Proof. intros H. apply take_until_some in H. destruct H as [-> _]. rewrite app_length. cbn [length]. lia. Qed.

Lemma take_until_notin c l r : ~ In c l -> take_until c (l ++ c :: r) [] = Some (l, r).
Proof. intros H. rewrite take_until_split, split_at_app by exact H. reflexivity. Qed.

Lemma take_k_app : forall k a X acc, length a = k -> take_k k (a ++ X) acc = Some (rev acc ++ a, X).
Proof.
  induction k as [|k IH]; intros a X acc Hl.
  - destruct a; [|discriminate]. cbn [take_k app]. rewrite rev'_rev, app_nil_r. reflexivity.
  - destruct a as [|x a]; [discriminate|]. cbn [app take_k]. rewrite IH by (cbn in Hl; lia).
    cbn [rev]. rewrite <- app_assoc. reflexivity.
Qed.

Lemma take_k_len : forall k s acc a r, take_k k s acc = Some (a, r) -> (length r <= length s)%nat.
Proof.
  induction k as [|k IH]; intros s acc a r H; cbn [take_k] in H.
  - injection H as _ <-. lia.
  - destruct s as [|x s]; [discriminate|]. apply IH in H. cbn [length]. lia.
Qed.

Lemma blocks_len : forall f s acc sum d b c r, blocks f s acc sum = Some (d, b, c, r) -> (length r < length s)%nat.
Proof.
  induction f as [|f IH]; intros s acc sum d b c r H; [discriminate|].
  cbn [blocks] in H.
  destruct s as [|x s]; [discriminate|].
  destruct (N.eq_dec x 2) as [->|H2]; [|destruct (N.eq_dec x 4) as [->|H4]; [|rewrite match_lit_2_4 in H by assumption; discriminate]];
    (destruct s as [|l s]; [discriminate|]).
  - destruct (take_k (if l =? 0 then 256%nat else N.to_nat l) s []) as [[dd r']|] eqn:E; [|discriminate].
    apply take_k_len in E. apply IH in H. cbn [length]. lia.
  - injection H as _ _ _ <-. cbn [length]. lia.
Qed.

Lemma tokens_soh f hl r : tokens (S f) (1 :: hl :: r) =
  match take_until 0 r [] with
  | Some (title, r1) =>
      match take_until 0 r1 [] with
      | Some (offs, r2) =>
          match blocks (S (length r2)) r2 [] 0 with
          | Some (d, bok, cok, r3) => Transfer hl title offs d bok cok :: tokens f r3
          | None => [Garbage (1 :: hl :: r)]
          end
      | None => [Garbage (1 :: hl :: r)]
      end
  | None => [Garbage (1 :: hl :: r)]
  end.
Proof. reflexivity. Qed.

Definition not_soh (s : bytes) : Prop := forall hl r, s <> 1 :: hl :: r.

Lemma tokens_line f s : s <> [] -> not_soh s -> tokens (S f) s =
  match take_until 13 s [] with
  | Some (l, r) => Line l :: tokens f r
  | None => [Garbage s]
  end.
Proof.
  intros H1 H2. destruct s as [|x s]; [congruence|].
  destruct s as [|y s]; [destruct x as [|[p|p|]]; reflexivity|].
  destruct x as [|[p|p|]]; try reflexivity. exfalso. exact (H2 y s eq_refl).
Qed.

Lemma stream_shape (s : bytes) : s = [] \/ (exists hl r, s = 1 :: hl :: r) \/ (s <> [] /\ not_soh s).
Proof.
  destruct s as [|x s]; [left; reflexivity|right].
  destruct (N.eq_dec x 1) as [->|Hx].
  - destruct s as [|y s]; [right|left; eauto]. split; [discriminate|]. intros hl r; discriminate.
  - right. split; [discriminate|]. intros hl r E. injection E as E _. contradiction.
Qed.

Lemma tokens_fuel : forall f1 f2 s, (length s < f1)%nat -> (length s < f2)%nat -> tokens f1 s = tokens f2 s.
Proof.
  induction f1 as [|f1 IH]; intros f2 s H1 H2; [lia|]. destruct f2 as [|f2]; [lia|].
  destruct (stream_shape s) as [->|[(hl&r&->)|[Hne Hns]]]; [reflexivity| |].
  - rewrite !tokens_soh.
    destruct (take_until 0 r []) as [[title r1]|] eqn:E1; [|reflexivity].
    destruct (take_until 0 r1 []) as [[offs r2]|] eqn:E2; [|reflexivity].
    destruct (blocks (S (length r2)) r2 [] 0) as [[[[d bok] cok] r3]|] eqn:E3; [|reflexivity].
    apply take_until_len in E1, E2. apply blocks_len in E3. cbn [length] in H1, H2.
    f_equal. apply IH; lia.
  - rewrite !tokens_line by assumption.
    destruct (take_until 13 s []) as [[l r]|] eqn:E; [|reflexivity].
    apply take_until_len in E. f_equal. apply IH; lia.
Qed.

Lemma tokens_toks f s : (length s < f)%nat -> tokens f s = toks s.
Proof. intros H. apply tokens_fuel; [exact H|lia]. Qed.

Definition line_ok (l : bytes) : Prop := ~ In 13 l /\ (forall r, l <> 1 :: r).

Lemma toks_line l r : line_ok l -> toks (l ++ 13 :: r) = Line l :: toks r.
Proof.
  intros [Hn Hs]. unfold toks at 1. rewrite tokens_line.
  - rewrite (take_until_notin 13 l r Hn). f_equal. apply tokens_toks.
    rewrite app_length. cbn [length]. lia.
  - destruct l; discriminate.
  - intros hl r' E. destruct l as [|x l]; [discriminate|]. cbn [app] in E. injection E as -> _. exact (Hs l eq_refl).
Qed.

Lemma toks_garbage s : s <> [] -> (forall r, s <> 1 :: r) -> ~ In 13 s -> toks s = [Garbage s].
Proof.
  intros H1 H2 H3. unfold toks. rewrite tokens_line; [rewrite take_until_split, split_at_none by exact H3; reflexivity|exact H1|].
  intros hl r E. exact (H2 (hl :: r) E).
Qed.

Lemma data_chunks_blocks : forall g d f acc sum ck rest, (length d <= g)%nat -> (length d < f)%nat ->
  blocks f (data_chunks g d ++ 4 :: ck :: rest) acc sum =
  Some (concat (rev acc) ++ d, true, ((sum + sumN d + ck) mod 256 =? 0), rest).
Proof.
  induction g as [|g IH]; intros d [|f] acc sum ck rest Hg Hf; try lia; (destruct d as [|x d0]; [|try (cbn in Hg; lia)]);
    try (cbn [data_chunks app blocks sumN]; rewrite rev'_rev, app_nil_r, N.add_0_r; reflexivity).
  destruct (data_chunks_split g (x :: d0)) as (c&d'&Ed&Hc&->); [discriminate|]. rewrite Ed in *. rewrite app_length in Hg, Hf.
  change CHRSTX with 2. cbn [app blocks]. rewrite (proj2 (N.eqb_neq _ 0)), Nat2N.id, <- app_assoc by lia.
  rewrite (take_k_app (length c) c _ []) by reflexivity. cbn [rev app].
  rewrite IH by lia. cbn [rev]. rewrite concat_app. cbn [concat]. rewrite app_nil_r, <- !app_assoc.
  rewrite sumN_app, <- (N.add_assoc _ (sumN d')), add_mod_l, !N.add_assoc. reflexivity.
Qed.

(* what write_compressed writes for p at the offset off *)
Definition xbytes (p : oprop) (off : N) : bytes :=
  let title := firstn 80 (o_title p) in
  let d := skipn (N.to_nat off) (o_cdata p) in
  1 :: N.of_nat (length title + length (dec_of_N off) + 2) :: title ++ 0 :: dec_of_N off ++ 0 ::
  data_chunks (S (length d)) d ++ [4; (256 - sumN d mod 256) mod 256].
Definition xelem (p : oprop) (off : N) : elem :=
  Transfer (N.of_nat (length (firstn 80 (o_title p)) + length (dec_of_N off) + 2)) (firstn 80 (o_title p))
           (dec_of_N off) (skipn (N.to_nat off) (o_cdata p)) true true.

Lemma toks_xbytes p off r : ~ In 0 (firstn 80 (o_title p)) -> toks (xbytes p off ++ r) = xelem p off :: toks r.
Proof.
  intros Ht. unfold xbytes, xelem. cbv zeta. set (d := skipn (N.to_nat off) (o_cdata p)).
  cbn [app]. repeat (rewrite <- app_assoc; cbn [app]). unfold toks at 1.
  rewrite tokens_soh.
  rewrite (take_until_notin 0 _ _ Ht).
  rewrite (take_until_notin 0 (dec_of_N off)) by (apply dec_notin; reflexivity).
  rewrite data_chunks_blocks;
    [|lia|rewrite app_length; pose proof (data_chunks_length (S (length d)) d ltac:(lia)); lia].
  cbn [rev concat app]. rewrite N.add_0_l, (proj2 (N.eqb_eq _ _) (neg_mod256 (sumN d))). f_equal. apply tokens_toks.
  cbn [length]. rewrite !app_length. cbn [length]. rewrite !app_length. cbn [length]. rewrite !app_length. cbn [length]. lia.
Qed.

(* offset 0: the transfers of a complete session of two library sides *)
Lemma xfer_bytes_0 p : xfer_bytes p = xbytes p 0.
Proof.
  unfold xfer_bytes, xbytes. cbv zeta. change (dec_of_N 0) with [48]. cbn [length]. rewrite <- Nat.add_assoc. reflexivity.
Qed.

Definition gprop_of (p : oprop) : prop :=
  {| g_mid := o_mid p; g_usize := o_size p; g_csize := N.of_nat (length (o_cdata p)) |}.

(* the MID alphabet of the grammar: 1 to 12 letters or digits *)
Definition mid_conf (m : bytes) : Prop := m <> [] /\ (length m <= 12)%nat /\ forallb is_alnum m = true.


Lemma all_digits_nonnil s : all_digits s = true -> s <> [].
Proof. destruct s; [discriminate|discriminate]. Qed.

Theorem proposal_line_parses p :
  mid_conf (o_mid p) -> o_size p < 10 ^ 41 -> N.of_nat (length (o_cdata p)) < 10 ^ 41 ->
  parse_prop (proposal_line p) = Some (gprop_of p).
Proof.
  intros (Hm1&Hm2&Hm3) Hs Hc. unfold parse_prop. rewrite proposal_line_eq.
  change (70 :: 67 :: 32 :: 69 :: 77 :: 32 :: ?x) with ([70; 67] ++ 32 :: [69; 77] ++ 32 :: x).
  rewrite (split_on_app 32 [70; 67]) by (intros [K|[K|[]]]; discriminate).
  rewrite (split_on_app 32 [69; 77]) by (intros [K|[K|[]]]; discriminate).
  rewrite (split_on_app 32 (o_mid p)) by (apply (forallb_notin is_alnum); [exact Hm3|reflexivity]).
  rewrite (split_on_app 32 (dec_of_N (o_size p))) by (apply dec_notin; reflexivity).
  change [32; 48] with (32 :: [48]).
  rewrite (split_on_app 32 (dec_of_N (N.of_nat (length (o_cdata p))))) by (apply dec_notin; reflexivity).
  rewrite (split_on_notin 32 [48]) by (intros [K|[]]; discriminate).
  change (beq_bytes [70; 67] [70; 67]) with true. change (beq_bytes [69; 77] [69; 77]) with true.
  cbn [orb andb].
  rewrite (beq_bytes_neq _ _ Hm1). cbn [negb andb].
  assert (E2 : (length (o_mid p) <=? 12)%nat = true) by (apply Nat.leb_le; exact Hm2). rewrite E2, Hm3, !dec_all_digits.
  cbn [andb]. change (all_digits [48]) with true. cbv iota.
  rewrite !dec_roundtrip by assumption. reflexivity.
Qed.

Lemma forallb_Forall (f : N -> bool) (P : N -> Prop) l : (forall b, f b = true -> P b) -> forallb f l = true -> Forall P l.
Proof. intros HP H. apply Forall_forall. intros b Hb. apply HP, (proj1 (forallb_forall _ _) H b Hb). Qed.

Lemma alnum_ascii m : forallb is_alnum m = true -> ascii_line m.
Proof. apply forallb_Forall. intros b H. unfold is_alnum, is_digit, is_upper, is_lower in H. lia. Qed.
Lemma digits_ascii s : forallb is_digit s = true -> ascii_line s.
Proof. apply forallb_Forall. intros b H. unfold is_digit in H. lia. Qed.
Lemma dec_ascii n : ascii_line (dec_of_N n).
Proof. apply digits_ascii. unfold dec_of_N. apply digitsk_all_digits. Qed.

Lemma proposal_line_ascii p : forallb is_alnum (o_mid p) = true -> ascii_line (proposal_line p).
Proof.
  intros H. rewrite proposal_line_eq. unfold ascii_line.
  repeat (apply Forall_cons; [lia|]).
  apply Forall_app. split; [apply alnum_ascii, H|]. apply Forall_cons; [lia|].
  apply Forall_app. split; [apply dec_ascii|]. apply Forall_cons; [lia|].
  apply Forall_app. split; [apply dec_ascii|]. repeat (apply Forall_cons; [lia|]). constructor.
Qed.

Lemma proposal_line_ok p : mid_ok (o_mid p) -> line_ok (proposal_line p).
Proof.
  intros H. destruct (proposal_line_fline p H) as [Hn _]. split; [exact Hn|].
  intros r. rewrite proposal_line_eq. discriminate.
Qed.

Lemma mid_conf_ok m : mid_conf m -> mid_ok m.
Proof. intros (_&_&H). split; apply (forallb_notin is_alnum); try exact H; reflexivity. Qed.

(* the size announced is the size of the message that the reference decoder finds inside *)
Definition size_conf (p : oprop) : Prop :=
  exists x, Canon.decode true (o_cdata p) = Some x /\ N.of_nat (length x) = o_size p.

Lemma decode_size s x : Canon.decode true s = Some x -> N.of_nat (length x) < 2147483648.
Proof.
  unfold Canon.decode. destruct (length s <? 6)%nat; [discriminate|]. cbv zeta.
  destruct (2147483648 <=? le_to_N (firstn 4 (skipn 2 s))) eqn:E; [discriminate|].
  match goal with |- (if ?c then _ else _) = _ -> _ => destruct c end; [discriminate|].
  match goal with |- (if ?c then _ else _) = _ -> _ => destruct c eqn:E2 end; [|discriminate].
  intros H. apply N.eqb_eq in E2. apply N.leb_gt in E.
  match type of E2 with N.of_nat (length ?b) = _ => assert (Hx : b = x) by congruence end.
  rewrite <- Hx, E2. exact E.
Qed.

(* name and version of the SID: non-empty, without the separator '-' *)
Definition sid_conf (h : hs_cfg) : Prop :=
  hs_name h <> [] /\ hs_version h <> [] /\ ~ In 45 (hs_name h) /\ ~ In 45 (hs_version h).

Theorem sid_line_valid h : sid_conf h -> valid_sid (line2 h) = true.
Proof.
  intros (H1&H2&H3&H4). unfold valid_sid, line2.
  set (X := if hs_gzip h then [66; 50; 70; 72; 77; 71] else [66; 50; 70; 72; 77]).
  assert (EX : sid_of h = X ++ [36]) by (unfold sid_of, X; destruct (hs_gzip h); reflexivity).
  rewrite EX.
  assert (Er : rev' ((hs_name h ++ 45 :: hs_version h) ++ 45 :: (X ++ [36]) ++ [93]) =
               93 :: 36 :: rev (hs_name h ++ 45 :: hs_version h ++ 45 :: X)).
  { rewrite rev'_rev. replace ((hs_name h ++ 45 :: hs_version h) ++ 45 :: (X ++ [36]) ++ [93])
      with ((hs_name h ++ 45 :: hs_version h ++ 45 :: X) ++ [36; 93]).
    - rewrite rev_app_distr. reflexivity.
    - rewrite <- !app_assoc. cbn [app]. rewrite <- !app_assoc. reflexivity. }
  rewrite Er, rev'_rev, rev_involutive.
  rewrite (split_on_app 45 (hs_name h)) by exact H3.
  rewrite (split_on_app 45 (hs_version h)) by exact H4.
  rewrite (split_on_notin 45 X) by (unfold X; destruct (hs_gzip h); cbn [In]; intuition discriminate).
  rewrite (beq_bytes_neq _ _ H1), (beq_bytes_neq _ _ H2). cbn [negb andb].
  unfold X. destruct (hs_gzip h); reflexivity.
Qed.

(* a forwarding address: non-empty printable text without '|' (which separates the secure-login
   response) and without '>' (with which the greeting of the master ends) *)
Definition fw_conf (fw : list bytes) : Prop :=
  fw <> [] /\ Forall (fun a => a <> [] /\ text_ok a /\ ~ In 124 a /\ ~ In 62 a) fw.

Lemma text_notin c a : text_ok a -> c < 33 -> ~ In c a.
Proof. intros H Hc Hi. unfold text_ok in H. rewrite Forall_forall in H. specialize (H c Hi). lia. Qed.

Lemma split_fw_text : forall rest a, ~ In 32 a -> Forall (fun a => ~ In 32 a) rest ->
  split_on 32 (a ++ fw_text rest) = a :: rest.
Proof.
  induction rest as [|b rest IH]; intros a Ha Hr.
  - unfold fw_text. cbn [map concat]. rewrite app_nil_r. apply split_on_notin, Ha.
  - inversion Hr as [|? ? Hb Hr']; subst.
    change (fw_text (b :: rest)) with (32 :: b ++ fw_text rest).
    rewrite (split_on_app 32 a) by exact Ha. rewrite IH by assumption. reflexivity.
Qed.

Theorem fw_line_valid h : fw_conf (hs_fw h) -> valid_fw (line1 h) = true.
Proof.
  intros [Hne Hf]. unfold line1. destruct (hs_fw h) as [|a rest]; [congruence|].
  change (fw_text (a :: rest)) with (32 :: a ++ fw_text rest). unfold valid_fw.
  inversion Hf as [|? ? (Ha1&Ha2&Ha3&Ha4) Hf']; subst.
  rewrite split_fw_text.
  - apply forallb_forall. intros x Hx.
    assert (Hx' : x <> [] /\ text_ok x /\ ~ In 124 x /\ ~ In 62 x) by (apply (proj1 (Forall_forall _ _) Hf), Hx).
    destruct Hx' as (X1&X2&X3&X4). rewrite (split_on_notin 124 x X3), (beq_bytes_neq _ _ X1). reflexivity.
  - apply text_notin; [exact Ha2|reflexivity].
  - eapply Forall_impl; [|exact Hf']. intros x (_&X2&_). apply text_notin; [exact X2|reflexivity].
Qed.

(* The validator's state seen from the station `who` (true = master): `mine` and `theirs` are the elements of
   its own stream and of the other's that are still to be read, a and b how many of each have been read (the
   positions in a verdict).  Every lemma about a turn is stated once, for either role (mkst_swap changes the
   point of view); the validator is synchronised with a library side s when its state is
   mkst r (toks (what s will still write)) (toks (s_in s)) a b. *)
Definition mkst (who : bool) (mine theirs : list elem) (a b : nat) : gst :=
  if who then {| gm := mine; gs := theirs; nm := a; ns := b |}
  else {| gm := theirs; gs := mine; nm := b; ns := a |}.

Lemma mkst_swap who mine theirs a b : mkst (negb who) theirs mine b a = mkst who mine theirs a b.
Proof. destruct who; reflexivity. Qed.
Lemma pop_mine who e mine theirs a b :
  pop (mkst who (e :: mine) theirs a b) who = Some (e, mkst who mine theirs (S a) b).
Proof. destruct who; reflexivity. Qed.
Lemma pop_theirs who e mine theirs a b :
  pop (mkst who mine (e :: theirs) a b) (negb who) = Some (e, mkst who mine theirs a (S b)).
Proof. destruct who; reflexivity. Qed.
Lemma mkst_len who mine theirs a b :
  (length (gm (mkst who mine theirs a b)) + length (gs (mkst who mine theirs a b)) = length mine + length theirs)%nat.
Proof. destruct who; cbn [mkst gm gs]; lia. Qed.

(* the fuel Grammar.turns gives to next_cmd suffices for either stream *)
Lemma mkst_fuel who mine theirs a b :
  (length theirs < S (length (gm (mkst who mine theirs a b)) + length (gs (mkst who mine theirs a b))))%nat.
Proof. rewrite mkst_len. lia. Qed.

Lemma next_cmd_mine who l mine theirs a b f : is_comment l = false ->
  next_cmd (S f) (mkst who (Line l :: mine) theirs a b) who = inl (Some (l, mkst who mine theirs (S a) b)).
Proof. intros H. cbn [next_cmd]. rewrite pop_mine, H. reflexivity. Qed.
Lemma next_cmd_theirs who l mine theirs a b f : is_comment l = false ->
  next_cmd (S f) (mkst who mine (Line l :: theirs) a b) (negb who) = inl (Some (l, mkst who mine theirs a (S b))).
Proof. intros H. cbn [next_cmd]. rewrite pop_theirs, H. reflexivity. Qed.

Lemma prefixb_head x p l : prefixb (x :: p) l = true -> exists m, l = x :: m /\ prefixb p m = true.
Proof.
  intros H. apply prefixb_iff in H. destruct H as [m ->]. exists (p ++ m). split; [reflexivity|apply prefixb_iff; exists m; reflexivity].
Qed.

Lemma is_comment_prefix l : is_comment l = prefixb [59] l.
Proof.
  destruct l as [|x m]; [reflexivity|]. cbn [prefixb]. rewrite andb_true_r.
  destruct (N.eqb_spec 59 x) as [<-|Hx]; [reflexivity|]. apply match_lit_59. congruence.
Qed.

(* the dispatch of read_block on the prompt *)
Lemma match_70_62 {T} (l : bytes) (A B : T) :
  match l with 70 :: 62 :: _ => A | _ => B end = if prefixb [70; 62] l then A else B.
Proof.
  destruct l as [|x l]; [reflexivity|]. cbn [prefixb].
  destruct (N.eqb_spec 70 x) as [<-|Hx]; [|apply match_lit_70; congruence].
  destruct l as [|y l]; [reflexivity|]. cbn [prefixb andb]. rewrite andb_true_r.
  destruct (N.eqb_spec 62 y) as [<-|Hy]; [reflexivity|]. apply match_lit_62. congruence.
Qed.

Lemma read_block_S f st who first acc props :
  read_block (S f) st who first acc props =
  match parse_prop first with
  | None => inr (VBad who 5 (pos st who))
  | Some p =>
      if (5 <? length (props ++ [p]))%nat then inr (VBad who 6 (pos st who))
      else
        match next_cmd (S (length (gm st) + length (gs st))) st who with
        | inr v => inr v
        | inl None => inr (VBad who 7 (pos st who))
        | inl (Some (l, st')) =>
            if prefixb [70; 62] l then
              (if valid_prompt l (acc ++ [first]) then inl (props ++ [p], st') else inr (VBad who 8 (pos st who)))
            else read_block f st' who l (acc ++ [first]) (props ++ [p])
        end
  end.
Proof.
  cbn [read_block]. destruct (parse_prop first) as [p|]; [|reflexivity].
  destruct (5 <? length (props ++ [p]))%nat; [reflexivity|].
  destruct (next_cmd (S (length (gm st) + length (gs st))) st who) as [[[l st']|]|v]; try reflexivity.
  apply match_70_62.
Qed.

(* a prepared proposal as the grammar wants it *)
Definition blk_conf (p : oprop) : Prop :=
  mid_conf (o_mid p) /\ size_conf p /\ o_title p <> [] /\ ~ In 0 (firstn 80 (o_title p)) /\
  N.of_nat (length (o_cdata p)) < 10 ^ 41.

Lemma blk_conf_size p : blk_conf p -> o_size p < 10 ^ 41.
Proof.
  intros (_&(x&Hd&Hx)&_). rewrite <- Hx. pose proof (decode_size _ _ Hd) as H.
  eapply N.lt_trans; [exact H|reflexivity].
Qed.

Lemma transfer_valid_at p off : o_title p <> [] -> size_conf p ->
  off <= N.of_nat (length (o_cdata p)) -> off < 10 ^ 41 ->
  valid_transfer (xelem p off) (gprop_of p) off = true.
Proof.
  intros Ht (x&Hd&Hx) Ho Hc. unfold valid_transfer, xelem. cbn [g_csize g_usize gprop_of].
  assert (H2 : (1 <= length (firstn 80 (o_title p)))%nat).
  { destruct (o_title p); [congruence|]. cbn [firstn length]. lia. }
  assert (H3 : (length (firstn 80 (o_title p)) <= 80)%nat) by (rewrite firstn_length; lia).
  rewrite Nat2N.id, Nat.eqb_refl.
  assert (E2 : (1 <=? length (firstn 80 (o_title p)))%nat = true) by (apply Nat.leb_le; exact H2).
  assert (E3 : (length (firstn 80 (o_title p)) <=? 80)%nat = true) by (apply Nat.leb_le; exact H3).
  rewrite E2, E3, dec_all_digits, dec_roundtrip by exact Hc.
  rewrite N.eqb_refl. cbn [andb].
  assert (E4 : (N.of_nat (length (skipn (N.to_nat off) (o_cdata p))) + off =? N.of_nat (length (o_cdata p))) = true).
  { apply N.eqb_eq. rewrite skipn_length. lia. }
  rewrite E4. destruct (off =? 0) eqn:E0; [|reflexivity].
  apply N.eqb_eq in E0. subst off. cbn [N.to_nat skipn]. rewrite Hd, Hx, N.eqb_refl. reflexivity.
Qed.

Theorem transfer_valid_off p off : blk_conf p -> off <= N.of_nat (length (o_cdata p)) ->
  valid_transfer (xelem p off) (gprop_of p) off = true.
Proof.
  intros (_&Hs&Ht&_&Hc) Ho. apply transfer_valid_at; try assumption. eapply N.le_lt_trans; [exact Ho|exact Hc].
Qed.

Lemma blk_conf_parses p : blk_conf p -> parse_prop (proposal_line p) = Some (gprop_of p).
Proof.
  intros H. pose proof (blk_conf_size p H) as Hs. destruct H as (Hm&_&_&_&Hc).
  apply proposal_line_parses; assumption.
Qed.
Lemma proposal_line_cmd p : is_comment (proposal_line p) = false /\ prefixb [70; 62] (proposal_line p) = false /\
  beq_bytes (proposal_line p) [70; 70] = false /\ beq_bytes (proposal_line p) [70; 81] = false.
Proof. rewrite proposal_line_eq. repeat split. Qed.

Lemma read_block_lines who theirs pl rest : forall todo p acc props a b f,
  Forall blk_conf (p :: todo) -> (length props + length (p :: todo) <= 5)%nat -> (length todo < f)%nat ->
  prefixb [70; 62] pl = true -> valid_prompt pl (acc ++ map proposal_line (p :: todo)) = true ->
  read_block f (mkst who (map Line (map proposal_line todo) ++ Line pl :: rest) theirs a b) who (proposal_line p) acc props =
  inl (props ++ map gprop_of (p :: todo), mkst who rest theirs (a + S (length todo)) b).
Proof.
  induction todo as [|q todo IH]; intros p acc props a b f Hc Hl Hf Hp Hv; (destruct f as [|f]; [lia|]);
    rewrite read_block_S; inversion Hc as [|? ? Hcp Hc']; subst; rewrite (blk_conf_parses p Hcp).
  - assert (E5 : (5 <? length (props ++ [gprop_of p]))%nat = false) by (rewrite app_length; cbn [length] in *; apply Nat.ltb_ge; lia).
    rewrite E5. cbn [map app].
    destruct (prefixb_head _ _ _ Hp) as (m&->&_). rewrite next_cmd_mine by reflexivity. rewrite Hp. cbn [map] in Hv. rewrite Hv.
    cbn [length]. replace (a + 1)%nat with (S a) by lia. reflexivity.
  - assert (E5 : (5 <? length (props ++ [gprop_of p]))%nat = false) by (rewrite app_length; cbn [length] in *; apply Nat.ltb_ge; lia).
    rewrite E5. cbn [map app].
    destruct (proposal_line_cmd q) as (Q1&Q2&_).
    rewrite next_cmd_mine by exact Q1. rewrite Q2.
    rewrite IH.
    + rewrite <- app_assoc. cbn [app map length].
      replace (S a + S (length todo))%nat with (a + S (S (length todo)))%nat by lia. reflexivity.
    + exact Hc'.
    + rewrite app_length. cbn [length] in *. lia.
    + cbn [length] in Hf. lia.
    + exact Hp.
    + rewrite <- app_assoc. exact Hv.
Qed.

(* the transfers of a block for the answers G as the grammar reads them; an offset asked for lies
   within the compressed data *)
Definition off_fits (p : oprop) (g : gans) : Prop :=
  match g with GAccept off => off <= N.of_nat (length (o_cdata p)) | _ => True end.
Fixpoint xbytes_all (B : list oprop) (G : list gans) : bytes :=
  match B, G with
  | p :: ps, g :: r => (match g with GAccept off => xbytes p off | _ => [] end) ++ xbytes_all ps r
  | _, _ => []
  end.

Lemma send_transfers_off who theirs rest : forall B G a b, Forall blk_conf B ->
  Forall2 off_fits B G ->
  exists E a', (forall R, toks (xbytes_all B G ++ R) = E ++ toks R) /\
    send_transfers (mkst who (E ++ rest) theirs a b) who (map gprop_of B) G = inl (mkst who rest theirs a' b).
Proof.
  induction B as [|p ps IH]; intros G a b Hc HF; inversion HF as [|? g ? G' Hg HF']; subst.
  - exists [], a. split; [intros R; reflexivity|reflexivity].
  - inversion Hc as [|? ? Hp Hc']; subst. cbn [xbytes_all map send_transfers].
    destruct g as [off| |].
    + destruct (IH G' (S a) b Hc' HF') as (E&a'&HE&Hst).
      exists (xelem p off :: E), a'. split.
      * intros R. rewrite <- app_assoc, toks_xbytes by apply Hp. rewrite HE. reflexivity.
      * cbn [app]. rewrite pop_mine, (transfer_valid_off p off Hp Hg). exact Hst.
    + destruct (IH G' a b Hc' HF') as (E&a'&HE&Hst). exists E, a'. split; [exact HE|exact Hst].
    + destruct (IH G' a b Hc' HF') as (E&a'&HE&Hst). exists E, a'. split; [exact HE|exact Hst].
Qed.

(* between two library sides every accepted proposal is sent from offset 0 *)
Lemma xfers_xbytes_all : forall B A, xfers B A = xbytes_all B (map to_gans A).
Proof.
  induction B as [|p ps IH]; intros [|a A]; try reflexivity. cbn [xfers map xbytes_all]. rewrite IH.
  destruct a; [rewrite xfer_bytes_0|..]; reflexivity.
Qed.

Lemma to_gans_fits : forall B A, length A = length B -> Forall2 off_fits B (map to_gans A).
Proof.
  induction B as [|p ps IH]; intros [|a A] Hl; try discriminate; constructor; [|apply IH; injection Hl as Hl; exact Hl].
  destruct a; [apply N.le_0_l|exact I..].
Qed.

(* script Tx Ty: Tx is what the station whose turn it is will write, Ty what the other writes *)
Inductive script : bytes -> bytes -> Prop :=
| sc_fq : script [70; 81; 13] []
| sc_ff Tx Ty : script Ty Tx -> script ([70; 70; 13] ++ Tx) Ty
| sc_block B A Tx Ty : B <> [] -> (length B <= 5)%nat -> Forall blk_conf B -> length A = length B ->
    script Ty Tx -> script (proposal_bytes B ++ xfers B A ++ Tx) (fs_line A ++ Ty).

Lemma toks_lines : forall ls R, Forall line_ok ls -> toks (concat (map (fun l => l ++ [13]) ls) ++ R) = map Line ls ++ toks R.
Proof.
  induction ls as [|l ls IH]; intros R H; [reflexivity|]. inversion H; subst.
  cbn [map concat]. rewrite <- !app_assoc. cbn [app]. rewrite toks_line by assumption. rewrite IH by assumption. reflexivity.
Qed.

Lemma ck_line_line_ok n : n < 256 -> line_ok (ck_line n).
Proof. intros H. destruct (ck_line_facts n H) as (_&Hn&_). split; [exact Hn|]. intros r. discriminate. Qed.

Lemma toks_proposal_bytes B R : Forall blk_conf B ->
  toks (proposal_bytes B ++ R) =
  map Line (map proposal_line B) ++ Line (ck_line (block_checksum (map proposal_line B))) :: toks R.
Proof.
  intros Hc. unfold proposal_bytes. cbv zeta. rewrite <- app_assoc, toks_lines.
  - f_equal. change ([70; 62; 32] ++ fmt_02X ?n ++ [13]) with (ck_line n ++ [13]).
    rewrite <- app_assoc. cbn [app]. apply toks_line, ck_line_line_ok, block_checksum_lt.
  - apply Forall_forall. intros l Hl. apply in_map_iff in Hl. destruct Hl as (p&<-&Hp).
    apply proposal_line_ok, mid_conf_ok. apply (proj1 (Forall_forall _ _) Hc p Hp).
Qed.

Lemma fs_line_ok A : line_ok ([70; 83; 32] ++ map answer_byte A).
Proof.
  split; [|intros r; discriminate]. cbn [app In]. intros [K|[K|[K|K]]]; try discriminate.
  apply in_map_iff in K. destruct K as (a&E&_). destruct a; discriminate.
Qed.

Lemma toks_fs_line A R : toks (fs_line A ++ R) = Line ([70; 83; 32] ++ map answer_byte A) :: toks R.
Proof.
  unfold fs_line. rewrite <- (toks_line _ R (fs_line_ok A)), <- !app_assoc. reflexivity.
Qed.

Lemma ff_line_ok : line_ok [70; 70].
Proof. split; [cbn [In]; intuition discriminate|intros r; discriminate]. Qed.

(* what Grammar.turns does once it has read the block of the station whose turn it is *)
Definition after_block (f : nat) (st2 : gst) (who : bool) (props : list prop) : verdict :=
  match next_cmd (S (length (gm st2) + length (gs st2))) st2 (negb who) with
  | inr v => v
  | inl None => VBad (negb who) 15 (pos st2 (negb who))
  | inl (Some (fsl, st3)) =>
      match fs_answers fsl with
      | None => VBad (negb who) 16 (pos st2 (negb who))
      | Some ans =>
          if negb (length ans =? length props)%nat then VBad (negb who) 11 (pos st2 (negb who))
          else match send_transfers st3 who props ans with
               | inr v => v
               | inl st4 => Grammar.turns f st4 (negb who)
               end
      end
  end.

Lemma turns_S f st who : Grammar.turns (S f) st who =
  match next_cmd (S (length (gm st) + length (gs st))) st who with
  | inr v => v
  | inl None => VBad who 13 (pos st who)
  | inl (Some (l, st1)) =>
      if beq_bytes l [70; 70] then Grammar.turns f st1 (negb who)
      else if beq_bytes l [70; 81] then
        match gm st1, gs st1 with
        | [], [] => VOk
        | _ :: _, _ => VBad true 14 (nm st1)
        | _, _ :: _ => VBad false 14 (ns st1)
        end
      else match read_block 6 st1 who l [] [] with
           | inr v => v
           | inl (props, st2) => after_block f st2 who props
           end
  end.
Proof. reflexivity. Qed.

Lemma after_block_fs f who mine theirs a b A props : length A = length props ->
  after_block f (mkst who mine (Line ([70; 83; 32] ++ map answer_byte A) :: theirs) a b) who props =
  match send_transfers (mkst who mine theirs a (S b)) who props (map to_gans A) with
  | inr v => v
  | inl st4 => Grammar.turns f st4 (negb who)
  end.
Proof.
  intros Hl. unfold after_block. rewrite next_cmd_theirs by reflexivity.
  rewrite answer_line_valid, map_length, Hl, Nat.eqb_refl. reflexivity.
Qed.

(* the three turns of a library side as the grammar reads them: FQ, FF, a block of proposals *)
Lemma turns_own_fq who theirs a b f :
  Grammar.turns (S f) (mkst who (toks [70; 81; 13]) theirs a b) who =
  match theirs with [] => VOk | _ :: _ => VBad (negb who) 14 b end.
Proof.
  change (toks [70; 81; 13]) with [Line [70; 81]]. rewrite turns_S, next_cmd_mine by reflexivity.
  destruct who, theirs; reflexivity.
Qed.

Lemma turns_own_ff who T theirs a b f :
  Grammar.turns (S f) (mkst who (toks ([70; 70] ++ 13 :: T)) theirs a b) who =
  Grammar.turns f (mkst who (toks T) theirs (S a) b) (negb who).
Proof. rewrite toks_line by exact ff_line_ok. rewrite turns_S, next_cmd_mine by reflexivity. reflexivity. Qed.

Lemma turns_own_block who B T theirs a b f : B <> [] -> (length B <= 5)%nat -> Forall blk_conf B ->
  Grammar.turns (S f) (mkst who (toks (proposal_bytes B ++ T)) theirs a b) who =
  after_block f (mkst who (toks T) theirs (S a + length B) b) who (map gprop_of B).
Proof.
  intros Hne Hl5 Hc. destruct B as [|p ps]; [congruence|].
  rewrite toks_proposal_bytes by exact Hc. cbn [map app]. rewrite turns_S.
  destruct (proposal_line_cmd p) as (P1&_&P3&P4). rewrite next_cmd_mine by exact P1. rewrite P3, P4.
  rewrite (read_block_lines who theirs _ (toks T) ps p [] [] (S a) b 6 Hc Hl5); [reflexivity| |reflexivity|].
  - cbn [length] in Hl5. lia.
  - apply prompt_valid, Forall_forall. intros l Hin. apply in_map_iff in Hin. destruct Hin as (q&<-&Hq).
    apply proposal_line_ascii. apply (proj1 (Forall_forall _ _) Hc q Hq).
Qed.

Theorem turns_script Tx Ty : script Tx Ty -> forall who f a b,
  (length (toks Tx) + length (toks Ty) < f)%nat ->
  Grammar.turns f (mkst who (toks Tx) (toks Ty) a b) who = VOk.
Proof.
  induction 1 as [|Tx Ty Hs IH|B A Tx Ty Hne Hl5 Hc Hl Hs IH]; intros who f a b Hf; (destruct f as [|f]; [lia|]).
  - rewrite turns_own_fq. reflexivity.
  - change ([70; 70; 13] ++ Tx) with ([70; 70] ++ 13 :: Tx) in *.
    rewrite turns_own_ff, <- mkst_swap. apply IH. rewrite toks_line in Hf by exact ff_line_ok. cbn [length] in Hf. lia.
  - rewrite xfers_xbytes_all in *. rewrite turns_own_block by assumption.
    destruct (send_transfers_off who (toks Ty) (toks Tx) B (map to_gans A) (S a + length B) (S b) Hc (to_gans_fits B A Hl))
      as (E&a'&HE&Hst).
    rewrite toks_proposal_bytes in Hf by exact Hc. rewrite toks_fs_line, HE in *.
    rewrite after_block_fs by (rewrite map_length; exact Hl). rewrite Hst, <- mkst_swap. apply IH.
    rewrite app_length in Hf. cbn [length] in Hf. rewrite app_length in Hf. lia.
Qed.

(* the streams of a plan form a script *)
Lemma plan_script hx hy qx Tx Ty : plan hx hy qx Tx Ty ->
  Forall blk_conf (h_outbox hx) -> Forall blk_conf (h_outbox hy) -> script Tx Ty.
Proof.
  induction 1 as [| |hx hy qx p ps Ty Tx (_&Lx&Wx&Nx&_) _ Es B A _ IH]; intros Cfx Cfy; [constructor|apply sc_ff; auto|].
  destruct (block_facts hx p ps Lx Wx Nx Es) as (Bne&_&HB&_). apply sc_block; [exact Bne| | |apply map_length|exact (IH Cfy Cfx)].
  - change (N.to_nat MaxBlockSize) with 5%nat. apply firstn_le_length.
  - exact (incl_Forall (fun q Hq => proj1 (HB q Hq)) Cfx).
Qed.

(* whenever, at a turn boundary, the unread input of each side is exactly what the other side will
   still write, the two remaining streams are those of the plan (DeliverP.plan_closed) *)
Lemma joint_shape : forall n hx hy (qx : bool),
  (2 * (length (pendh hx) + length (pendh hy)) + (if qx then 0 else 1) < n)%nat ->
  okdir hx hy -> okdir hy hx -> (qx = true -> pendh hy = []) ->
  Forall blk_conf (h_outbox hx) -> Forall blk_conf (h_outbox hy) ->
  forall sx sy, s_h sx = hx -> s_h sy = hy -> s_remote_nomsgs sx = qx ->
    tailw true sx = s_in sy -> tailw false sy = s_in sx ->
    script (tailw true sx) (tailw false sy).
Proof.
  intros n hx hy qx Hn Oxy Oyx Hq Cfx Cfy sx sy Hx Hy Qx C1 C2.
  destruct (plan_exists n hx hy qx Hn Oxy Oyx Hq) as (Tx&Ty&HP).
  destruct (plan_closed _ _ _ _ _ HP sx sy Hx Hy Qx C1 C2) as [<- <-]. rewrite C1, C2.
  exact (plan_script _ _ _ _ _ HP Cfx Cfy).
Qed.

Lemma pr_line_ok l x m : l = x :: m -> x <> 1 -> Forall pr l -> line_ok l.
Proof. intros -> Hx Hp. split; [apply (pr_notin 13 _ eq_refl Hp)|]. intros r E. injection E as E _. contradiction. Qed.

Lemma hello_toks h X : hs_cfg_ok h ->
  toks (hello h ++ X) = Line (line1 h) :: Line (line2 h) :: Line (line3 h) :: toks X.
Proof.
  intros H. unfold hello. rewrite <- app_assoc. cbn [app]. rewrite <- app_assoc. cbn [app]. rewrite <- app_assoc. cbn [app].
  rewrite toks_line by (eapply pr_line_ok; [reflexivity|discriminate|apply line1_pr, H]).
  rewrite toks_line by (eapply pr_line_ok; [reflexivity|discriminate|apply line2_pr, H]).
  rewrite toks_line by (eapply pr_line_ok; [reflexivity|discriminate|apply line3_pr, H]).
  reflexivity.
Qed.

Lemma fw_last_conf fw : fw_conf fw -> exists y, y <> 62 /\ ends_with y (fw_text fw).
Proof.
  intros [Hne H]. destruct (exists_last Hne) as [fw' [a ->]].
  apply Forall_app in H. destruct H as [_ H]. inversion H as [|? ? (Ha&_&_&H62) _]; subst.
  destruct (exists_last Ha) as [a' [y ->]].
  exists y. split; [intros ->; apply H62, in_or_app; right; left; reflexivity|].
  unfold fw_text. rewrite map_app, concat_app. apply ends_with_app. cbn [map concat].
  rewrite app_nil_r. apply ends_with_cons, ends_with_app, ends_with_one.
Qed.

Lemma line2_ends h : ends_with 93 (line2 h).
Proof. unfold line2. apply ends_with_cons, ends_with_app, ends_with_cons, ends_with_app, ends_with_one. Qed.

Lemma line2_bracketed h : prefixb [91] (line2 h) && suffixb [93] (line2 h) = true.
Proof. rewrite (suffixb_one 93 93 _ (line2_ends h)). reflexivity. Qed.

(* what the grammar asks of the configuration of a greeting *)
Definition hs_conf (h : hs_cfg) : Prop := hs_cfg_ok h /\ fw_conf (hs_fw h) /\ sid_conf h.

Lemma master_hs_ok h rest gsv f a : hs_conf h -> hs_master h = true ->
  master_handshake (S (S (S f))) {| gm := Line (line1 h) :: Line (line2 h) :: Line (line3 h) :: rest; gs := gsv; nm := a; ns := 0 |} 0 =
  inl {| gm := rest; gs := gsv; nm := S (S (S a)); ns := 0 |}.
Proof.
  intros (Hok&Hfw&Hsid) Hm.
  destruct (fw_last_conf _ Hfw) as (y&Hy&Ey).
  assert (A1 : prefixb [91] (line1 h) = false) by reflexivity.
  assert (A2 : prefixb [59; 70; 87] (line1 h) = true) by reflexivity.
  assert (A3 : suffixb [62] (line1 h) = false).
  { rewrite (suffixb_one 62 y); [apply N.eqb_neq; congruence|]. unfold line1. do 4 apply ends_with_cons. exact Ey. }
  assert (B3 : prefixb [59; 70; 87] (line2 h) = false) by reflexivity.
  assert (B4 : suffixb [62] (line2 h) = false) by (rewrite (suffixb_one 62 93 _ (line2_ends h)); reflexivity).
  assert (C1 : prefixb [91] (line3 h) = false) by reflexivity.
  assert (C2 : prefixb [59; 70; 87] (line3 h) = false) by reflexivity.
  assert (C3 : suffixb [62] (line3 h) = true).
  { pose proof (line3_ends h) as E. rewrite Hm in E. rewrite (suffixb_one 62 62 _ E). reflexivity. }
  cbn [master_handshake pop gm gs nm ns].
  rewrite A1, A2, A3, (fw_line_valid h Hfw). cbn [andb negb].
  rewrite line2_bracketed, B3, B4, (sid_line_valid h Hsid). cbn [andb negb].
  rewrite C1, C2, C3. cbn [andb negb Nat.eqb]. reflexivity.
Qed.

Lemma slave_hs_S f gv l r a b sids :
  slave_handshake (S f) {| gm := gv; gs := Line l :: r; nm := a; ns := b |} sids =
  if prefixb [70] l then
    (if (sids =? 1)%nat then inl {| gm := gv; gs := Line l :: r; nm := a; ns := b |} else inr (VBad false 33 b))
  else
    let st' := {| gm := gv; gs := r; nm := a; ns := S b |} in
    if prefixb [91] l && suffixb [93] l then
      (if valid_sid l then slave_handshake f st' (S sids) else inr (VBad false 31 b))
    else if prefixb [59; 70; 87] l then
      (if valid_fw l then slave_handshake f st' sids else inr (VBad false 32 b))
    else if prefixb [59; 80; 82] l then
      (if valid_pr l then slave_handshake f st' sids else inr (VBad false 35 b))
    else if is_comment l then slave_handshake f st' sids
    else inr (VBad false 34 b).
Proof.
  destruct l as [|x l]; [reflexivity|]. cbn [prefixb]. rewrite andb_true_r.
  destruct (N.eqb_spec 70 x) as [<-|Hx]; [reflexivity|]. cbn [slave_handshake gs]. apply match_lit_70. congruence.
Qed.

(* the two kinds of line that the grammar's reader of the slave's greeting passes: a SID, and a
   comment (a ";FW" or ";PR" line if it looks like one) *)
Lemma slave_hs_sid f gv l r a b sids :
  prefixb [70] l = false -> prefixb [91] l && suffixb [93] l = true -> valid_sid l = true ->
  slave_handshake (S f) {| gm := gv; gs := Line l :: r; nm := a; ns := b |} sids =
  slave_handshake f {| gm := gv; gs := r; nm := a; ns := S b |} (S sids).
Proof. intros H0 H1 H2. rewrite slave_hs_S, H0. cbv zeta. rewrite H1, H2. reflexivity. Qed.

Lemma slave_hs_skip f gv l r a b sids :
  prefixb [70] l = false -> prefixb [91] l && suffixb [93] l = false -> is_comment l = true ->
  (prefixb [59; 70; 87] l = true -> valid_fw l = true) -> (prefixb [59; 80; 82] l = true -> valid_pr l = true) ->
  slave_handshake (S f) {| gm := gv; gs := Line l :: r; nm := a; ns := b |} sids =
  slave_handshake f {| gm := gv; gs := r; nm := a; ns := S b |} sids.
Proof.
  intros H0 H1 Hc Hfw Hpr. rewrite slave_hs_S, H0. cbv zeta. rewrite H1.
  destruct (prefixb [59; 70; 87] l); [rewrite Hfw by reflexivity; reflexivity|].
  destruct (prefixb [59; 80; 82] l); [rewrite Hpr by reflexivity; reflexivity|]. rewrite Hc. reflexivity.
Qed.

Lemma slave_hs_ok h l rest gmv f a : hs_conf h ->
  slave_handshake (S (S (S (S f))))
    {| gm := gmv; gs := Line (line1 h) :: Line (line2 h) :: Line (line3 h) :: Line (70 :: l) :: rest; nm := a; ns := 0 |} 0 =
  inl {| gm := gmv; gs := Line (70 :: l) :: rest; nm := a; ns := 3 |}.
Proof.
  intros (Hok&Hfw&Hsid).
  rewrite slave_hs_skip; [|reflexivity|reflexivity|reflexivity|intros _; exact (fw_line_valid h Hfw)|discriminate].
  rewrite slave_hs_sid; [|reflexivity|apply line2_bracketed|exact (sid_line_valid h Hsid)].
  rewrite slave_hs_skip; [|reflexivity|reflexivity|reflexivity|discriminate|discriminate].
  rewrite slave_hs_S. reflexivity.
Qed.

Lemma turn_head T :
  T = [70; 81; 13] \/ (exists T', T = [70; 70] ++ 13 :: T') \/
  (exists B T', B <> [] /\ Forall blk_conf B /\ T = proposal_bytes B ++ T') ->
  exists l r, toks T = Line (70 :: l) :: r.
Proof.
  intros [->|[(T'&->)|(B&T'&Hne&Hc&->)]].
  - exists [81], []. reflexivity.
  - rewrite toks_line by exact ff_line_ok. eauto.
  - destruct B as [|p ps]; [congruence|]. rewrite toks_proposal_bytes by exact Hc. cbn [map app].
    rewrite proposal_line_eq. eauto.
Qed.

Lemma script_head Tx Ty : script Tx Ty -> exists l r, toks Tx = Line (70 :: l) :: r.
Proof.
  intros [|Tx' Ty' _|B A Tx' Ty' Hne _ Hc _ _]; apply turn_head;
    [left; reflexivity|right; left; exists Tx'; reflexivity|right; right; exists B, (xfers B A ++ Tx'); auto].
Qed.

(* what the grammar asks of a side: the greeting and every prepared proposal *)
Definition side_conf (x : side_cfg) : Prop :=
  hs_conf (c_hs x) /\ Forall blk_conf (h_outbox (c_handler x)).

Theorem pair_conforms_ms (m s : side_cfg) :
  c_master m = true -> c_master s = false ->
  c_motd m = [] -> hs_master (c_hs m) = true ->
  side_conf m -> side_conf s -> side_ready m s -> side_ready s m ->
  forall in_m in_s, closed m s in_m in_s -> validate in_s in_m = VOk.
Proof.
  intros Mm Ms Hmo Hhm (Hcm&Cfm) (Hcs&Cfs) Rm Rs in_m in_s Hc.
  destruct (hs_compat_text_wire m s Mm Ms Hmo Hhm (proj1 Hcm) (proj1 Hcs)) as (sm&ss&Hm1&Hm2&Hm3&Hs1&Hs2&Hs3).
  destruct (closed_pair_split m s _ _ sm ss Mm Ms Hm1 Hm2 Hm3 Hs1 Hs2 Hs3 Rm Rs in_m in_s Hc)
    as (sx&sy&HX&HY&Hsx&Hsy&Qx&C1&C2).
  assert (Hscript : script (tailw true sx) (tailw false sy)).
  { destruct Rm as (_&Om&_). destruct Rs as (_&Os&_).
    apply (joint_shape (S (2 * (length (pendh (c_handler s)) + length (pendh (c_handler m))) + 1))%nat
             (c_handler s) (c_handler m) false); try assumption; [clear; lia|discriminate]. }
  destruct (script_head _ _ Hscript) as (l&r&Ehead).
  (* the verdict *)
  unfold validate. cbv zeta.
  change (tokens (S (length in_s)) in_s) with (toks in_s). change (tokens (S (length in_m)) in_m) with (toks in_m).
  rewrite HX, HY, !hello_toks by (first [exact (proj1 Hcm)|exact (proj1 Hcs)]). cbn [length].
  rewrite master_hs_ok by (first [exact Hcm|exact Hhm]).
  rewrite Ehead, slave_hs_ok by exact Hcs. rewrite <- Ehead.
  change {| gm := toks (tailw false sy); gs := toks (tailw true sx); nm := 3; ns := 3 |}
    with (mkst false (toks (tailw true sx)) (toks (tailw false sy)) 3 3).
  apply turns_script; [exact Hscript|]. rewrite Ehead. cbn [length]. clear. lia.
Qed.

(* C05_pair_conforms.  pair_text_ok asks for an empty MOTD of the master and printable greeting fields:
   harmless MOTD lines are not covered here (kx_motd shows a harmful one). *)
Theorem pair_conforms (a b : side_cfg) :
  c_master a = negb (c_master b) -> pair_text_ok a b ->
  side_conf a -> side_conf b -> side_ready a b -> side_ready b a ->
  forall in_a in_b, closed a b in_a in_b ->
    let '(ms, ss) := if c_master a then (in_b, in_a) else (in_a, in_b) in validate ms ss = VOk.
Proof.
  intros Hrole (Hmo&Hhm&_&_) Ca Cb Ra Rb in_a in_b Hc. destruct (roles_cases a b Hrole) as [[Ma Mb]|[Ma Mb]]; rewrite Ma in *.
  - exact (pair_conforms_ms a b Ma Mb Hmo Hhm Ca Cb Ra Rb in_a in_b Hc).
  - destruct Hc as [H1 H2].
    exact (pair_conforms_ms b a Mb Ma Hmo Hhm Cb Ca Rb Ra in_b in_a (conj H2 H1)).
Qed.

(* the verdict does not blame the station with the role r *)
Definition notblame (r : bool) (v : verdict) : Prop :=
  match v with VOk => True | VBad who _ _ => who <> r end.

(* the first element the tokeniser makes of a stream, with the bytes it is made of (nothing; a line up to the
   first CR; a transfer: SOH, two NUL-terminated fields, frames; garbage): what is needed to follow the
   library's reader and the tokeniser over the same bytes of a peer *)
Inductive first_elem (s : bytes) : Prop :=
| fe_nil : s = [] -> toks s = [] -> first_elem s
| fe_line l r : s = l ++ 13 :: r -> ~ In 13 l -> toks s = Line l :: toks r -> first_elem s
| fe_xfer hl title offs r2 d bok cok r3 :
    s = 1 :: hl :: title ++ 0 :: offs ++ 0 :: r2 -> ~ In 0 title -> ~ In 0 offs ->
    blocks (S (length r2)) r2 [] 0 = Some (d, bok, cok, r3) ->
    toks s = Transfer hl title offs d bok cok :: toks r3 -> first_elem s
| fe_garbage g : toks s = [Garbage g] -> first_elem s.

Lemma first_elem_cases s : first_elem s.
Proof.
  destruct (stream_shape s) as [->|[(hl&r&->)|[Hne Hns]]].
  - apply fe_nil; reflexivity.
  - unfold toks. pose proof (tokens_soh (length (1 :: hl :: r)) hl r) as E.
    destruct (take_until 0 r []) as [[title r1]|] eqn:E1; [|eapply fe_garbage; unfold toks; exact E].
    destruct (take_until 0 r1 []) as [[offs r2]|] eqn:E2; [|eapply fe_garbage; unfold toks; exact E].
    destruct (blocks (S (length r2)) r2 [] 0) as [[[[d bok] cok] r3]|] eqn:E3; [|eapply fe_garbage; unfold toks; exact E].
    destruct (take_until_some _ _ _ _ E1) as (Hr&Hnt). destruct (take_until_some _ _ _ _ E2) as (Hr1&Hno).
    eapply (fe_xfer _ hl title offs r2 d bok cok r3); try assumption.
    + rewrite Hr, Hr1. reflexivity.
    + unfold toks. rewrite E. f_equal. apply tokens_toks.
      apply take_until_len in E1, E2. apply blocks_len in E3. cbn [length]. lia.
  - unfold toks. pose proof (tokens_line (length s) s Hne Hns) as E.
    destruct (take_until 13 s []) as [[l r]|] eqn:E1; [|eapply fe_garbage; unfold toks; exact E].
    destruct (take_until_some _ _ _ _ E1) as (Hs&Hn).
    eapply (fe_line _ l r); try assumption. unfold toks. rewrite E. f_equal. apply tokens_toks.
    apply take_until_len in E1. lia.
Qed.

Lemma next_line_raw pe s l r : s_in s = l ++ 13 :: r -> ~ In 13 l ->
  next_line pe s = if pe && err_line (clean_string l) then RFail EOther (set_in s r) else ROk (clean_string l, set_in s r).
Proof. intros Hs Hn. unfold next_line. rewrite Hs, PairLines.read_until_notin by exact Hn. reflexivity. Qed.

(* a line of the peer as both readers see it: the library reads the raw line l up to the first CR and
   cleans it; the grammar's element is Line l, or the peer is at fault *)
Lemma peer_line pe s line s1 : next_line pe s = ROk (line, s1) ->
  exists l r, s_in s = l ++ 13 :: r /\ line = clean_string l /\ s1 = set_in s r /\
    (toks (s_in s) = Line l :: toks r \/ exists e rest, toks (s_in s) = e :: rest /\ forall l', e <> Line l').
Proof.
  unfold next_line, read_until. destruct (split_at 13 (s_in s)) as [l [r|]] eqn:E; [|discriminate].
  cbv zeta. destruct (pe && err_line (clean_string l)); [discriminate|]. intros H. injection H as <- <-.
  pose proof (split_at_spec 13 (s_in s)) as Hs. rewrite E in Hs. destruct Hs as [Hs _].
  exists l, r. split; [exact Hs|]. split; [reflexivity|]. split; [reflexivity|].
  destruct (first_elem_cases (s_in s)) as [E0 _|l0 r0 E0 Hn0 Ht|hl t o r2 d bok cok r3 _ _ _ _ Ht|g Ht].
  - rewrite Hs in E0. destruct l; discriminate.
  - left. rewrite E0, split_at_app in E by exact Hn0. injection E as <- <-. exact Ht.
  - right. eexists. eexists. split; [exact Ht|discriminate].
  - right. eexists. eexists. split; [exact Ht|discriminate].
Qed.

(* an offset asked for is within ProtocolOffsetSizeLimit; conv: the answer as Side.parse_answers then reads it *)
Definition off_small (g : gans) : Prop := match g with GAccept off => off <= 999999 | _ => True end.
Definition conv (g : gans) : pans :=
  match g with GAccept off => PAns AAccept (Z.of_N off) | GReject => PAns AReject 0 | GDefer => PAns ADefer 0 end.

Lemma parse_fs_S f c r : parse_fs (S f) (c :: r) =
  let more (a : gans) (rest : bytes) := match parse_fs f rest with Some l => Some (a :: l) | None => None end in
  if existsb (fun x => x =? c) [43; 89; 121] then more (GAccept 0) r
  else if existsb (fun x => x =? c) [45; 78; 110; 82; 114; 69; 101] then more GReject r
  else if existsb (fun x => x =? c) [61; 76; 108; 72; 104] then more GDefer r
  else if existsb (fun x => x =? c) [33; 65; 97] then
    let ds := leading_digits r in
    match ds with
    | [] => None
    | _ => more (GAccept (dec_value ds 0)) (skipn (length ds) r)
    end
  else None.
Proof. reflexivity. Qed.

Lemma leading_digits_digits r : forallb is_digit (leading_digits r) = true.
Proof.
  induction r as [|x r IH]; [reflexivity|]. cbn [leading_digits].
  destruct (is_digit x) eqn:E; [cbn [forallb]; rewrite E, IH; reflexivity|reflexivity].
Qed.

Lemma alpha_E c : (69 =? c) || (101 =? c) = true ->
  in_list c [89; 121; 43] = false -> in_list c [78; 110; 82; 114; 45] = false ->
  in_list c [76; 108; 61; 72; 104] = false /\ in_list c [65; 97; 33] = false.
Proof.
  intros H _ _. apply orb_true_iff in H. destruct H as [H|H]; apply N.eqb_eq in H; subst c; split; reflexivity.
Qed.

(* one answer of the grammar's reader: the class of its character; for '!' and 'A' the digits that follow *)
Lemma parse_fs_cons f c r G : parse_fs (S f) (c :: r) = Some G ->
  exists g r' G', G = g :: G' /\ parse_fs f r' = Some G' /\
    ((In c [43; 89; 121] /\ g = GAccept 0 /\ r' = r) \/
     (In c [45; 78; 110; 82; 114; 69; 101] /\ g = GReject /\ r' = r) \/
     (In c [61; 76; 108; 72; 104] /\ g = GDefer /\ r' = r) \/
     (In c [33; 65; 97] /\ leading_digits r <> [] /\ g = GAccept (dec_value (leading_digits r) 0) /\
      r' = skipn (length (leading_digits r)) r)).
Proof.
  rewrite parse_fs_S. cbv zeta.
  (* c is in the list L of its class, g is the answer read, r' what is read on *)
  assert (Hcls : forall L g r', existsb (fun x => x =? c) L = true ->
            match parse_fs f r' with Some l => Some (g :: l) | None => None end = Some G ->
            In c L /\ exists G', G = g :: G' /\ parse_fs f r' = Some G').
  { intros L g r' HL H. split.
    - apply existsb_exists in HL. destruct HL as (x&Hx&E). apply N.eqb_eq in E. subst x. exact Hx.
    - destruct (parse_fs f r') as [G'|]; [|discriminate]. injection H as <-. exists G'. split; reflexivity. }
  destruct (existsb _ [43; 89; 121]) eqn:E1.
  { intros H. destruct (Hcls _ _ _ E1 H) as (Hc&G'&->&Eg). exists (GAccept 0), r, G'. auto 8. }
  destruct (existsb _ [45; 78; 110; 82; 114; 69; 101]) eqn:E2.
  { intros H. destruct (Hcls _ _ _ E2 H) as (Hc&G'&->&Eg). exists GReject, r, G'. auto 8. }
  destruct (existsb _ [61; 76; 108; 72; 104]) eqn:E3.
  { intros H. destruct (Hcls _ _ _ E3 H) as (Hc&G'&->&Eg). exists GDefer, r, G'. auto 8. }
  (* '!' and 'A': the digits that follow are the offset *)
  destruct (existsb _ [33; 65; 97]) eqn:E4; [|discriminate].
  destruct (leading_digits r) as [|d ds] eqn:El; [discriminate|]. rewrite <- El. intros H.
  destruct (Hcls _ _ _ E4 H) as (Hc&G'&->&Eg).
  eexists. eexists. exists G'. split; [reflexivity|]. split; [exact Eg|]. right; right; right.
  split; [exact Hc|]. split; [rewrite El; discriminate|]. split; reflexivity.
Qed.

Lemma parse_answers_offset f c r n acc : In c [33; 65; 97] ->
  parse_answers (S f) (c :: r) (S n) acc =
  match leading_digits r with
  | [] => None
  | ds => let off := atoi_ignore_err ds in
          parse_answers f (skipn (length ds) r) n
            (PAns AAccept (if (Z.of_N ProtocolOffsetSizeLimit <? off)%Z then 0%Z else off) :: acc)
  end.
Proof. intros [<-|[<-|[<-|[]]]]; reflexivity. Qed.

(* whenever both parsers accept an answer string (offsets within the protocol limit), they read the
   same answers *)
Theorem fs_agree : forall f r G, parse_fs f r = Some G -> Forall off_small G ->
  forall f' n acc L, parse_answers f' r n acc = Some L -> L = rev acc ++ map conv G.
Proof.
  induction f as [|f IH]; intros r G Hg Hs f' n acc L Hl; [discriminate|].
  destruct f' as [|f']; [discriminate|].
  destruct r as [|c r].
  { cbn in Hg, Hl. injection Hg as <-. injection Hl as <-. rewrite rev'_rev, app_nil_r. reflexivity. }
  destruct n as [|n]; [discriminate|].
  destruct (parse_fs_cons _ _ _ _ Hg) as (g&r'&G'&->&Eg&Hcase). inversion Hs as [|? ? Ho Hs']; subst.
  (* the library's reader takes the same step *)
  assert (Hstep : parse_answers f' r' n (conv g :: acc) = Some L).
  { destruct Hcase as [(Hc&->&->)|[(Hc&->&->)|[(Hc&->&->)|(Hc&Hd&->&->)]]].
    - destruct Hc as [<-|[<-|[<-|[]]]]; exact Hl.
    - destruct Hc as [<-|[<-|[<-|[<-|[<-|[<-|[<-|[]]]]]]]]; first [exact Hl|discriminate Hl].
    - destruct Hc as [<-|[<-|[<-|[<-|[<-|[]]]]]]; exact Hl.
    - rewrite (parse_answers_offset _ _ _ _ _ Hc) in Hl. cbv zeta in Hl. cbn [off_small] in Ho.
      pose proof (leading_digits_digits r) as Hdd. destruct (leading_digits r) as [|d ds]; [congruence|]. set (D := d :: ds) in *.
      rewrite (atoi_digits D) in Hl by (try discriminate; exact Hdd).
      assert (E1 : (9223372036854775807 <? dec_value D 0) = false) by lia. rewrite E1 in Hl.
      assert (E2 : (Z.of_N ProtocolOffsetSizeLimit <? Z.of_N (dec_value D 0))%Z = false) by (unfold ProtocolOffsetSizeLimit; lia).
      rewrite E2 in Hl. exact Hl. }
  rewrite (IH _ _ Eg Hs' _ _ _ _ Hstep). cbn [rev map]. rewrite <- app_assoc. reflexivity.
Qed.

Lemma dec_of_Z_N n : dec_of_Z (Z.of_N n) = dec_of_N n.
Proof. destruct n; reflexivity. Qed.

Lemma ndigits_aux_at_most f : forall n, (ndigits_aux f n <= S f)%nat.
Proof. induction f as [|f IH]; intros n; cbn [ndigits_aux]; [lia|]. destruct (n <? 10); [lia|]. specialize (IH (n / 10)). lia. Qed.
Lemma dec_len n : (length (dec_of_N n) <= 41)%nat.
Proof.
  unfold dec_of_N, digitsk. rewrite map_length, rev_length, seq_length. unfold ndigits. apply ndigits_aux_at_most.
Qed.

Lemma write_compressed_off s p off s1 : write_compressed s p (Z.of_N off) = ROk s1 ->
  off <= N.of_nat (length (o_cdata p)) /\ wire s1 = wire s ++ xbytes p off /\ s_in s1 = s_in s /\ s_h s1 = s_h s.
Proof.
  unfold write_compressed, xbytes. cbv zeta. set (t := firstn 80 (o_title p)).
  destruct ((Z.of_N off <? 0)%Z || (Z.of_nat (length (o_cdata p)) <? Z.of_N off)%Z) eqn:E1; [discriminate|].
  destruct (Z.of_nat (length (o_cdata p)) <? 6)%Z; [discriminate|].
  rewrite dec_of_Z_N. replace (Z.to_nat (Z.of_N off)) with (N.to_nat off) by lia.
  pose proof (dec_len off) as Hl. pose proof (firstn_le_length 80 (o_title p)) as Ht.
  assert (Hm : N.of_nat (length t + length (dec_of_N off) + 2) mod 256 = N.of_nat (length t + length (dec_of_N off) + 2)).
  { apply N.mod_small. unfold t. rewrite firstn_length. lia. }
  rewrite Hm. set (d := skipn (N.to_nat off) (o_cdata p)).
  intros H.
  assert (Hs : s1 = wr (wr s ([CHRSOH; N.of_nat (length t + length (dec_of_N off) + 2)] ++ t ++ [CHRNUL] ++ dec_of_N off ++ [CHRNUL]))
                       (data_chunks (S (length d)) d ++ [CHREOT; (256 - sumN d mod 256) mod 256])) by congruence.
  subst s1. split; [lia|]. split; [|split; reflexivity].
  rewrite !wire_wr, <- app_assoc. f_equal. change CHRSOH with 1. change CHRNUL with 0. change CHREOT with 4.
  cbn [app]. repeat (rewrite <- app_assoc; cbn [app]). reflexivity.
Qed.

(* what send_accepted writes for the answers read by the grammar, and how the grammar reads it *)
Lemma send_accepted_conv : forall B G s sent s4 sent', length G = length B ->
  send_accepted s B (map conv G) sent = ROk (s4, sent') ->
  wire s4 = wire s ++ xbytes_all B G /\ s_in s4 = s_in s /\
  Forall2 off_fits B G.
Proof.
  induction B as [|p ps IH]; intros G s sent s4 sent' Hl H.
  - destruct G; [|discriminate]. cbn in H. injection H as <- _. cbn [xbytes_all]. rewrite app_nil_r. repeat split. constructor.
  - destruct G as [|g G]; [discriminate|]. cbn [length] in Hl. injection Hl as Hl.
    cbn [map send_accepted] in H. destruct g as [off| |]; cbn [conv] in H.
    + destruct (write_compressed s p (Z.of_N off)) as [s1|e s1|] eqn:Ew; try discriminate.
      destruct (write_compressed_off _ _ _ _ Ew) as (Ho&W1&I1&_).
      destruct (IH G s1 _ s4 sent' Hl H) as (W4&I4&F). cbn [xbytes_all].
      split; [rewrite W4, W1, <- app_assoc; reflexivity|]. split; [congruence|]. constructor; assumption.
    + destruct (IH G s _ s4 sent' Hl H) as (W4&I4&F). cbn [xbytes_all app]. repeat split; try assumption. constructor; [exact I|assumption].
    + destruct (IH G _ _ s4 sent' Hl H) as (W4&I4&F). cbn [xbytes_all app]. repeat split; try assumption. constructor; [exact I|assumption].
Qed.

(* The class of peers of sender_turn, narrower than needed.  Of a line l of the peer's stream it asks
   (1) that if the grammar takes l for a comment (first byte ';'), so does the library after its
       cleanString (false only of lines like ";<NUL>": clean_comment_cx);
   (2) that the offsets asked for in an answer line respect the protocol limit 999999 (above it the
       library restarts at 0 and the grammar blames the library: offset_limit_cx).
   (1) is not needed (comment_clean_cases); ConformOneP.elem_off is (2) alone, and one_side_conforms asks
   only that. *)
Definition elem_ok (e : elem) : Prop :=
  match e with
  | Line l => (is_comment l = true -> prefixb [59] (clean_string l) = true) /\
              (forall G, fs_answers l = Some G -> Forall off_small G)
  | _ => True
  end.

Example clean_comment_cx : clean_string [59; 0] = [].
Proof. vm_compute. reflexivity. Qed.

Lemma leading_digits_split r : r = leading_digits r ++ skipn (length (leading_digits r)) r.
Proof.
  induction r as [|x r IH]; [reflexivity|]. cbn [leading_digits].
  destruct (is_digit x); [cbn [length skipn app]; f_equal; exact IH|reflexivity].
Qed.

Lemma parse_fs_okb : forall f r G, parse_fs f r = Some G -> Forall (fun c => okb c = true) r.
Proof.
  induction f as [|f IH]; intros r G H; [discriminate|]. destruct r as [|c r]; [constructor|].
  destruct (parse_fs_cons _ _ _ _ H) as (g&r'&G'&_&Eg&Hcase). apply IH in Eg.
  assert (Hin : forall L, In c L -> forallb okb L = true -> okb c = true)
    by (intros L Hc HL; exact (proj1 (forallb_forall _ _) HL c Hc)).
  destruct Hcase as [(Hc&_&->)|[(Hc&_&->)|[(Hc&_&->)|(Hc&_&_&->)]]]; (constructor; [eapply Hin; [exact Hc|reflexivity]|]); try exact Eg.
  rewrite (leading_digits_split r). apply Forall_app. split; [|exact Eg].
  apply (forallb_Forall is_digit); [|apply leading_digits_digits]. intros x Hd. unfold is_digit in Hd. unfold okb, is_space_rune. lia.
Qed.

Lemma fs_answers_some l G : fs_answers l = Some G ->
  exists r, l = 70 :: 83 :: 32 :: r /\ parse_fs (S (length r)) r = Some G.
Proof.
  unfold fs_answers. intros H.
  destruct l as [|a l]; [discriminate|].
  destruct (N.eq_dec a 70) as [->|Ha]; [|rewrite match_lit_70 in H by exact Ha; discriminate].
  destruct l as [|b l]; [discriminate|].
  destruct (N.eq_dec b 83) as [->|Hb]; [|rewrite match_lit_83 in H by exact Hb; discriminate].
  destruct l as [|c l]; [discriminate|].
  destruct (N.eq_dec c 32) as [->|Hc]; [|rewrite match_lit_32 in H by exact Hc; discriminate].
  exists l. split; [reflexivity|exact H].
Qed.

Lemma fs_line_clean l g G : fs_answers l = Some (g :: G) -> clean_string l = l /\ prefixb [70; 83; 32] l = true.
Proof.
  intros H. destruct (fs_answers_some _ _ H) as (r&->&Hp). split; [|reflexivity].
  pose proof (parse_fs_okb _ _ _ Hp) as Hok.
  destruct (exists_last (l := r)) as (r'&y&->).
  { intros ->. discriminate Hp. }
  apply Forall_app in Hok. destruct Hok as [_ Hy]. inversion Hy as [|? ? Hy' _]; subst.
  apply (clean_string_id 70 _ y); [reflexivity|exact Hy'|].
  do 3 apply ends_with_cons. exists r'. reflexivity.
Qed.

Lemma next_cmd_theirs_bad who mine e theirs a b f : (forall l, e <> Line l) ->
  exists k, next_cmd (S f) (mkst who mine (e :: theirs) a b) (negb who) = inr (VBad (negb who) 3 k).
Proof. intros H. cbn [next_cmd]. rewrite pop_theirs. destruct e; [exfalso; eapply H; reflexivity|eexists; reflexivity..]. Qed.

Lemma negb_neq r : negb r <> r.
Proof. destruct r; discriminate. Qed.

Lemma skipn_add {A} : forall (b a : nat) (l : list A), skipn a (skipn b l) = skipn (b + a) l.
Proof.
  induction b as [|b IH]; intros a l; [reflexivity|]. destruct l as [|x l]; [cbn; destruct a; reflexivity|]. cbn [skipn Nat.add]. apply IH.
Qed.

Lemma trim_right_skipn : forall fuel rs, exists j, trim_right_space_rev fuel rs = skipn j rs.
Proof.
  induction fuel as [|f IH]; intros rs; [exists 0%nat; reflexivity|]. cbn [trim_right_space_rev].
  destruct rs as [|b rs']; [exists 0%nat; reflexivity|].
  destruct (decode_last_rune (b :: rs')) as [r n]. destruct (is_space_rune r); [|exists 0%nat; reflexivity].
  destruct (IH (skipn n (b :: rs'))) as [j Hj]. exists (n + j)%nat. rewrite Hj. apply skipn_add.
Qed.

Lemma trim_space_comment m : trim_space (59 :: m) = [] \/ exists m', trim_space (59 :: m) = 59 :: m'.
Proof.
  unfold trim_space, trim_space_go.
  assert (L : trim_left_space (length (59 :: m)) (59 :: m) = 59 :: m) by reflexivity.
  rewrite L. rewrite (rev'_rev (59 :: m)). cbn [rev].
  destruct (trim_right_skipn (length (59 :: m)) (rev m ++ [59])) as [j Hj]. rewrite Hj, rev'_rev.
  destruct (Nat.le_gt_cases j (length (rev m))) as [Hle|Hgt].
  - right. rewrite skipn_app. replace (j - length (rev m))%nat with 0%nat by lia. cbn [skipn].
    rewrite rev_app_distr. cbn [rev app]. eexists. reflexivity.
  - left. rewrite skipn_all2; [reflexivity|]. rewrite app_length. cbn [length]. lia.
Qed.

(* a line that is a comment for the grammar (first byte ';') is, after cleanString, a comment for the
   library or the EMPTY line (clean_comment_cx: ";<NUL>"), which the library skips in its proposal loop
   and refuses while it waits for an answer: nothing need be asked of the peer's comment lines *)
Lemma comment_clean_cases l : is_comment l = true -> clean_string l = [] \/ prefixb [59] (clean_string l) = true.
Proof.
  rewrite is_comment_prefix. intros Hc. destruct (prefixb_head _ _ _ Hc) as (m&->&_).
  unfold clean_string. destruct (trim_space_comment m) as [E|[m' E]]; rewrite E; [left; reflexivity|].
  change (59 =? 0) with false. cbv iota.
  destruct (rev' (59 :: m')) as [|z back] eqn:Er; [right; reflexivity|].
  destruct z as [|pz]; [|right; reflexivity].
  destruct back as [|y back']; [left; reflexivity|].
  rewrite rev'_rev in *. apply (f_equal (@rev N)) in Er. rewrite rev_involutive in Er. cbn [rev] in Er.
  destruct (rev back') as [|u t]; [left; reflexivity|]. cbn [app] in Er. injection Er as <- _. right. reflexivity.
Qed.

(* a transfer phase that succeeds: the answers were parsed, the accepted proposals sent, and the
   session goes on (the peek leaves input and output as they are) *)
Lemma ho_transfer_ok B reply s3 q s1 : ho_transfer B reply s3 = ROk (q, s1) ->
  q = false /\ exists astr ans s4 sent, slice_from 3 reply = Some astr /\
    parse_answers (S (length astr)) astr (length B) [] = Some ans /\
    send_accepted s3 B ans [] = ROk (s4, sent) /\ wire s1 = wire s4 /\ s_in s1 = s_in s4.
Proof.
  unfold ho_transfer. destruct (slice_from 3 reply) as [astr|]; [|discriminate].
  destruct (parse_answers _ astr _ []) as [ans|] eqn:Epa; [|discriminate].
  destruct (send_accepted s3 B ans []) as [[s4 sent]|e s4|] eqn:Esa; try discriminate.
  destruct (peek_cases (rev' sent) s4) as [[_ Hp]|[(b0&r0&_&_&Hp)|(b0&r0&e&s'&_&_&_&Hp)]]; rewrite Hp; try discriminate.
  intros H. injection H as <- <-. split; [reflexivity|]. exists astr, ans, s4, sent.
  split; [reflexivity|]. split; [exact Epa|]. split; [exact Esa|]. split.
  - exact (proj1 (proj2 (marked_io _ _ _))).
  - exact (proj2 (proj2 (marked_io _ _ _))).
Qed.

(* what a side writes from the start of its own turn on: FQ; or FF and then what it writes from the peer's
   turn on; or a block of at most five of its proposals, after which it waits for the answer line *)
Lemma send_tail s q s1 : handle_outbound s = ROk (q, s1) ->
  (q = true /\ tailw true s = [70; 81; 13]) \/
  (q = false /\ s_in s1 = s_in s /\ tailw true s = [70; 70] ++ 13 :: tailw false s1) \/
  (exists B T s2, B <> [] /\ (length B <= 5)%nat /\ (forall x, In x B -> In x (hob s)) /\
     tailw true s = proposal_bytes B ++ T /\ s_in s2 = s_in s /\ wire (final true s) = wire s2 ++ T /\
     match read_reply (S (length (s_in s2))) s2 with
     | ROk (reply, s3) => ho_transfer B reply s3 = ROk (q, s1)
     | _ => False
     end).
Proof.
  intros Hho. destruct (outbound s) as [props s0] eqn:Eo. destruct props as [|p ps].
  - pose proof Hho as Hho'. rewrite handle_outbound_eq, Eo in Hho'. cbv zeta in Hho'.
    destruct (outbound_block _ _ _ Eo) as (_&I0&O0&_&_).
    assert (Eq : q = s_remote_nomsgs s0) by congruence.
    assert (Es1 : s1 = wr s0 (if q then [70; 81; 13] else [70; 70; 13])) by (rewrite Eq; congruence).
    destruct q; [left|right; left]; (split; [reflexivity|]).
    + apply tailw_intro. rewrite (final_send_quit _ _ Hho), Es1, wire_wr, O0. reflexivity.
    + split; [rewrite Es1; exact I0|]. apply tailw_intro.
      rewrite (final_send_ok _ _ Hho), tailw_eq, Es1, wire_wr, O0, <- app_assoc. reflexivity.
  - right; right. destruct (send_start _ _ _ _ Eo) as (Bne&HB&I2&W2&_&_&Hstep). cbv zeta in *.
    destruct (grows_wire _ _ (send_grows _ _ _ _ Eo)) as [T HT].
    eexists. exists T. eexists. split; [exact Bne|].
    split; [change (N.to_nat MaxBlockSize) with 5%nat; apply firstn_le_length|]. split; [exact HB|].
    split; [apply tailw_intro; rewrite HT, W2, <- app_assoc; reflexivity|]. split; [exact I2|]. split; [exact HT|].
    rewrite Hho in Hstep. destruct (read_reply _ _) as [[reply s3]|e s3|]; [symmetry; exact Hstep|discriminate|discriminate].
Qed.

(* All that the sending turn needs of the peer's lines is that the offsets asked for in an answer line
   respect the limit.  It is proved for any predicate P on elements that says at least this of a line:
   ConformOneP.elem_off (sender_turn2), which says just this, and elem_ok (sender_turn). *)
Section AnyPeer.
Variable P : elem -> Prop.
Hypothesis P_off : forall l, P (Line l) -> forall G, fs_answers l = Some G -> Forall off_small G.

(* the library waits for the answer line, the grammar looks for the peer's next command: either
   the grammar finds fault with the peer, or both have read the same line *)
Lemma reply_sync r mine : forall f s reply s3, read_reply f s = ROk (reply, s3) -> Forall P (toks (s_in s)) ->
  forall F a b, (length (toks (s_in s)) < F)%nat ->
  match next_cmd F (mkst r mine (toks (s_in s)) a b) (negb r) with
  | inr v => notblame r v
  | inl None => True
  | inl (Some (l, st3)) =>
      match fs_answers l with
      | Some (g :: G) => l = reply /\ Forall off_small (g :: G) /\ Forall P (toks (s_in s3)) /\
                         (length (toks (s_in s3)) < length (toks (s_in s)))%nat /\
                         exists b', st3 = mkst r mine (toks (s_in s3)) a b'
      | _ => True
      end
  end.
Proof.
  induction f as [|f IH]; intros s reply s3 H Hok F a b HF; [discriminate|]. cbn [read_reply] in H.
  destruct (next_line true s) as [[line s1]|e s1|] eqn:En; try discriminate.
  destruct (peer_line _ _ _ _ En) as (l&rr&_&->&->&[Ht|(e&rest&Ht&Hne)]); (destruct F as [|F]; [lia|]).
  2:{ rewrite Ht. destruct (next_cmd_theirs_bad r mine e rest a b F Hne) as [k ->]. apply negb_neq. }
  rewrite Ht in *. inversion Hok as [|? ? Ho Hok']; subst. cbn [length] in HF.
  cbn [next_cmd]. rewrite pop_theirs. destruct (is_comment l) eqn:Ec.
  - destruct (comment_clean_cases l Ec) as [E0|Hc]; [rewrite E0 in H; cbn in H; discriminate H|].
    destruct (prefixb_head _ _ _ Hc) as (m&Em&_). rewrite Em in H. change (prefixb [70; 83; 32] (59 :: m)) with false in H.
    change (prefixb [59] (59 :: m)) with true in H. cbv iota in H.
    specialize (IH (set_in s rr) reply s3 H Hok' F a (S b) ltac:(cbn [set_in s_in]; lia)).
    cbn [set_in s_in] in IH.
    destruct (next_cmd F (mkst r mine (toks rr) a (S b)) (negb r)) as [[[l' st3]|]|v]; try exact IH.
    destruct (fs_answers l') as [[|g G]|]; try exact I.
    destruct IH as (I1&I2&I3&I4&I5). repeat split; try assumption. cbn [length]. lia.
  - destruct (fs_answers l) as [[|g G]|] eqn:Ef; try exact I.
    destruct (fs_line_clean l g G Ef) as [Hcl Hp]. rewrite Hcl, Hp in H. injection H as <- <-.
    split; [reflexivity|]. split; [exact (P_off _ Ho _ Ef)|]. cbn [set_in s_in]. split; [exact Hok'|]. split; [cbn [length]; lia|].
    eexists. reflexivity.
Qed.

(* r is the role of the library (true = master).  The validator's state is synchronised with
   the library's state s at the start of a turn of the library: the elements of the library
   still to be examined are those of what the library will write from now on (tailw true s),
   the elements of the peer those of the library's unread input.  Whatever the peer sends,
   if the library's turn succeeds then either the validator does not blame the library, or the
   validator reaches the peer's turn in a state synchronised with the library's. *)
Theorem sender_turn_any r s q s1 f a b :
  handle_outbound s = ROk (q, s1) -> Forall blk_conf (hob s) -> Forall P (toks (s_in s)) ->
  (length (toks (tailw true s)) + length (toks (s_in s)) < S f)%nat ->
  notblame r (Grammar.turns (S f) (mkst r (toks (tailw true s)) (toks (s_in s)) a b) r) \/
  (q = false /\ exists a' b',
     Grammar.turns (S f) (mkst r (toks (tailw true s)) (toks (s_in s)) a b) r =
     Grammar.turns f (mkst r (toks (tailw false s1)) (toks (s_in s1)) a' b') (negb r) /\
     Forall P (toks (s_in s1)) /\ Forall blk_conf (hob s1) /\
     (length (toks (tailw false s1)) + length (toks (s_in s1)) < f)%nat).
Proof.
  intros Hho Hc Hok Hf. pose proof (handle_outbound_hob _ _ _ Hho) as Hhob.
  destruct (send_tail _ _ _ Hho) as [[-> Ht]|[(->&Hi&Ht)|(B&T2&s2&Bne&Hl5&HB&Ht&I2&HT2&Hstep)]]; rewrite Ht in *.
  - (* FQ *)
    left. rewrite turns_own_fq. destruct (toks (s_in s)); [exact I|apply negb_neq].
  - (* FF *)
    right. split; [reflexivity|]. exists (S a), b. rewrite turns_own_ff, Hi, Hhob.
    split; [reflexivity|]. split; [exact Hok|]. split; [exact Hc|].
    rewrite toks_line in Hf by exact ff_line_ok. cbn [length] in Hf. lia.
  - (* a block *)
    pose proof (incl_Forall HB Hc) as HcB.
    pose proof (read_reply_eqo (S (length (s_in s2))) s2) as Hq.
    destruct (read_reply (S (length (s_in s2))) s2) as [[reply s3]|e s3|] eqn:Er; try contradiction.
    cbn [res_eqo] in Hq. pose proof (wire_eqo _ _ Hq) as W3.
    destruct (ho_transfer_ok _ _ _ _ _ Hstep) as (->&astr&ans&s4&sent_rev&Esl&Epa&Esa&W1&I1).
    rewrite turns_own_block by assumption. unfold after_block.
    rewrite toks_proposal_bytes in Hf by exact HcB.
    (* the peer's answer line *)
    rewrite <- I2 in Hok, Hf |- *.
    pose proof (reply_sync r (toks T2) _ _ _ _ Er Hok _ (S a + length B)%nat b (mkst_fuel r (toks T2) _ (S a + length B) b)) as Hrs.
    destruct (next_cmd _ _ (negb r)) as [[[l st3]|]|v]; [|left; apply negb_neq|left; exact Hrs].
    destruct (fs_answers l) as [G|] eqn:Ef; [|left; apply negb_neq].
    destruct (negb (length G =? length (map gprop_of B))%nat) eqn:Elen; [left; apply negb_neq|].
    apply negb_false_iff, Nat.eqb_eq in Elen. rewrite map_length in Elen.
    destruct G as [|g G]; [destruct B; [congruence|discriminate]|].
    destruct Hrs as (->&Hsmall&Hok3&Hlen3&b'&->).
    (* both parsers read the same answers *)
    destruct (fs_answers_some _ _ Ef) as (rr&->&Epf). cbn in Esl. injection Esl as <-.
    pose proof (fs_agree _ _ _ Epf Hsmall _ _ _ _ Epa) as Eans. cbn [rev app] in Eans. subst ans.
    destruct (send_accepted_conv B (g :: G) s3 [] s4 sent_rev Elen Esa) as (W4&I43&HF2).
    destruct (send_transfers_off r (toks (s_in s3)) (toks (tailw false s1)) B (g :: G) (S a + length B) b' HcB HF2) as (E&a'&HE&Hst).
    assert (ET2 : T2 = xbytes_all B (g :: G) ++ tailw false s1).
    { pose proof (tailw_eq false s1) as Hw. rewrite <- (final_send_ok _ _ Hho), HT2, W1, W4, <- W3, <- app_assoc in Hw.
      apply app_inv_head in Hw. exact Hw. }
    rewrite ET2, HE in *. rewrite Hst.
    right. split; [reflexivity|]. exists a', b'. rewrite I1, I43, Hhob.
    split; [reflexivity|]. split; [exact Hok3|]. split; [exact Hc|].
    rewrite app_length in Hf. cbn [length] in Hf. rewrite app_length in Hf. clear -Hf Hlen3. lia.
Qed.

End AnyPeer.

Theorem sender_turn r s q s1 f a b :
  handle_outbound s = ROk (q, s1) -> Forall blk_conf (hob s) -> Forall elem_ok (toks (s_in s)) ->
  (length (toks (tailw true s)) + length (toks (s_in s)) < S f)%nat ->
  notblame r (Grammar.turns (S f) (mkst r (toks (tailw true s)) (toks (s_in s)) a b) r) \/
  (q = false /\ exists a' b',
     Grammar.turns (S f) (mkst r (toks (tailw true s)) (toks (s_in s)) a b) r =
     Grammar.turns f (mkst r (toks (tailw false s1)) (toks (s_in s1)) a' b') (negb r) /\
     Forall elem_ok (toks (s_in s1)) /\ Forall blk_conf (hob s1) /\
     (length (toks (tailw false s1)) + length (toks (s_in s1)) < f)%nat).
Proof. exact (sender_turn_any elem_ok (fun l H => proj2 H) r s q s1 f a b). Qed.

(* kx_: the closed examples of this file.  A prepared proposal with the right size field, and a side with a
   given SID name, forwarding list, MOTD and outbox *)
Definition kx_prop (m t : bytes) : oprop :=
  {| o_mid := m; o_title := t; o_plain_title := t; o_size := N.of_nat (length (dx_msg m)); o_cdata := Dec.compress true (dx_msg m) |}.
Definition kx_side (master : bool) (name : bytes) (fw : list bytes) (motd : list bytes) (ob : list oprop) : side_cfg :=
  {| c_master := master; c_motd := motd;
     c_hs := {| hs_fw := fw; hs_name := name; hs_version := [49]; hs_target := [88];
                hs_mycall := [76;65;49;66]; hs_locator := []; hs_master := master; hs_gzip := false; hs_cb := None |};
     c_handler := {| h_present := true; h_prepare_err := false; h_outbox := ob; h_gone := []; h_policy := []; h_fail := [] |} |}.
Definition kx_good (m : bool) (ob : list oprop) : side_cfg := kx_side m [119] [[76;65;49;66]] [] ob.
(* the complete session of two sides (reached by the iteration from the empty input): it is a closed
   pair, both results are nil, and the verdict of the grammar.  8 rounds: any number from the round on at which
   the input is stable gives the same (DeliverP.cx_in_stop); the examples are stable after at most 6 *)
Definition kx_run (a b : side_cfg) : bool * xres * xres * verdict :=
  let ia := cx_in 8 a b in let ib := x_wire (exchange a ia) in
  (beq_bytes (x_wire (exchange b ib)) ia, x_res (exchange a ia), x_res (exchange b ib),
   if c_master a then validate ib ia else validate ia ib).

(* How the closed examples are checked.  kx_run iterates eight rounds from the empty input and then runs
   both sides twice more; evaluated as it stands, every round decodes every message again and the checker
   (which has no virtual machine) pays for all of it.  Instead: the iteration is evaluated up to the round
   k at which it meets a closed pair, one further round shows that the pair is closed (the iteration then
   stays there: DeliverP.cx_in_stop), and that round also gives both results.  Everything is evaluated inside
   ONE term, kx_check, whose arguments a and b are shared, so that the compression of each message of an
   outbox is paid once. *)
Definition res_wire (o : outcome) : xres * bytes := (x_res o, x_wire o).
Definition kx_check (k : nat) (a b : side_cfg) (ia ib : bytes) : bytes * (xres * bytes) * (xres * bytes) * verdict :=
  (cx_in k a b, res_wire (exchange a ia), res_wire (exchange b ib), if c_master a then validate ib ia else validate ia ib).

Lemma kx_run_closed k a b ia ib ra rb v : (k <= 8)%nat ->
  kx_check k a b ia ib = (ia, (ra, ib), (rb, ia), v) -> kx_run a b = (true, ra, rb, v).
Proof.
  intros Hk H. unfold kx_check, res_wire in H. injection H as Hi Ra Wa Rb Wb Hv.
  assert (E : cx_in 8 a b = ia) by (rewrite (cx_in_stop k 8 a b Hk); rewrite Hi; [reflexivity|rewrite Wa; exact Wb]).
  unfold kx_run. cbv zeta. rewrite E, Wa, Wb, Ra, Rb, Hv, beq_bytes_refl. reflexivity.
Qed.

(* the two streams are computed, not written out *)
Ltac kx_closed k :=
  lazymatch goal with |- kx_run ?a ?b = _ =>
    let ia := eval vm_compute in (cx_in k a b) in
    let ib := eval vm_compute in (x_wire (exchange a ia)) in
    apply (kx_run_closed k a b ia ib); [lia|vm_compute; reflexivity]
  end.

(* an instance of pair_conforms, by computation: one message each way *)
Example kx_conforming : kx_run (kx_good true [kx_prop [65;49] [116]]) (kx_good false [kx_prop [66;49] [116]]) = (true, XNil, XNil, VOk).
Proof. unfold kx_prop. rewrite dx_cdata_A1. kx_closed 4%nat. Qed.

(* hypotheses of side_conf that are needed (no example is given for a NUL in the title, the bound 10^41 and
   hs_cfg_ok).  Each of these complete sessions of two library sides, both ending with nil, also refutes
   Properties/C05.C05_conforming_statement, whose configuration is arbitrary: the side at fault is a
   library side *)
(* size_conf: the size field is not the size of the message inside (DeliverP.dx_a, dx_b: 50 for 49) *)
Example kx_wrong_size : kx_run dx_a dx_b = (true, XNil, XNil, VBad false 9 6).
Proof.
  (* the closed pair of DeliverP.dx_iter, with the evaluations made there; only validate is computed here *)
  rewrite dx_a_eq, dx_b_eq. unfold kx_run. cbv zeta.
  rewrite (cx_in_stop 6 8 dx_a_lit dx_b_lit) by (try lia; exact dx_in6_stable).
  unfold cx_in. rewrite dx_in6_eq, dx_oa6_eq, dx_ob6_eq. vm_compute. reflexivity.
Qed.
(* sid_conf: a '-' in the name of the SID, slave and master *)
Example kx_dash_in_name_slave :
  kx_run (kx_good true []) (kx_side false [119;45;120] [[76;65;49;66]] [] []) = (true, XNil, XNil, VBad false 31 1).
Proof. kx_closed 1%nat. Qed.
Example kx_dash_in_name_master :
  kx_run (kx_side true [119;45;120] [[76;65;49;66]] [] []) (kx_good false []) = (true, XNil, XNil, VBad true 21 1).
Proof. kx_closed 1%nat. Qed.
(* fw_conf: a '|' in a forwarding address; a '>' at the end of the master's ;FW line *)
Example kx_bar_in_fw : kx_run (kx_good true []) (kx_side false [119] [[76;65;124;66]] [] []) = (true, XNil, XNil, VBad false 32 0).
Proof. kx_closed 1%nat. Qed.
Example kx_prompt_in_fw : kx_run (kx_side true [119] [[76;65;62]] [] []) (kx_good false []) = (true, XNil, XNil, VBad true 23 0).
Proof. kx_closed 1%nat. Qed.
(* mid_conf: a MID that is not alphanumeric; a MID of 13 bytes *)
Example kx_dash_in_mid : kx_run (kx_good true [kx_prop [65;45;49] [116]]) (kx_good false []) = (true, XNil, XNil, VBad true 5 4).
Proof. kx_closed 3%nat. Qed.
Example kx_long_mid :
  kx_run (kx_good true [kx_prop [65;66;67;68;69;70;71;72;73;74;75;76;77] [116]]) (kx_good false []) = (true, XNil, XNil, VBad true 5 4).
Proof. kx_closed 3%nat. Qed.
(* an empty title *)
Example kx_empty_title : kx_run (kx_good true [kx_prop [65;49] []]) (kx_good false []) = (true, XNil, XNil, VBad true 9 5).
Proof. unfold kx_prop. rewrite dx_cdata_A1. kx_closed 3%nat. Qed.
(* the MOTD: a line ";FW: a|b" is harmless for the library slave (the handshakes are compatible) and
   refused by the grammar *)
Example kx_motd :
  kx_run (kx_side true [119] [[76;65;49;66]] [[59;70;87;58;32;97;124;98]] []) (kx_good false []) = (true, XNil, XNil, VBad true 22 0).
Proof. kx_closed 1%nat. Qed.

Definition kx_hello_m : bytes := [91;82;45;49;45;66;50;70;36;93;13] ++ [88;62;13].        (* "[R-1-B2F$]" "X>" *)
Definition kx_verdict (cfg : side_cfg) (peer : bytes) : xres * verdict :=
  let o := exchange cfg peer in (x_res o, if c_master cfg then validate (x_wire o) peer else validate peer (x_wire o)).

(* (1) the two readers of the GREETING disagree: the master's line ";FW: X>" ends the greeting for the
   grammar (it ends with '>'), while the library goes on reading ("FF" and "Z>" are greeting lines for
   it); the library then says FF, reads FQ and ends with nil; the grammar takes the peer's "FF" for the
   answer to the library's FF and then misses a command of the LIBRARY: the library is blamed *)
Definition kx_peer_greeting : bytes :=
  [91;82;45;49;45;66;50;70;36;93;13] ++ [59;70;87;58;32;88;62;13] ++ [70;70;13] ++ [90;62;13] ++ [70;81;13].
Example greeting_desync_cx : kx_verdict (kx_good false []) kx_peer_greeting = (XNil, VBad false 2 4).
Proof. vm_compute. reflexivity. Qed.

(* (2) an OFFSET above the protocol limit: the peer answers "FS !1000000"; the library sends the whole
   message at offset 0 (parse_answers), the grammar expects offset 1000000: the library is blamed *)
Definition kx_peer_offset : bytes := kx_hello_m ++ [70;83;32;33;49;48;48;48;48;48;48;13] ++ [70;70;13].
Example offset_limit_cx : kx_verdict (kx_good false [kx_prop [65;49] [116]]) kx_peer_offset = (XNil, VBad false 9 5).
Proof. unfold kx_prop. rewrite dx_cdata_A1. vm_compute. reflexivity. Qed.

(* (3) the answer 'H' is NOT a deviation for this grammar: parse_answers and parse_fs both read it as a
   deferral (no transfer is due), the session is accepted; likewise small offsets, with leading zeros *)
Example answer_H_accepted : kx_verdict (kx_good false [kx_prop [65;49] [116]]) (kx_hello_m ++ [70;83;32;72;13] ++ [70;70;13]) = (XNil, VOk).
Proof. unfold kx_prop. rewrite dx_cdata_A1. vm_compute. reflexivity. Qed.
Example offset_accepted :
  kx_verdict (kx_good false [kx_prop [65;49] [116]]) (kx_hello_m ++ [70;83;32;33;48;48;55;13] ++ [70;70;13]) = (XNil, VOk).
Proof. unfold kx_prop. rewrite dx_cdata_A1. vm_compute. reflexivity. Qed.

(* Properties/C05.C05_conforming_statement (the same text: Properties/C05.v imports this file) is
   false, even for a conforming configuration of the library side: (1), whose configuration kx_good_conf
   shows conforming (the proof below uses it); and (2), where that is not shown of the outbox entry *)
Definition C05_statement_copy : Prop :=
  forall (cfg : side_cfg) (peer_stream : bytes),
    let o := exchange cfg peer_stream in
    x_res o = XNil ->
    let '(m, s) := if c_master cfg then (x_wire o, peer_stream) else (peer_stream, x_wire o) in
    match validate m s with
    | VOk => True
    | VBad who _ _ => who <> c_master cfg
    end.

Lemma kx_verdict_slave cfg peer r v : c_master cfg = false -> kx_verdict cfg peer = (r, v) ->
  x_res (exchange cfg peer) = r /\ validate peer (x_wire (exchange cfg peer)) = v.
Proof. unfold kx_verdict. cbv zeta. intros -> H. injection H as <- <-. split; reflexivity. Qed.

Theorem C05_statement_is_false : ~ C05_statement_copy.
Proof.
  intros H. specialize (H (kx_good false []) kx_peer_greeting). cbv zeta in H.
  destruct (kx_verdict_slave (kx_good false []) _ _ _ eq_refl greeting_desync_cx) as [E1 E2].
  specialize (H E1). change (c_master (kx_good false [])) with false in H. cbv iota in H. rewrite E2 in H.
  apply H. reflexivity.
Qed.

Lemma alnum_text a : forallb is_alnum a = true -> text_ok a.
Proof. apply forallb_Forall. intros b H. unfold is_alnum, is_digit, is_upper, is_lower in H. lia. Qed.
Lemma alnum_addr a : a <> [] -> forallb is_alnum a = true -> a <> [] /\ text_ok a /\ ~ In 124 a /\ ~ In 62 a.
Proof.
  intros Hn H. split; [exact Hn|]. split; [exact (alnum_text a H)|].
  split; apply (forallb_notin is_alnum); try exact H; reflexivity.
Qed.

(* a handshake configuration with the texts of kx_side conforms if its forwarding addresses do: the
   texts are letters and digits *)
Lemma kx_hs_conf h :
  hs_name h = [119] -> hs_version h = [49] -> hs_target h = [88] -> hs_mycall h = [76;65;49;66] -> hs_locator h = [] ->
  fw_conf (hs_fw h) -> hs_conf h.
Proof.
  intros En Ev Et Em El [Hne Hall]. split; [|split; [exact (conj Hne Hall)|]].
  - unfold hs_cfg_ok. rewrite En, Ev, Et, Em, El. split; [exact Hne|].
    split; [exact (Forall_impl _ (fun a H => conj (proj1 H) (proj1 (proj2 H))) Hall)|].
    repeat split; apply alnum_text; reflexivity.
  - unfold sid_conf. rewrite En, Ev. split; [discriminate|]. split; [discriminate|].
    split; apply (forallb_notin is_alnum); reflexivity.
Qed.

(* the configuration of the counterexample (1), with its empty outbox, is conforming; (2) and (3) use it with
   the outbox [kx_prop A1 t], of which blk_conf is not shown *)
Example kx_good_conf m : hs_conf (c_hs (kx_good m [])) /\ side_conf (kx_good m []).
Proof.
  assert (H : hs_conf (c_hs (kx_good m []))).
  { apply kx_hs_conf; try reflexivity. split; [discriminate|]. constructor; [|constructor].
    apply alnum_addr; [discriminate|reflexivity]. }
  split; [exact H|]. split; [exact H|constructor].
Qed.

(* a comment line that ends with a printable, non-blank ASCII byte still begins with ';' after the library's
   clean_string *)
Lemma comment_clean_ok l y : is_comment l = true -> ends_with y l -> okb y = true -> prefixb [59] (clean_string l) = true.
Proof.
  rewrite is_comment_prefix. intros Hc He Hy. destruct (prefixb_head _ _ _ Hc) as (m&->&_).
  rewrite (clean_string_id 59 m y eq_refl Hy He). reflexivity.
Qed.

Print Assumptions turns_script.
Print Assumptions joint_shape.
Print Assumptions pair_conforms_ms.
Print Assumptions pair_conforms.
Print Assumptions proposal_line_parses.
Print Assumptions transfer_valid_off.
Print Assumptions sid_line_valid.
Print Assumptions fw_line_valid.
Print Assumptions fs_agree.
Print Assumptions comment_clean_cases.
Print Assumptions reply_sync.
Print Assumptions sender_turn.
Print Assumptions C05_statement_is_false.
Print Assumptions greeting_desync_cx.
Print Assumptions offset_limit_cx.
Print Assumptions kx_conforming.
Print Assumptions kx_wrong_size.
