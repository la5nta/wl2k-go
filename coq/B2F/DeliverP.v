(* B2F/DeliverP.v -- liveness and exactly-once delivery (C01) of the two-party session model (B2F/Side.v,
   `exchange`): "a completed exchange delivers every accepted message exactly once, intact"
   (complete_exchange_delivers), the positive counterpart of PairP.two_party_safety_intact.  The complete run is
   given as a closed pair of streams, `closed a b in_a in_b`: each side's input is exactly what the other side
   wrote; PairIter.pair_iter stops exactly at such pairs.  The phase lemmas of PairLines / PairXfer / PairP are
   used forwards, with their full effect on the state (log, h_gone, flags).  Inv, the invariant on the two logs at
   a turn boundary: every outbox entry is either done (gone, exactly one owner event, the one for the peer's
   answer, exactly one / no EvProcess at the peer) or not yet touched, and there is nothing for foreign MIDs.
   `plan` names the two streams of the session from a turn boundary (FQ ends it, FF passes the turn with the flag set,
   a block makes the sender's outbox shrink); both sides fed them follow them, with the invariant (plan_run), and a
   closed pair reads no others (plan_closed: the invariant of PairP with equality, the unread input of each side IS
   what the other will still write). *)
From Coq Require Import List NArith ZArith Bool Lia ZifyN ZifyNat ZifyBool Sorting.Permutation.
From Verif Require Import Base.Bytes Base.BytesP gen.Tables Lzhuf.Dec Msg.Message B2F.Secure B2F.Side B2F.SideP
  B2F.TermP B2F.CodecP B2F.CutP B2F.PairDefs B2F.PairLines B2F.PairXfer B2F.PairHs B2F.PairP B2F.PairIter.
Import ListNotations.
Open Scope N_scope.

Definition cnt (f : event -> bool) (l : list event) : nat := length (filter f l).

Lemma cnt_nil f : cnt f [] = 0%nat.
Proof. reflexivity. Qed.
Lemma cnt_cons f e l : cnt f (e :: l) = ((if f e then 1 else 0) + cnt f l)%nat.
Proof. unfold cnt. cbn [filter]. destruct (f e); reflexivity. Qed.
Lemma cnt_app f a b : cnt f (a ++ b) = (cnt f a + cnt f b)%nat.
Proof. unfold cnt. rewrite filter_app, app_length. reflexivity. Qed.
Lemma cnt_rev f l : cnt f (rev l) = cnt f l.
Proof.
  induction l as [|e l IH]; cbn [rev]; [reflexivity|].
  rewrite cnt_app, !cnt_cons, cnt_nil, IH. lia.
Qed.
Lemma cnt_one f l e : cnt f l = 1%nat -> In e l -> f e = true -> filter f l = [e].
Proof.
  unfold cnt. intros H Hi Hf.
  assert (Hin : In e (filter f l)) by (apply filter_In; split; assumption).
  destruct (filter f l) as [|x [|y r]]; try discriminate. destruct Hin as [->|[]]. reflexivity.
Qed.
Lemma cnt_zero f l : cnt f l = 0%nat -> filter f l = [].
Proof. unfold cnt. destruct (filter f l); [reflexivity|discriminate]. Qed.

(* the filters of interest: what the owner of a message records about it (sent, rejected,
   deferred), and what the peer's handler is given *)
Definition own (m : bytes) (e : event) : bool :=
  match e with EvSetSent m' _ => beq_bytes m' m | EvSetDeferred m' => beq_bytes m' m | _ => false end.
Definition proc (m : bytes) (e : event) : bool :=
  match e with EvProcess m' _ _ => beq_bytes m' m | _ => false end.

(* filters that do not see the bookkeeping events *)
Definition quiet (f : event -> bool) : Prop :=
  f EvPrepare = false /\ f EvGetOutbound = false /\ f EvBlockEnd = false /\ forall m a, f (EvAnswer m a) = false.
Lemma own_quiet m : quiet (own m).
Proof. repeat split. Qed.
Lemma proc_quiet m : quiet (proc m).
Proof. repeat split. Qed.

Definition is_answer (e : event) : Prop := exists m a, e = EvAnswer m a.
Lemma cnt_answers f E : quiet f -> Forall is_answer E -> cnt f E = 0%nat.
Proof.
  intros (_&_&_&Hq) H. induction H as [|e l (m&a&->) _ IH]; [reflexivity|].
  rewrite cnt_cons, Hq, IH. reflexivity.
Qed.

Definition with_gone (h : hstate) (g : list bytes) : hstate :=
  {| h_present := h_present h; h_prepare_err := h_prepare_err h; h_outbox := h_outbox h;
     h_gone := g; h_policy := h_policy h; h_fail := h_fail h |}.
Definition pendh (h : hstate) : list oprop :=
  filter (fun p => negb (mem_bytes (o_mid p) (h_gone h))) (h_outbox h).
(* equal up to the set of MIDs that are gone *)
Definition hsame (h h' : hstate) : Prop := with_gone h [] = with_gone h' [].

Lemma with_gone_self h : with_gone h (h_gone h) = h.
Proof. destruct h; reflexivity. Qed.
Lemma hsame_refl h : hsame h h. Proof. reflexivity. Qed.
Lemma hsame_with_gone h g : hsame (with_gone h g) h. Proof. reflexivity. Qed.
Lemma hsame_trans a b c : hsame a b -> hsame b c -> hsame a c.
Proof. unfold hsame. congruence. Qed.
Lemma hsame_outbox h h' : hsame h h' -> h_outbox h = h_outbox h'.
Proof. intros H. apply (f_equal h_outbox) in H. exact H. Qed.
Lemma hsame_policy h h' m : hsame h h' -> policy_of h m = policy_of h' m.
Proof. intros H. apply (f_equal h_policy) in H. cbn in H. unfold policy_of. rewrite H. reflexivity. Qed.
Lemma hsame_fail h h' : hsame h h' -> h_fail h = h_fail h'.
Proof. intros H. apply (f_equal h_fail) in H. exact H. Qed.
Lemma hsame_present h h' : hsame h h' -> h_present h = h_present h'.
Proof. intros H. apply (f_equal h_present) in H. exact H. Qed.

Lemma mem_bytes_In x l : mem_bytes x l = true <-> In x l.
Proof. apply existsb_beq_In. Qed.
Lemma mem_bytes_notin x l : mem_bytes x l = false <-> ~ In x l.
Proof.
  rewrite <- mem_bytes_In. destruct (mem_bytes x l); split; intros H; try reflexivity; try discriminate.
  exfalso. apply H. reflexivity.
Qed.

Lemma pendh_In h p : In p (pendh h) <-> In p (h_outbox h) /\ ~ In (o_mid p) (h_gone h).
Proof.
  unfold pendh. rewrite filter_In, negb_true_iff, mem_bytes_notin. reflexivity.
Qed.

Lemma outbound_present s : h_present (s_h s) = true ->
  outbound s = (sort_props (pendh (s_h s)), ev s EvGetOutbound).
Proof. intros H. unfold outbound. rewrite H. reflexivity. Qed.

Lemma sort_props_nil l : sort_props l = [] -> l = [].
Proof.
  intros H. pose proof (sort_props_perm l) as P. rewrite H in P. apply Permutation_nil. apply Permutation_sym. exact P.
Qed.

(* more MIDs gone: fewer proposals pending *)
Lemma pend_shrink (g g' : list bytes) : forall l : list oprop,
  (forall m, In m g -> In m g') ->
  (length (filter (fun p => negb (mem_bytes (o_mid p) g')) l) <= length (filter (fun p => negb (mem_bytes (o_mid p) g)) l))%nat.
Proof.
  intros l H. induction l as [|p l IH]; [cbn; lia|]. cbn [filter].
  destruct (mem_bytes (o_mid p) g) eqn:E.
  - apply mem_bytes_In, H, mem_bytes_In in E. rewrite E. cbn [negb]. exact IH.
  - cbn [negb]. destruct (negb (mem_bytes (o_mid p) g')); cbn [length]; lia.
Qed.
Lemma pend_shrink_strict (g g' : list bytes) : forall (l : list oprop) p0,
  (forall m, In m g -> In m g') -> In p0 l -> ~ In (o_mid p0) g -> In (o_mid p0) g' ->
  (length (filter (fun p => negb (mem_bytes (o_mid p) g')) l) < length (filter (fun p => negb (mem_bytes (o_mid p) g)) l))%nat.
Proof.
  intros l p0 H. induction l as [|p l IH]; intros Hi Hn Hg; [destruct Hi|]. cbn [filter].
  pose proof (pend_shrink g g' l H) as Hle.
  destruct Hi as [->|Hi].
  - apply mem_bytes_notin in Hn. apply mem_bytes_In in Hg. rewrite Hn, Hg. cbn [negb length]. lia.
  - specialize (IH Hi Hn Hg).
    destruct (mem_bytes (o_mid p) g) eqn:E.
    + apply mem_bytes_In, H, mem_bytes_In in E. rewrite E. cbn [negb]. exact IH.
    + cbn [negb]. destruct (negb (mem_bytes (o_mid p) g')); cbn [length]; lia.
Qed.

Definition ans_eqb (a b : answer) : bool :=
  match a, b with AAccept, AAccept => true | AReject, AReject => true | ADefer, ADefer => true | _, _ => false end.
Fixpoint sel (a0 : answer) (B : list oprop) (A : list answer) : list bytes :=
  match B, A with
  | p :: ps, a :: r => (if ans_eqb a a0 then [o_mid p] else []) ++ sel a0 ps r
  | _, _ => []
  end.
(* what the owner records for a proposal answered a *)
Definition ev_of (a : answer) (m : bytes) : event :=
  match a with AAccept => EvSetSent m false | AReject => EvSetSent m true | ADefer => EvSetDeferred m end.
Fixpoint own_evs (B : list oprop) (A : list answer) : list event :=
  match B, A with p :: ps, a :: r => ev_of a (o_mid p) :: own_evs ps r | _, _ => [] end.
(* the message inside a prepared proposal *)
Definition pm_data (p : oprop) : bytes :=
  match proposal_message (o_cdata p) with MOk _ d => d | _ => [] end.
Fixpoint proc_evs (B : list oprop) (A : list answer) : list event :=
  match B, A with
  | p :: ps, a :: r => (match a with AAccept => [EvProcess (o_mid p) (pm_data p) true] | _ => [] end) ++ proc_evs ps r
  | _, _ => []
  end.

Definition rejs (sent : list (bytes * bool)) : list bytes := map fst (filter (fun mr => snd mr) sent).
Definition accs (sent : list (bytes * bool)) : list bytes := map fst (filter (fun mr => negb (snd mr)) sent).

Lemma rejs_sent_of B : forall A, rejs (sent_of B A) = sel AReject B A.
Proof.
  unfold rejs. induction B as [|p ps IH]; intros [|a r]; try reflexivity.
  cbn [sent_of sel]. rewrite filter_app, map_app, IH. destruct a; reflexivity.
Qed.
Lemma accs_sent_of B : forall A, accs (sent_of B A) = sel AAccept B A.
Proof.
  unfold accs. induction B as [|p ps IH]; intros [|a r]; try reflexivity.
  cbn [sent_of sel]. rewrite filter_app, map_app, IH. destruct a; reflexivity.
Qed.

Lemma cnt_own_evs f B : forall A,
  (cnt f (map EvSetDeferred (sel ADefer B A)) + cnt f (map (fun m => EvSetSent m true) (sel AReject B A)) +
   cnt f (map (fun m => EvSetSent m false) (sel AAccept B A)))%nat = cnt f (own_evs B A).
Proof.
  induction B as [|p ps IH]; intros [|a r]; try reflexivity.
  cbn [sel own_evs]. rewrite !map_app, !cnt_app, cnt_cons, <- IH.
  destruct a; cbn [ans_eqb map ev_of]; rewrite ?cnt_cons, ?cnt_nil; lia.
Qed.

Lemma In_own_evs e B : forall A, In e (own_evs B A) ->
  In e (map EvSetDeferred (sel ADefer B A)) \/ In e (map (fun m => EvSetSent m true) (sel AReject B A)) \/
  In e (map (fun m => EvSetSent m false) (sel AAccept B A)).
Proof.
  induction B as [|p ps IH]; intros [|a r] H; try destruct H.
  - cbn [sel]. rewrite !map_app. subst e. destruct a; cbn [ans_eqb ev_of map app In]; auto.
  - cbn [sel]. rewrite !map_app. destruct (IH r H) as [K|[K|K]]; [left|right; left|right; right]; apply in_or_app; right; exact K.
Qed.

Lemma sel_In a0 B : forall A m, In m (sel a0 B A) -> exists p, In p B /\ o_mid p = m.
Proof.
  induction B as [|p ps IH]; intros [|a r] m H; try destruct H.
  cbn [sel] in H. apply in_app_or in H. destruct H as [H|H].
  - destruct (ans_eqb a a0); [|destruct H]. destruct H as [<-|[]]. exists p. split; [left|]; reflexivity.
  - destruct (IH r m H) as (q&Hq&E). exists q. split; [right; exact Hq|exact E].
Qed.

(* every MID of the block is in one of the three classes *)
Lemma sel_cover B : forall A p, length A = length B -> In p B ->
  In (o_mid p) (sel ADefer B A) \/ In (o_mid p) (sel AReject B A) \/ In (o_mid p) (sel AAccept B A).
Proof.
  induction B as [|q ps IH]; intros [|a r] p Hl Hp; try destruct Hp; try discriminate.
  - subst q. cbn [sel]. destruct a; cbn [ans_eqb app In]; auto.
  - cbn [length] in Hl. injection Hl as Hl. cbn [sel].
    destruct (IH r p Hl H) as [K|[K|K]]; [left|right; left|right; right]; apply in_or_app; right; exact K.
Qed.

Lemma mark_gone_h s m : s_h (mark_gone s m) = with_gone (s_h s) (m :: h_gone (s_h s)).
Proof. reflexivity. Qed.

Lemma mark_rej_fields sent : forall s,
  s_ev (mark_rej sent s) = rev (map (fun m => EvSetSent m true) (rejs sent)) ++ s_ev s /\
  s_h (mark_rej sent s) = with_gone (s_h s) (rev (rejs sent) ++ h_gone (s_h s)) /\
  s_remote_nomsgs (mark_rej sent s) = s_remote_nomsgs s.
Proof.
  intros s. pose proof (mark_rej_does sent s) as D. split; [exact (does_ev_eq _ _ _ D)|]. split; [|exact (does_nm _ _ _ D)].
  rewrite (does_h _ _ _ D). cbn [act e_ev]. rewrite own_mids_marks. reflexivity.
Qed.

Lemma mark_sent_fields sent : forall s,
  s_ev (mark_sent sent s) = rev (map (fun m => EvSetSent m false) (accs sent)) ++ s_ev s /\
  s_h (mark_sent sent s) = with_gone (s_h s) (rev (accs sent) ++ h_gone (s_h s)) /\
  s_remote_nomsgs (mark_sent sent s) = s_remote_nomsgs s.
Proof.
  intros s. pose proof (mark_sent_does sent s) as D. split; [exact (does_ev_eq _ _ _ D)|]. split; [|exact (does_nm _ _ _ D)].
  rewrite (does_h _ _ _ D). cbn [act e_ev]. rewrite own_mids_marks. reflexivity.
Qed.

Lemma sel_defer B : forall A, sel ADefer B A = deferred B A.
Proof. induction B as [|p ps IH]; intros [|a r]; try reflexivity. cbn [sel deferred]. rewrite IH. destruct a; reflexivity. Qed.

Lemma send_accepted_fwd B : forall A s sent, length A = length B -> Forall prop_syn B ->
  exists s4, send_accepted s B (map (fun a => PAns a 0%Z) A) sent = ROk (s4, rev (sent_of B A) ++ sent) /\
    wire s4 = wire s ++ xfers B A /\ s_in s4 = s_in s /\
    s_ev s4 = rev (map EvSetDeferred (sel ADefer B A)) ++ s_ev s /\
    s_h s4 = with_gone (s_h s) (rev (sel ADefer B A) ++ h_gone (s_h s)) /\
    s_remote_nomsgs s4 = s_remote_nomsgs s.
Proof.
  intros A s sent Hl Hf. rewrite sel_defer. destruct (send_accepted_zero B A s sent Hl Hf) as (s4&E&D).
  exists s4. split; [exact E|]. split; [exact (does_wire _ _ _ D)|]. split; [symmetry; exact (does_in _ _ _ D)|].
  split; [exact (does_ev_eq _ _ _ D)|]. split; [|exact (does_nm _ _ _ D)].
  rewrite (does_h _ _ _ D). cbn [act e_ev]. rewrite <- map_rev, own_mids_map by reflexivity. reflexivity.
Qed.

Lemma ho_propose_fields B s0 :
  s_ev (ho_propose B s0) = s_ev s0 /\ s_h (ho_propose B s0) = s_h s0 /\
  s_remote_nomsgs (ho_propose B s0) = s_remote_nomsgs s0.
Proof.
  pose proof (ho_propose_does B s0) as D. split; [exact (does_ev_eq _ _ _ D)|].
  split; [exact (via_h _ _ (does_via _ _ _ _ D (Forall_nil _)))|exact (does_nm _ _ _ D)].
Qed.

(* the sender's turn with a block B, up to the transfers: the answer line for A comes in *)
Lemma send_upto sx p ps A T3 :
  h_present (s_h sx) = true -> sort_props (pendh (s_h sx)) = p :: ps ->
  let B := firstn (N.to_nat MaxBlockSize) (p :: ps) in
  Forall prop_syn B -> length A = length B -> s_in sx = fs_line A ++ T3 ->
  exists s4, handle_outbound sx = ho_peek (sent_of B A) s4 /\
    wire s4 = wire sx ++ proposal_bytes B ++ xfers B A /\ s_in s4 = T3 /\
    s_ev s4 = rev (map EvSetDeferred (sel ADefer B A)) ++ EvGetOutbound :: s_ev sx /\
    s_h s4 = with_gone (s_h sx) (rev (sel ADefer B A) ++ h_gone (s_h sx)) /\
    s_remote_nomsgs s4 = s_remote_nomsgs sx.
Proof.
  intros Hpr Hsort B Hsyn Hlen Hin.
  pose proof (outbound_present sx Hpr) as Eo. rewrite Hsort in Eo.
  destruct (send_start _ _ _ _ Eo) as (Hbne&_&E2&W2&_&_&Hstep). cbv zeta in Hstep. fold B in Hbne, E2, W2, Hstep.
  destruct (ho_propose_fields B (ev sx EvGetOutbound)) as (V2&H2&N2).
  set (s2 := ho_propose B (ev sx EvGetOutbound)) in *.
  assert (Hane : A <> []) by (intros ->; destruct B; [congruence|discriminate]).
  rewrite (read_reply_fs A s2 T3 (S (length (s_in s2))) Hane) in Hstep by (first [rewrite E2; exact Hin | lia]).
  unfold ho_transfer in Hstep.
  assert (Hs : slice_from 3 ([70; 83; 32] ++ map answer_byte A) = Some (map answer_byte A)) by reflexivity.
  rewrite Hs in Hstep.
  rewrite (parse_answers_bytes A (S (length (map answer_byte A))) (length B) []) in Hstep
    by (rewrite ?map_length; lia).
  cbn [rev' rev_append app] in Hstep.
  destruct (send_accepted_fwd B A (set_in s2 T3) [] Hlen Hsyn) as (s4&E&W4&I4&V4&H4&N4).
  rewrite E in Hstep. rewrite app_nil_r, rev'_rev, rev_involutive in Hstep.
  exists s4. split; [exact Hstep|].
  split; [rewrite W4; change (wire (set_in s2 T3)) with (wire s2); rewrite W2, <- app_assoc; reflexivity|].
  split; [exact I4|].
  split; [rewrite V4; cbn [set_in s_ev]; rewrite V2; reflexivity|].
  split; [rewrite H4; cbn [set_in s_h]; rewrite H2; reflexivity|].
  rewrite N4. cbn [set_in s_remote_nomsgs]. rewrite N2. reflexivity.
Qed.

(* the peek finds the 'F' of the peer's next command: everything is marked *)
Lemma peek_fwd sx B A s4 r :
  wire s4 = wire sx ++ proposal_bytes B ++ xfers B A -> s_in s4 = 70 :: r ->
  s_ev s4 = rev (map EvSetDeferred (sel ADefer B A)) ++ EvGetOutbound :: s_ev sx ->
  s_h s4 = with_gone (s_h sx) (rev (sel ADefer B A) ++ h_gone (s_h sx)) ->
  s_remote_nomsgs s4 = s_remote_nomsgs sx ->
  exists sx' E, ho_peek (sent_of B A) s4 = ROk (false, sx') /\
    wire sx' = wire sx ++ proposal_bytes B ++ xfers B A /\ s_in sx' = 70 :: r /\
    s_ev sx' = E ++ s_ev sx /\
    (forall f, quiet f -> cnt f E = cnt f (own_evs B A)) /\ (forall e, In e (own_evs B A) -> In e E) /\
    s_h sx' = with_gone (s_h sx) (rev (sel AAccept B A) ++ rev (sel AReject B A) ++ rev (sel ADefer B A) ++ h_gone (s_h sx)) /\
    s_remote_nomsgs sx' = s_remote_nomsgs sx.
Proof.
  intros W4 I4 V4 H4 N4. set (sent := sent_of B A).
  assert (Hstep : ho_peek sent s4 = ROk (false, ev (mark_sent sent (mark_rej sent s4)) EvBlockEnd)).
  { unfold ho_peek. cbv zeta. rewrite mark_rej_in, I4. reflexivity. }
  destruct (mark_rej_fields sent s4) as (V5&H5&N5).
  destruct (mark_sent_fields sent (mark_rej sent s4)) as (V6&H6&N6).
  unfold sent in V5, H5, V6, H6. rewrite rejs_sent_of in V5, H5. rewrite accs_sent_of in V6, H6. fold sent in V5, H5, V6, H6.
  exists (ev (mark_sent sent (mark_rej sent s4)) EvBlockEnd).
  exists (EvBlockEnd :: rev (map (fun m => EvSetSent m false) (sel AAccept B A)) ++
          rev (map (fun m => EvSetSent m true) (sel AReject B A)) ++ rev (map EvSetDeferred (sel ADefer B A)) ++ [EvGetOutbound]).
  destruct (marked_io sent s4 EvBlockEnd) as (_&Wx&Ix).
  split; [exact Hstep|]. split; [rewrite Wx, W4; reflexivity|]. split; [rewrite Ix, I4; reflexivity|].
  split.
  { cbn [ev s_ev]. rewrite V6, V5, V4. cbn [app]. rewrite <- !app_assoc. reflexivity. }
  split.
  { intros f Hq. pose proof Hq as (_&Hq2&Hq3&_).
    rewrite cnt_cons, Hq3, !cnt_app, !cnt_rev, cnt_cons, Hq2, cnt_nil, <- cnt_own_evs. clear. lia. }
  split.
  { intros e He. right. apply In_own_evs in He.
    destruct He as [K|[K|K]]; rewrite !in_app_iff, <- !in_rev; auto. }
  split.
  { cbn [ev s_h]. rewrite H6, H5, H4.
    unfold with_gone. cbn [h_present h_prepare_err h_outbox h_gone h_policy h_fail]. rewrite <- ?app_assoc. reflexivity. }
  cbn [ev s_remote_nomsgs]. rewrite N6, N5, N4. reflexivity.
Qed.

(* the sender's whole turn with a block B, when the answer line for A and then a byte 'F' come in *)
Lemma send_fwd sx p ps A r :
  h_present (s_h sx) = true -> sort_props (pendh (s_h sx)) = p :: ps ->
  let B := firstn (N.to_nat MaxBlockSize) (p :: ps) in
  Forall prop_syn B -> length A = length B -> s_in sx = fs_line A ++ 70 :: r ->
  exists sx' E, handle_outbound sx = ROk (false, sx') /\
    wire sx' = wire sx ++ proposal_bytes B ++ xfers B A /\ s_in sx' = 70 :: r /\
    s_ev sx' = E ++ s_ev sx /\
    (forall f, quiet f -> cnt f E = cnt f (own_evs B A)) /\ (forall e, In e (own_evs B A) -> In e E) /\
    s_h sx' = with_gone (s_h sx) (rev (sel AAccept B A) ++ rev (sel AReject B A) ++ rev (sel ADefer B A) ++ h_gone (s_h sx)) /\
    s_remote_nomsgs sx' = s_remote_nomsgs sx.
Proof.
  intros Hpr Hsort B Hsyn Hlen Hin.
  destruct (send_upto sx p ps A (70 :: r) Hpr Hsort Hsyn Hlen Hin) as (s4&Hho&W4&I4&V4&H4&N4). fold B in Hho, W4, V4, H4.
  destruct (peek_fwd sx B A s4 r W4 I4 V4 H4 N4) as (sx'&E&Hp&R). exists sx', E. split; [rewrite Hho; exact Hp|exact R].
Qed.

(* nothing left to propose: FF, or FQ when the peer has nothing either *)
Lemma send_none sx : h_present (s_h sx) = true -> pendh (s_h sx) = [] ->
  handle_outbound sx = ROk (s_remote_nomsgs sx,
                            wr (ev sx EvGetOutbound) (if s_remote_nomsgs sx then [70; 81; 13] else [70; 70; 13])).
Proof. intros Hp He. rewrite handle_outbound_eq, (outbound_present sx Hp), He. reflexivity. Qed.

(* a prepared proposal that the peer can receive: the wire formats are respected and the 80
   bytes of the title that are sent contain no NUL (see title_nul_refused below) *)
Definition prop_live (p : oprop) : Prop := prop_syn p /\ ~ In 0 (firstn 80 (o_title p)).
(* the MID announced is the MID of the message inside *)
Definition prop_wf (p : oprop) : Prop := proposal_message (o_cdata p) = MOk (o_mid p) (pm_data p).

Lemma prop_wf_iff p : prop_wf p <-> exists data, proposal_message (o_cdata p) = MOk (o_mid p) data.
Proof.
  unfold prop_wf, pm_data. split.
  - intros H. eexists. exact H.
  - intros [d H]. rewrite H. reflexivity.
Qed.

Lemma write_compressed_nomsgs s p off :
  match write_compressed s p off with ROk s' => s_remote_nomsgs s' = s_remote_nomsgs s | _ => True end.
Proof. pose proof (write_compressed_does s p off) as A. destruct (write_compressed s p off); auto. destruct A as [w D]. exact (does_nm _ _ _ D). Qed.

Lemma answer_props_policy B : forall s seen acc,
  h_present (s_h s) = true -> NoDup (map o_mid B) -> (forall p, In p B -> ~ In (o_mid p) seen) ->
  exists s' E, answer_props s (map (fun p => iprop_of p ADefer) B) seen acc =
      (s', rev' acc ++ zip_props B (map (fun p => policy_of (s_h s) (o_mid p)) B)) /\
    s_ev s' = E ++ s_ev s /\ Forall is_answer E /\ s_in s' = s_in s /\ s_out s' = s_out s /\ s_h s' = s_h s /\
    s_remote_nomsgs s' = s_remote_nomsgs s.
Proof.
  intros s seen acc Hp Hn Hs. destruct (answer_props_zip_pol B s seen acc) as (ans&s'&E&_&Eq&He&HE&Hi&Ho&Hh&Hm&_&Hpol).
  rewrite Hpol in Eq; [|assumption..|intros p Hi'; apply mem_bytes_notin, Hs, Hi']. exists s', E. auto 10.
Qed.

(* with a handler and distinct MIDs the answers to a block are the policy *)
Lemma recv_block_fwd sy B R :
  B <> [] -> Forall prop_syn B -> h_present (s_h sy) = true -> NoDup (map o_mid B) ->
  s_in sy = proposal_bytes B ++ R ->
  let A := map (fun p => policy_of (s_h sy) (o_mid p)) B in
  exists sy1 E, inbound_loop (S (length (s_in sy))) sy [] [] = ROk (false, zip_props B A, sy1) /\
    s_in sy1 = R /\ wire sy1 = wire sy ++ fs_line A /\ s_h sy1 = s_h sy /\ s_remote_nomsgs sy1 = false /\
    s_ev sy1 = E ++ s_ev sy /\ Forall is_answer E.
Proof.
  intros Hne Hsyn Hpr Hnd Hin A.
  destruct (recv_block_whole sy B R _ Hne Hsyn Hin (Nat.lt_succ_diag_r _)) as (A'&sy1&E&_&Hil&I1&W1&H1&N1&V1&F1&_&Hpol).
  rewrite (Hpol Hpr Hnd) in Hil, W1. exists sy1, E. repeat (split; [assumption|]). exact F1.
Qed.

Lemma receive_fwd B : forall A s Y, length A = length B -> Forall prop_live B -> Forall prop_wf B ->
  (forall p, In p B -> mem_bytes (o_mid p) (h_fail (s_h s)) = false) ->
  s_in s = xfers B A ++ Y ->
  exists s', receive_accepted s (zip_props B A) = RcOk s' /\ s_in s' = Y /\ s_out s' = s_out s /\ s_h s' = s_h s /\
    s_remote_nomsgs s' = s_remote_nomsgs s /\ s_ev s' = rev (proc_evs B A) ++ s_ev s.
Proof.
  induction B as [|p ps IH]; intros A s Y Hl Hlive Hwf Hfail Hin.
  { destruct A; [|discriminate]. exists s. cbn in Hin. repeat split. exact Hin. }
  destruct A as [|a r]; [discriminate|]. cbn [length] in Hl. injection Hl as Hl.
  inversion Hlive as [|? ? [Hsyn Ht] Hlive']; subst. inversion Hwf as [|? ? Hw Hwf']; subst.
  rewrite zip_props_cons. cbn [receive_accepted]. change (i_answer (iprop_of p a)) with a.
  cbn [xfers proc_evs] in *.
  assert (Hf' : forall q, In q ps -> mem_bytes (o_mid q) (h_fail (s_h s)) = false) by (intros q Hq; apply Hfail; right; exact Hq).
  destruct a; [|apply (IH r s Y Hl Hlive' Hwf' Hf' Hin)..].
  rewrite <- app_assoc in Hin.
  rewrite (read_compressed_xfer s p (iprop_of p AAccept) (xfers ps r ++ Y) Ht eq_refl Hin).
  unfold prop_wf in Hw. rewrite Hw. cbn [set_in s_h]. rewrite (Hfail p (or_introl eq_refl)). cbn [negb].
  destruct (IH r (add_recv (ev (set_in s (xfers ps r ++ Y)) (EvProcess (o_mid p) (pm_data p) true)) (i_mid (iprop_of p AAccept))) Y
              Hl Hlive' Hwf' Hf' eq_refl) as (s'&E&I'&O'&H'&N'&V').
  exists s'. split; [exact E|]. split; [exact I'|]. split; [exact O'|]. split; [exact H'|]. split; [exact N'|].
  rewrite V'. cbn [add_recv ev set_in s_ev]. rewrite rev_app_distr. cbn [rev app]. rewrite <- app_assoc. reflexivity.
Qed.

(* the whole turn of the receiver of a block *)
Lemma recv_fwd sy B Y :
  B <> [] -> Forall prop_live B -> Forall prop_wf B -> h_present (s_h sy) = true -> NoDup (map o_mid B) ->
  (forall p, In p B -> mem_bytes (o_mid p) (h_fail (s_h sy)) = false) ->
  let A := map (fun p => policy_of (s_h sy) (o_mid p)) B in
  s_in sy = proposal_bytes B ++ xfers B A ++ Y ->
  exists sy1 sy2 E, inbound_loop (S (length (s_in sy))) sy [] [] = ROk (false, zip_props B A, sy1) /\
    receive_accepted sy1 (zip_props B A) = RcOk sy2 /\
    s_in sy2 = Y /\ wire sy2 = wire sy ++ fs_line A /\ s_h sy2 = s_h sy /\ s_remote_nomsgs sy2 = false /\
    s_ev sy2 = E ++ s_ev sy /\
    (forall f, quiet f -> cnt f E = cnt f (proc_evs B A)) /\ (forall e, In e (proc_evs B A) -> In e E).
Proof.
  intros Hne Hlive Hwf Hpr Hnd Hfail A Hin.
  assert (Hsyn : Forall prop_syn B) by (eapply Forall_impl; [|exact Hlive]; intros q [Hq _]; exact Hq).
  destruct (recv_block_fwd sy B (xfers B A ++ Y) Hne Hsyn Hpr Hnd Hin) as (sy1&E1&Ei&I1&W1&H1&N1&V1&F1).
  fold A in Ei, W1.
  destruct (receive_fwd B A sy1 Y) as (sy2&Er&I2&O2&H2&N2&V2); try assumption.
  { unfold A. apply map_length. }
  { rewrite H1. exact Hfail. }
  exists sy1, sy2, (rev (proc_evs B A) ++ E1). split; [exact Ei|]. split; [exact Er|].
  split; [exact I2|]. split; [rewrite <- W1; apply wire_out; exact O2|]. split; [congruence|]. split; [congruence|].
  split; [rewrite V2, V1, <- app_assoc; reflexivity|]. split.
  - intros f Hq. rewrite cnt_app, cnt_rev, (cnt_answers f E1 Hq F1). lia.
  - intros e He. apply in_or_app. left. apply in_rev in He. exact He.
Qed.

Lemma beq_bytes_sym a b : beq_bytes a b = beq_bytes b a.
Proof.
  destruct (beq_bytes a b) eqn:E.
  - apply beq_bytes_true in E. subst. symmetry. apply beq_bytes_refl.
  - apply beq_bytes_false in E. symmetry. apply beq_bytes_neq. congruence.
Qed.

Lemma own_ev_of m a m' : own m (ev_of a m') = beq_bytes m' m.
Proof. destruct a; reflexivity. Qed.

Lemma cnt_own_notin m B : forall A, ~ In m (map o_mid B) -> cnt (own m) (own_evs B A) = 0%nat.
Proof.
  induction B as [|p ps IH]; intros [|a r] H; try reflexivity.
  cbn [own_evs]. rewrite cnt_cons, own_ev_of, IH by (intros X; apply H; right; exact X).
  rewrite beq_bytes_neq; [reflexivity|]. intros X. apply H. left. exact X.
Qed.
Lemma cnt_own_in m B : forall A, length A = length B -> NoDup (map o_mid B) -> In m (map o_mid B) ->
  cnt (own m) (own_evs B A) = 1%nat.
Proof.
  induction B as [|p ps IH]; intros [|a r] Hl Hnd Hin; try destruct Hin; try discriminate.
  - cbn [own_evs]. rewrite cnt_cons, own_ev_of, H, beq_bytes_refl. inversion Hnd; subst.
    rewrite cnt_own_notin by assumption. reflexivity.
  - cbn [own_evs]. inversion Hnd as [|? ? Hnot Hnd']; subst. cbn [length] in Hl. injection Hl as Hl.
    rewrite cnt_cons, own_ev_of, (IH r Hl Hnd' H). rewrite beq_bytes_neq; [reflexivity|]. intros X. apply Hnot. rewrite X. exact H.
Qed.
Lemma In_own_pol (pol : bytes -> answer) B p : In p B ->
  In (ev_of (pol (o_mid p)) (o_mid p)) (own_evs B (map (fun q => pol (o_mid q)) B)).
Proof.
  induction B as [|q ps IH]; intros H; [destruct H|]. cbn [map own_evs].
  destruct H as [->|H]; [left; reflexivity|right; apply IH, H].
Qed.
Lemma cnt_proc_own m B : forall A, cnt (proc m) (own_evs B A) = 0%nat.
Proof.
  induction B as [|p ps IH]; intros [|a r]; try reflexivity.
  cbn [own_evs]. rewrite cnt_cons, IH. destruct a; reflexivity.
Qed.
Lemma cnt_own_proc m B : forall A, cnt (own m) (proc_evs B A) = 0%nat.
Proof.
  induction B as [|p ps IH]; intros [|a r]; try reflexivity.
  cbn [proc_evs]. rewrite cnt_app, IH. destruct a; reflexivity.
Qed.
Lemma cnt_proc_notin m B : forall A, ~ In m (map o_mid B) -> cnt (proc m) (proc_evs B A) = 0%nat.
Proof.
  induction B as [|p ps IH]; intros [|a r] H; try reflexivity.
  cbn [proc_evs]. rewrite cnt_app, IH by (intros X; apply H; right; exact X).
  destruct a; try reflexivity. rewrite cnt_cons, cnt_nil. cbn [proc].
  rewrite beq_bytes_neq; [reflexivity|]. intros X. apply H. left. exact X.
Qed.
Lemma cnt_proc_in (pol : bytes -> answer) B p : NoDup (map o_mid B) -> In p B ->
  cnt (proc (o_mid p)) (proc_evs B (map (fun q => pol (o_mid q)) B)) =
  match pol (o_mid p) with AAccept => 1%nat | _ => 0%nat end.
Proof.
  induction B as [|q ps IH]; intros Hnd H; [destruct H|]. cbn [map proc_evs]. rewrite cnt_app.
  inversion Hnd as [|? ? Hnot Hnd']; subst. destruct H as [->|H].
  - rewrite cnt_proc_notin by exact Hnot. destruct (pol (o_mid p)); try reflexivity.
    rewrite cnt_cons, cnt_nil. cbn [proc]. rewrite beq_bytes_refl. reflexivity.
  - rewrite (IH Hnd' H).
    assert (Hne : o_mid q <> o_mid p) by (intros X; apply Hnot; rewrite X; apply in_map, H).
    destruct (pol (o_mid q)); rewrite ?cnt_nil; try reflexivity.
    rewrite cnt_cons, cnt_nil. cbn [proc]. rewrite (beq_bytes_neq _ _ Hne). reflexivity.
Qed.
Lemma In_proc_pol (pol : bytes -> answer) B p : In p B -> pol (o_mid p) = AAccept ->
  In (EvProcess (o_mid p) (pm_data p) true) (proc_evs B (map (fun q => pol (o_mid q)) B)).
Proof.
  induction B as [|q ps IH]; intros H Ha; [destruct H|]. cbn [map proc_evs]. apply in_or_app.
  destruct H as [->|H]; [left; rewrite Ha; left; reflexivity|right; apply IH; assumption].
Qed.

(* the MIDs that are gone after the block *)
Lemma gone_after B A g m : length A = length B ->
  In m (rev (sel AAccept B A) ++ rev (sel AReject B A) ++ rev (sel ADefer B A) ++ g) <-> In m (map o_mid B) \/ In m g.
Proof.
  intros Hl. rewrite !in_app_iff, <- !in_rev. split.
  - intros [H|[H|[H|H]]]; try (right; exact H); left;
      destruct (sel_In _ _ _ _ H) as (p&Hp&<-); apply in_map, Hp.
  - intros [H|H]; [|tauto]. apply in_map_iff in H. destruct H as (p&<-&Hp).
    destruct (sel_cover B A p Hl Hp) as [K|[K|K]]; tauto.
Qed.

Lemma NoDup_map_inj {T U} (f : T -> U) l a b : NoDup (map f l) -> In a l -> In b l -> f a = f b -> a = b.
Proof.
  induction l as [|x l IH]; intros Hnd Ha Hb E; [destruct Ha|]. cbn [map] in Hnd.
  inversion Hnd as [|? ? Hnot Hnd']; subst.
  destruct Ha as [->|Ha], Hb as [->|Hb]; try reflexivity.
  - exfalso. apply Hnot. rewrite E. apply in_map, Hb.
  - exfalso. apply Hnot. rewrite <- E. apply in_map, Ha.
  - apply IH; assumption.
Qed.

Lemma NoDup_map_filter {T U} (f : T -> U) g l : NoDup (map f l) -> NoDup (map f (filter g l)).
Proof.
  induction l as [|x l IH]; intros H; [constructor|]. cbn [map] in H. inversion H as [|? ? Hnot Hnd]; subst.
  cbn [filter]. destruct (g x); [|apply IH, Hnd]. cbn [map]. constructor; [|apply IH, Hnd].
  intros K. apply Hnot. apply in_map_iff in K. destruct K as (y&E&Hy). apply filter_In in Hy.
  rewrite <- E. apply in_map, Hy.
Qed.
Lemma NoDup_firstn {T} n (l : list T) : NoDup l -> NoDup (firstn n l).
Proof.
  revert l. induction n as [|n IH]; intros l H; [constructor|]. destruct l as [|x l]; [constructor|].
  cbn [firstn]. inversion H as [|? ? Hnot Hnd]; subst. constructor; [|apply IH, Hnd].
  intros K. apply Hnot. eapply In_firstn. exact K.
Qed.

Definition gone (s : sess) : list bytes := h_gone (s_h s).

(* p, of the outbox of sx, has been dealt with: the owner has recorded exactly one event for
   its MID, the one that corresponds to the peer's answer; the peer's handler was given the
   message exactly once, intact, if the answer was "accept", and not at all otherwise *)
Definition done_p (sx sy : sess) (p : oprop) : Prop :=
  In (o_mid p) (gone sx) /\ cnt (own (o_mid p)) (s_ev sx) = 1%nat /\
  In (ev_of (policy_of (s_h sy) (o_mid p)) (o_mid p)) (s_ev sx) /\
  match policy_of (s_h sy) (o_mid p) with
  | AAccept => cnt (proc (o_mid p)) (s_ev sy) = 1%nat /\ In (EvProcess (o_mid p) (pm_data p) true) (s_ev sy)
  | _ => cnt (proc (o_mid p)) (s_ev sy) = 0%nat
  end.
Definition notyet_p (sx sy : sess) (p : oprop) : Prop :=
  ~ In (o_mid p) (gone sx) /\ cnt (own (o_mid p)) (s_ev sx) = 0%nat /\ cnt (proc (o_mid p)) (s_ev sy) = 0%nat.
(* nothing is recorded, and nothing is handed to the peer's handler, for a MID that is not in the outbox *)
Definition alien (sx sy : sess) : Prop :=
  forall m, ~ In m (map o_mid (hob sx)) -> cnt (own m) (s_ev sx) = 0%nat /\ cnt (proc m) (s_ev sy) = 0%nat.
Definition Inv (sx sy : sess) : Prop :=
  (forall p, In p (hob sx) -> done_p sx sy p \/ notyet_p sx sy p) /\ alien sx sy.

Lemma keep_p sx sy sx' sy' Ex Ey p :
  (In (o_mid p) (gone sx') <-> In (o_mid p) (gone sx)) -> hsame (s_h sy') (s_h sy) ->
  s_ev sx' = Ex ++ s_ev sx -> cnt (own (o_mid p)) Ex = 0%nat ->
  s_ev sy' = Ey ++ s_ev sy -> cnt (proc (o_mid p)) Ey = 0%nat ->
  done_p sx sy p \/ notyet_p sx sy p -> done_p sx' sy' p \/ notyet_p sx' sy' p.
Proof.
  intros Hg Hy Vx Cx Vy Cy [(D1&D2&D3&D4)|(N1&N2&N3)]; [left|right].
  - unfold done_p. rewrite (hsame_policy _ _ (o_mid p) Hy), Vx, Vy, !cnt_app, Cx, Cy.
    split; [apply Hg, D1|]. split; [exact D2|]. split; [apply in_or_app; right; exact D3|].
    destruct (policy_of (s_h sy) (o_mid p)); try exact D4.
    destruct D4 as [D4 D5]. split; [exact D4|apply in_or_app; right; exact D5].
  - unfold notyet_p. rewrite Vx, Vy, !cnt_app, Cx, Cy. split; [rewrite Hg; exact N1|]. split; assumption.
Qed.

Lemma Inv_neutral sx sy sx' sy' Ex Ey :
  hsame (s_h sx') (s_h sx) -> (forall m, In m (gone sx') <-> In m (gone sx)) -> hsame (s_h sy') (s_h sy) ->
  s_ev sx' = Ex ++ s_ev sx -> (forall m, cnt (own m) Ex = 0%nat) ->
  s_ev sy' = Ey ++ s_ev sy -> (forall m, cnt (proc m) Ey = 0%nat) ->
  Inv sx sy -> Inv sx' sy'.
Proof.
  intros Hx Hg Hy Vx Cx Vy Cy [H HA]. split.
  - intros p Hp. unfold hob in Hp. rewrite (hsame_outbox _ _ Hx) in Hp. eapply keep_p; eauto.
  - intros m Hm. unfold hob in Hm. rewrite (hsame_outbox _ _ Hx) in Hm.
    rewrite Vx, Vy, !cnt_app, Cx, Cy. apply HA, Hm.
Qed.

Lemma Inv_block sx sy sx' sy' B Ex Ey :
  let A := map (fun p => policy_of (s_h sy) (o_mid p)) B in
  NoDup (map o_mid (hob sx)) -> NoDup (map o_mid B) ->
  (forall p, In p B -> In p (hob sx) /\ ~ In (o_mid p) (gone sx)) ->
  hsame (s_h sx') (s_h sx) -> (forall m, In m (gone sx') <-> In m (map o_mid B) \/ In m (gone sx)) ->
  hsame (s_h sy') (s_h sy) ->
  s_ev sx' = Ex ++ s_ev sx -> (forall f, quiet f -> cnt f Ex = cnt f (own_evs B A)) -> (forall e, In e (own_evs B A) -> In e Ex) ->
  s_ev sy' = Ey ++ s_ev sy -> (forall f, quiet f -> cnt f Ey = cnt f (proc_evs B A)) -> (forall e, In e (proc_evs B A) -> In e Ey) ->
  Inv sx sy -> Inv sx' sy'.
Proof.
  intros A Hnd HndB HB Hx Hg Hy Vx Cx Ix Vy Cy Iy [H HA].
  assert (Hl : length A = length B) by (unfold A; apply map_length).
  split.
  2:{ intros m Hm. unfold hob in Hm. rewrite (hsame_outbox _ _ Hx) in Hm.
      assert (HmB : ~ In m (map o_mid B)).
      { intros K. apply Hm. apply in_map_iff in K. destruct K as (q&E&Hq). rewrite <- E. apply in_map, HB, Hq. }
      rewrite Vx, Vy, !cnt_app, (Cx _ (own_quiet _)), (Cy _ (proc_quiet _)).
      rewrite (cnt_own_notin _ _ _ HmB), (cnt_proc_notin _ _ _ HmB). apply HA, Hm. }
  intros p Hp. unfold hob in Hp. rewrite (hsame_outbox _ _ Hx) in Hp.
  destruct (in_dec (list_eq_dec N.eq_dec) (o_mid p) (map o_mid B)) as [Hin|Hnin].
  - (* p is in the block *)
    assert (HpB : In p B).
    { apply in_map_iff in Hin. destruct Hin as (q&E&Hq). destruct (HB q Hq) as [Hq' _].
      rewrite <- (NoDup_map_inj o_mid _ q p Hnd Hq' Hp E). exact Hq. }
    destruct (HB p HpB) as [_ Hng].
    destruct (H p Hp) as [(D1&_)|(N1&N2&N3)]; [contradiction|]. left.
    unfold done_p. rewrite (hsame_policy _ _ (o_mid p) Hy), Vx, Vy, !cnt_app, N2, N3.
    rewrite (Cx _ (own_quiet _)), (Cy _ (proc_quiet _)), (cnt_own_in _ B A Hl HndB Hin).
    unfold A. rewrite (cnt_proc_in (policy_of (s_h sy)) B p HndB HpB).
    split; [apply Hg; left; exact Hin|]. split; [reflexivity|].
    split; [apply in_or_app; left; apply Ix, (In_own_pol (policy_of (s_h sy)) B p HpB)|].
    destruct (policy_of (s_h sy) (o_mid p)) eqn:Ea; try reflexivity.
    split; [reflexivity|]. apply in_or_app. left. apply Iy. apply (In_proc_pol (policy_of (s_h sy)) B p HpB Ea).
  - eapply (keep_p sx sy sx' sy' Ex Ey p); try eassumption.
    + rewrite Hg. tauto.
    + rewrite (Cx _ (own_quiet _)). apply cnt_own_notin, Hnin.
    + rewrite (Cy _ (proc_quiet _)). apply cnt_proc_notin, Hnin.
    + apply H, Hp.
Qed.

(* hx owns an outbox that hy can receive: a handler on the owner's side, proposals that respect
   the formats, announce the MID they contain, have pairwise distinct MIDs, and whose store
   does not fail at the peer *)
Definition okdir (hx hy : hstate) : Prop :=
  h_present hx = true /\ Forall prop_live (h_outbox hx) /\ Forall prop_wf (h_outbox hx) /\
  NoDup (map o_mid (h_outbox hx)) /\ (forall p, In p (h_outbox hx) -> mem_bytes (o_mid p) (h_fail hy) = false).

Lemma okdir_hsame hx hy hx' hy' : hsame hx' hx -> hsame hy' hy -> okdir hx hy -> okdir hx' hy'.
Proof.
  intros Hx Hy (H1&H2&H3&H4&H5). unfold okdir.
  rewrite (hsame_present _ _ Hx), (hsame_outbox _ _ Hx), (hsame_fail _ _ Hy). repeat (split; [assumption|]); assumption.
Qed.

Lemma block_facts hx p ps :
  Forall prop_live (h_outbox hx) -> Forall prop_wf (h_outbox hx) -> NoDup (map o_mid (h_outbox hx)) ->
  sort_props (pendh hx) = p :: ps ->
  let B := firstn (N.to_nat MaxBlockSize) (p :: ps) in
  B <> [] /\ In p B /\ (forall q, In q B -> In q (h_outbox hx) /\ ~ In (o_mid q) (h_gone hx)) /\
  NoDup (map o_mid B) /\ Forall prop_live B /\ Forall prop_wf B /\ (exists r, proposal_bytes B = 70 :: r).
Proof.
  intros Hlive Hwf Hnd Hs B.
  assert (HB : forall q, In q B -> In q (h_outbox hx) /\ ~ In (o_mid q) (h_gone hx)).
  { intros q Hq. apply In_firstn in Hq. rewrite <- Hs in Hq.
    apply (Permutation_in _ (Permutation_sym (sort_props_perm _))) in Hq. apply pendh_In, Hq. }
  split; [unfold B; change (N.to_nat MaxBlockSize) with 5%nat; cbn [firstn]; discriminate|].
  split; [unfold B; change (N.to_nat MaxBlockSize) with 5%nat; cbn [firstn]; left; reflexivity|].
  split; [exact HB|]. split.
  { unfold B. rewrite <- firstn_map. apply NoDup_firstn. rewrite <- Hs.
    eapply Permutation_NoDup; [apply Permutation_map, sort_props_perm|]. apply NoDup_map_filter, Hnd. }
  split; [apply Forall_forall; intros q Hq; apply (proj1 (Forall_forall _ _) Hlive), HB, Hq|].
  split; [apply Forall_forall; intros q Hq; apply (proj1 (Forall_forall _ _) Hwf), HB, Hq|].
  unfold B. change (N.to_nat MaxBlockSize) with 5%nat. cbn [firstn].
  eexists. unfold proposal_bytes. cbv zeta. cbn [map concat]. rewrite proposal_line_eq. cbn [app]. reflexivity.
Qed.

Lemma pend_after hx G p :
  In p (h_outbox hx) -> ~ In (o_mid p) (h_gone hx) -> In (o_mid p) (G ++ h_gone hx) ->
  (length (pendh (with_gone hx (G ++ h_gone hx))) < length (pendh hx))%nat.
Proof.
  intros H1 H2 H3. unfold pendh. cbn [with_gone h_gone h_outbox].
  apply (pend_shrink_strict (h_gone hx) (G ++ h_gone hx) (h_outbox hx) p); try assumption.
  intros m Hm. apply in_or_app. right. exact Hm.
Qed.

Lemma run_quit_send sx s1 : handle_outbound sx = ROk (true, s1) -> run true sx = (XNil, s1).
Proof. intros H. rewrite run_send, H. reflexivity. Qed.
Lemma run_go_send sx s1 : handle_outbound sx = ROk (false, s1) -> run true sx = run false s1.
Proof. intros H. rewrite run_send, H. reflexivity. Qed.
Lemma run_go_recv sy props s1 s2 :
  inbound_loop (S (length (s_in sy))) sy [] [] = ROk (false, props, s1) -> receive_accepted s1 props = RcOk s2 ->
  run false sy = run true s2.
Proof. intros H1 H2. rewrite run_recv, H1, H2. reflexivity. Qed.
Lemma run_quit_recv sy props s1 s2 :
  inbound_loop (S (length (s_in sy))) sy [] [] = ROk (true, props, s1) -> receive_accepted s1 props = RcOk s2 ->
  run false sy = (XNil, s2).
Proof. intros H1 H2. rewrite run_recv, H1, H2. reflexivity. Qed.

(* after a block the pending proposals of the sender are fewer *)
Lemma pend_block hx B A p : length A = length B -> In p B -> In p (h_outbox hx) -> ~ In (o_mid p) (h_gone hx) ->
  (length (pendh (with_gone hx (rev (sel AAccept B A) ++ rev (sel AReject B A) ++ rev (sel ADefer B A) ++ h_gone hx)))
   < length (pendh hx))%nat.
Proof.
  intros Hl HpB H1 H2. rewrite !app_assoc. apply (pend_after hx _ p H1 H2).
  rewrite <- !app_assoc. apply (gone_after B A _ _ Hl). left. apply in_map, HpB.
Qed.

(* The session of a ready pair from a turn boundary, as the two streams: hx is the handler of the side whose turn it
   is, qx its "the peer has nothing more" flag; that side will write Tx, the other Ty.  FQ ends the session, FF
   passes the turn, a block is answered by the peer's policy and what was answered is no longer pending. *)
Inductive plan : hstate -> hstate -> bool -> bytes -> bytes -> Prop :=
| plan_fq hx hy : okdir hx hy -> okdir hy hx -> pendh hx = [] -> pendh hy = [] -> plan hx hy true [70; 81; 13] []
| plan_ff hx hy Ty Tx : okdir hx hy -> okdir hy hx -> pendh hx = [] -> plan hy hx true Ty Tx -> plan hx hy false ([70; 70; 13] ++ Tx) Ty
| plan_block hx hy qx p ps Ty Tx : okdir hx hy -> okdir hy hx -> sort_props (pendh hx) = p :: ps ->
    let B := firstn (N.to_nat MaxBlockSize) (p :: ps) in
    let A := map (fun q => policy_of hy (o_mid q)) B in
    plan hy (with_gone hx (rev (sel AAccept B A) ++ rev (sel AReject B A) ++ rev (sel ADefer B A) ++ h_gone hx)) false Ty Tx ->
    plan hx hy qx (proposal_bytes B ++ xfers B A ++ Tx) (fs_line A ++ Ty).

(* a ready pair has a plan.  (Induction on 2 * (pending proposals of both sides) + (1 unless qx).) *)
Lemma plan_exists : forall n hx hy (qx : bool),
  (2 * (length (pendh hx) + length (pendh hy)) + (if qx then 0 else 1) < n)%nat ->
  okdir hx hy -> okdir hy hx -> (qx = true -> pendh hy = []) -> exists Tx Ty, plan hx hy qx Tx Ty.
Proof.
  induction n as [|n IH]; intros hx hy qx Hn Oxy Oyx Hq; [lia|].
  destruct (sort_props (pendh hx)) as [|p ps] eqn:Es.
  - apply sort_props_nil in Es. destruct qx; [eexists _, _; apply plan_fq; auto|].
    destruct (IH hy hx true) as (Ty&Tx&H); try assumption; [rewrite Es in *; cbn [length] in *; lia|intros _; exact Es|].
    eexists _, _. apply plan_ff; eassumption.
  - pose proof Oxy as (_&Lx&Wx&Nx&_). destruct (block_facts hx p ps Lx Wx Nx Es) as (_&HpB&HB&_). cbv zeta in HpB, HB.
    set (B := firstn (N.to_nat MaxBlockSize) (p :: ps)) in *. set (A := map (fun q => policy_of hy (o_mid q)) B).
    destruct (IH hy (with_gone hx (rev (sel AAccept B A) ++ rev (sel AReject B A) ++ rev (sel ADefer B A) ++ h_gone hx)) false)
      as (Ty&Tx&H); [| | |discriminate|eexists _, _; eapply plan_block; eassumption].
    + pose proof (pend_block hx B A p (map_length _ _) HpB (proj1 (HB p HpB)) (proj2 (HB p HpB))) as Hlt.
      clear - Hn Hlt. destruct qx; lia.
    + eapply okdir_hsame; [apply hsame_refl|apply hsame_with_gone|exact Oyx].
    + eapply okdir_hsame; [apply hsame_with_gone|apply hsame_refl|exact Oxy].
Qed.

Lemma plan_F hx hy qx Tx Ty : plan hx hy qx Tx Ty -> exists r, Tx = 70 :: r.
Proof.
  destruct 1 as [| |hx hy qx p ps Ty Tx (_&Lx&Wx&Nx&_) _ Es B A _]; [eexists; reflexivity..|].
  destruct (block_facts hx p ps Lx Wx Nx Es) as (_&_&_&_&_&_&[rB ErB]). fold B in ErB. rewrite ErB. eexists; reflexivity.
Qed.

(* a turn without proposals *)
Lemma Inv_idle sx sy sx' sy' :
  s_h sx' = s_h sx -> s_ev sx' = EvGetOutbound :: s_ev sx -> s_h sy' = s_h sy -> s_ev sy' = s_ev sy ->
  Inv sx sy -> Inv sy sx -> Inv sx' sy' /\ Inv sy' sx'.
Proof.
  intros Hx Vx Hy Vy I1 I2.
  assert (Sx : hsame (s_h sx') (s_h sx)) by (rewrite Hx; apply hsame_refl).
  assert (Sy : hsame (s_h sy') (s_h sy)) by (rewrite Hy; apply hsame_refl).
  assert (Gx : forall m, In m (gone sx') <-> In m (gone sx)) by (intros m; unfold gone; rewrite Hx; reflexivity).
  assert (Gy : forall m, In m (gone sy') <-> In m (gone sy)) by (intros m; unfold gone; rewrite Hy; reflexivity).
  split.
  - exact (Inv_neutral sx sy sx' sy' [EvGetOutbound] [] Sx Gx Sy Vx (fun m => eq_refl) Vy (fun m => eq_refl) I1).
  - exact (Inv_neutral sy sx sy' sx' [] [EvGetOutbound] Sy Gy Sx Vy (fun m => eq_refl) Vx (fun m => eq_refl) I2).
Qed.

(* each side fed the other's stream writes its own and ends with nil; nothing is left pending, and the invariant
   on the logs is kept *)
Lemma plan_run hx hy qx Tx Ty : plan hx hy qx Tx Ty ->
  forall sx sy, s_h sx = hx -> s_h sy = hy -> s_remote_nomsgs sx = qx -> s_in sx = Ty -> s_in sy = Tx ->
    exists fx fy, run true sx = (XNil, fx) /\ run false sy = (XNil, fy) /\
      wire fx = wire sx ++ Tx /\ wire fy = wire sy ++ Ty /\
      hsame (s_h fx) hx /\ hsame (s_h fy) hy /\ pendh (s_h fx) = [] /\ pendh (s_h fy) = [] /\
      (Inv sx sy -> Inv sy sx -> Inv fx fy /\ Inv fy fx).
Proof.
  induction 1 as [hx hy (Px&_) _ Es Esy|hx hy Ty Tx (Px&_) _ Es _ IH|hx hy qx p ps Ty Tx (Px&Lx&Wx&Nx&Fx) (Py&_) Es B A HP IH];
    intros sx sy Hx Hy Qx Ix Iy; subst hx hy.
  - (* FQ *)
    exists (wr (ev sx EvGetOutbound) [70; 81; 13]), (set_in sy []).
    split; [apply run_quit_send; rewrite (send_none sx Px Es), Qx; reflexivity|].
    split; [apply (run_quit_recv sy [] (set_in sy [])); [apply inbound_fq; [rewrite Iy; reflexivity|lia]|reflexivity]|].
    split; [rewrite wire_wr; reflexivity|]. split; [rewrite app_nil_r; reflexivity|].
    split; [apply hsame_refl|]. split; [apply hsame_refl|]. split; [exact Es|]. split; [exact Esy|].
    apply Inv_idle; reflexivity.
  - (* FF, then the peer's turn *)
    destruct (IH (set_nomsgs (set_in sy Tx) true) (wr (ev sx EvGetOutbound) [70; 70; 13])) as (fy&fx&R1&R2&W1&W2&S1&S2&P1&P2&J);
      try reflexivity; try assumption.
    exists fx, fy.
    split; [rewrite <- R2; apply run_go_send; rewrite (send_none sx Px Es), Qx; reflexivity|].
    split; [rewrite <- R1; apply (run_go_recv sy [] (set_nomsgs (set_in sy Tx) true)); [apply inbound_ff; [exact Iy|lia]|reflexivity]|].
    split; [rewrite W2, wire_wr, <- app_assoc; reflexivity|]. split; [exact W1|].
    repeat (split; [assumption|]). intros I1 I2.
    destruct (Inv_idle sx sy (wr (ev sx EvGetOutbound) [70; 70; 13]) (set_nomsgs (set_in sy Tx) true)) as [K1 K2]; try reflexivity; try assumption.
    apply and_comm, J; assumption.
  - (* a block of proposals *)
    destruct (block_facts (s_h sx) p ps Lx Wx Nx Es) as (Bne&_&HB&NdB&LB&WB&_). cbv zeta in *. fold B in Bne, HB, NdB, LB, WB.
    destruct (plan_F _ _ _ _ _ HP) as [r Er]. rewrite Er in Ix.
    assert (Hl : length A = length B) by apply map_length.
    destruct (send_fwd sx p ps A r Px Es) as (sx'&Ex&Hho&Wsx&Isx&Vsx&Cx&Inx&Hsx&_);
      [eapply Forall_impl; [|exact LB]; intros q [Hq' _]; exact Hq'|exact Hl|exact Ix|]. fold B in Hho, Wsx, Cx, Inx, Hsx.
    destruct (recv_fwd sy B Tx Bne LB WB Py NdB) as (sy1&sy2&Ey&Hil&Hrc&Isy&Wsy&Hsy&Qsy&Vsy&Cy&Iny);
      [intros q Hq'; apply Fx, HB, Hq'|exact Iy|]. fold A in Hil, Hrc, Wsy, Cy, Iny.
    destruct (IH sy2 sx' Hsy Hsx Qsy Isy) as (fy&fx&R1&R2&W1&W2&S1&S2&P1&P2&J); [rewrite Isx, Er; reflexivity|].
    exists fx, fy. split; [rewrite (run_go_send _ _ Hho); exact R2|]. split; [rewrite (run_go_recv _ _ _ _ Hil Hrc); exact R1|].
    split; [rewrite W2, Wsx, <- !app_assoc; reflexivity|]. split; [rewrite W1, Wsy, <- app_assoc; reflexivity|].
    split; [exact S2|]. split; [exact S1|]. split; [exact P2|]. split; [exact P1|]. intros I1 I2. apply and_comm, J.
    + (* the receiver's own outbox: nothing happened to it *)
      eapply (Inv_neutral sy sx sy2 sx' Ey Ex); try eassumption.
      * rewrite Hsy. apply hsame_refl.
      * intros m. unfold gone. rewrite Hsy. reflexivity.
      * rewrite Hsx. apply hsame_with_gone.
      * intros m. rewrite (Cy _ (own_quiet m)). apply cnt_own_proc.
      * intros m. rewrite (Cx _ (proc_quiet m)). apply cnt_proc_own.
    + eapply (Inv_block sx sy sx' sy2 B Ex Ey); try eassumption.
      * rewrite Hsx. apply hsame_with_gone.
      * intros m. unfold gone. rewrite Hsx. cbn [with_gone h_gone]. apply gone_after, Hl.
      * rewrite Hsy. apply hsame_refl.
Qed.

Lemma final_after_peek sx sent s4 : handle_outbound sx = ho_peek sent s4 -> grows s4 (final true sx).
Proof.
  intros H. pose proof (ho_peek_grows sent s4) as G. pose proof (handle_outbound_nopanic sx) as Np.
  destruct (ho_peek sent s4) as [[q s']|e s'|] eqn:E; cbn [res_grows] in G; [| |congruence].
  - destruct q.
    + rewrite (final_send_quit _ _ H). exact G.
    + rewrite (final_send_ok _ _ H). eapply grows_trans; [exact G|apply final_grows].
  - rewrite (final_send_fail _ _ _ H). eapply grows_trans; [exact G|apply fin_state_grows].
Qed.

(* at a turn boundary, sx to send, the unread input of each side is exactly what the other side
   will still write.  sx has nothing to propose: FQ ends the session, FF passes the turn. *)
Lemma closed_none sx sy : h_present (s_h sx) = true -> pendh (s_h sx) = [] -> tailw true sx = s_in sy ->
  if s_remote_nomsgs sx then tailw true sx = [70; 81; 13] /\ tailw false sy = []
  else
    let sx1 := wr (ev sx EvGetOutbound) [70; 70; 13] in
    tailw true sx = [70; 70; 13] ++ tailw false sx1 /\
    tailw false sy = tailw true (set_nomsgs (set_in sy (tailw false sx1)) true).
Proof.
  intros Hp He C1. pose proof (outbound_present sx Hp) as Eo. rewrite He in Eo.
  destruct (s_remote_nomsgs sx) eqn:Eq.
  - destruct (send_fq sx _ Eo Eq) as [_ Ht]. split; [exact Ht|].
    apply tailw_intro. rewrite (final_recv_quit sy [] (set_in sy []) (set_in sy [])), app_nil_r; [reflexivity| |reflexivity].
    apply inbound_fq; [rewrite <- C1, Ht; reflexivity|lia].
  - destruct (send_ff sx _ Eo Eq) as (_&_&_&Ht). cbv zeta. split; [exact Ht|].
    set (sy1 := set_nomsgs _ true). apply tailw_intro. rewrite (final_recv_ok sy [] sy1 sy1), tailw_eq; [reflexivity| |reflexivity].
    apply inbound_ff; [rewrite <- C1, Ht; reflexivity|lia].
Qed.

(* sx proposes the block B, sy answers A by its policy, sx transfers what was accepted, sy stores
   it; then sy has the turn *)
Lemma closed_block sx sy p ps : okdir (s_h sx) (s_h sy) -> h_present (s_h sy) = true ->
  sort_props (pendh (s_h sx)) = p :: ps -> tailw true sx = s_in sy -> tailw false sy = s_in sx ->
  let B := firstn (N.to_nat MaxBlockSize) (p :: ps) in
  let A := map (fun q => policy_of (s_h sy) (o_mid q)) B in
  exists sx' sy2,
    tailw true sx = proposal_bytes B ++ xfers B A ++ tailw false sx' /\ tailw false sy = fs_line A ++ tailw true sy2 /\
    tailw true sy2 = s_in sx' /\ tailw false sx' = s_in sy2 /\
    s_h sx' = with_gone (s_h sx) (rev (sel AAccept B A) ++ rev (sel AReject B A) ++ rev (sel ADefer B A) ++ h_gone (s_h sx)) /\
    s_h sy2 = s_h sy /\ s_remote_nomsgs sy2 = false.
Proof.
  intros (Px&Lx&Wx&Nx&Fx) Py Es C1 C2. set (hx := s_h sx) in *. set (hy := s_h sy) in *.
  destruct (block_facts hx p ps Lx Wx Nx Es) as (Bne&HpB&HB&NdB&LB&WB&_). cbv zeta in *.
  set (B := firstn (N.to_nat MaxBlockSize) (p :: ps)) in *.
  set (A := map (fun q => policy_of hy (o_mid q)) B).
  assert (Hl : length A = length B) by (unfold A; apply map_length).
  assert (Hsyn : Forall prop_syn B) by (eapply Forall_impl; [|exact LB]; intros q [Hq' _]; exact Hq').
  (* (1) the block is on its way *)
  pose proof (outbound_present sx Px) as Eo. fold hx in Eo. rewrite Es in Eo.
  destruct (send_start _ _ _ _ Eo) as (_&_&_&W2&_&_&_). pose proof (send_grows _ _ _ _ Eo) as G2. cbv zeta in W2, G2.
  fold B in W2, G2. destruct (grows_wire _ _ G2) as [T2 HT2].
  assert (Ht : tailw true sx = proposal_bytes B ++ T2).
  { apply tailw_intro. rewrite HT2, W2, <- app_assoc. reflexivity. }
  (* (2) the receiver answers *)
  destruct (recv_block_fwd sy B T2) as (sy1&E1&Hil&Isy1&Wsy1&_&_&_&_); try assumption.
  { rewrite <- C1. exact Ht. }
  fold hy in Hil, Wsy1. fold A in Hil, Wsy1.
  destruct (recv_tail_cases _ _ _ Hil) as (T3&HT3&_).
  assert (Hty : tailw false sy = fs_line A ++ T3).
  { apply tailw_intro. rewrite HT3, Wsy1, <- app_assoc. reflexivity. }
  (* (3) the sender reads the answer and transfers *)
  destruct (send_upto sx p ps A T3 Px Es Hsyn Hl) as (s4&Hho&W4&I4&V4&H4&N4).
  { rewrite <- C2. exact Hty. }
  fold B in Hho, W4, V4, H4.
  destruct (grows_wire _ _ (final_after_peek _ _ _ Hho)) as [T4 HT4].
  assert (E24 : T2 = xfers B A ++ T4).
  { rewrite HT2, W2, W4, <- !app_assoc in HT4. apply app_inv_head in HT4. apply app_inv_head in HT4. exact HT4. }
  (* (4) the receiver takes the transfers *)
  destruct (recv_fwd sy B T4) as (sy1'&sy2&Ey&Hil'&Hrc&Isy&Wsy&Hsy&Qsy&_); try assumption.
  { intros q Hq'. apply Fx, HB, Hq'. }
  { fold hy. fold A. rewrite <- C1, Ht, E24. reflexivity. }
  fold hy in Hil', Hrc, Wsy. fold A in Hil', Hrc, Wsy.
  rewrite Hil in Hil'. injection Hil' as <-.
  assert (E3 : T3 = tailw true sy2).
  { rewrite (final_recv_ok _ _ _ _ Hil Hrc), tailw_eq, Wsy, Wsy1 in HT3. apply app_inv_head in HT3. symmetry. exact HT3. }
  destruct (tailw_send_F sy2) as [rF HF].
  (* (5) the peek *)
  destruct (peek_fwd sx B A s4 rF W4) as (sx'&Ex&Hpk&Wsx&Isx&_&_&_&Hsx&_); try assumption.
  { rewrite I4, E3. exact HF. }
  rewrite Hpk in Hho. fold hx in Hsx.
  assert (E4 : tailw false sx' = T4).
  { apply tailw_intro. rewrite <- (final_send_ok _ _ Hho), HT4, Wsx, W4. reflexivity. }
  exists sx', sy2. rewrite Ht, E24, Hty, E3, E4.
  split; [reflexivity|]. split; [reflexivity|].
  split; [rewrite Isx, <- HF; reflexivity|]. split; [rewrite Isy, <- E4; reflexivity|].
  split; [exact Hsx|]. split; [exact Hsy|exact Qsy].
Qed.

(* a closed pair at a turn boundary reads the streams of the plan: there are no others *)
Lemma plan_closed hx hy qx Tx Ty : plan hx hy qx Tx Ty ->
  forall sx sy, s_h sx = hx -> s_h sy = hy -> s_remote_nomsgs sx = qx ->
    tailw true sx = s_in sy -> tailw false sy = s_in sx -> s_in sx = Ty /\ s_in sy = Tx.
Proof.
  induction 1 as [hx hy (Px&_) _ Es _|hx hy Ty Tx (Px&_) _ Es _ IH|hx hy qx p ps Ty Tx Oxy (Py&_) Es B A _ IH];
    intros sx sy Hx Hy Qx C1 C2; subst hx hy.
  - pose proof (closed_none sx sy Px Es C1) as Ht. rewrite Qx in Ht. destruct Ht as (Ht&Hty).
    rewrite <- C1, <- C2. split; assumption.
  - pose proof (closed_none sx sy Px Es C1) as Ht. cbv zeta in Ht. rewrite Qx in Ht. destruct Ht as (Ht&Hty).
    set (sx1 := wr (ev sx EvGetOutbound) [70; 70; 13]) in *.
    destruct (IH (set_nomsgs (set_in sy (tailw false sx1)) true) sx1 eq_refl eq_refl eq_refl) as [K1 K2]; [rewrite <- Hty; exact C2|reflexivity|].
    split; [exact K2|rewrite <- C1, Ht; f_equal; exact K1].
  - destruct (closed_block sx sy p ps Oxy Py Es C1 C2) as (sx'&sy2&Ht&Hty&Cy&Cx&Hsx&Hsy&Qsy).
    destruct (IH sy2 sx' Hsy Hsx Qsy Cy Cx) as [K1 K2]. fold B A in Ht, Hty. rewrite <- C1, <- C2, Ht, Hty, Cy, Cx, K1, K2. split; reflexivity.
Qed.

(* the joint run, for streams that are not given: whenever, at a turn boundary, the unread input
   of each side is exactly what the other side will still write, both sides end with nil, nothing
   is pending at the end and the invariant on the logs is kept. *)
Lemma joint_closed : forall n hx hy (qx : bool),
  (2 * (length (pendh hx) + length (pendh hy)) + (if qx then 0 else 1) < n)%nat ->
  okdir hx hy -> okdir hy hx -> (qx = true -> pendh hy = []) ->
  forall sx sy, s_h sx = hx -> s_h sy = hy -> s_remote_nomsgs sx = qx ->
    tailw true sx = s_in sy -> tailw false sy = s_in sx -> Inv sx sy -> Inv sy sx ->
    exists fx fy, run true sx = (XNil, fx) /\ run false sy = (XNil, fy) /\
      hsame (s_h fx) hx /\ hsame (s_h fy) hy /\ pendh (s_h fx) = [] /\ pendh (s_h fy) = [] /\
      Inv fx fy /\ Inv fy fx.
Proof.
  intros n hx hy qx Hn Oxy Oyx Hq sx sy Hx Hy Qx C1 C2 I1 I2.
  destruct (plan_exists n hx hy qx Hn Oxy Oyx Hq) as (Tx&Ty&HP).
  destruct (plan_closed _ _ _ _ _ HP sx sy Hx Hy Qx C1 C2) as [Ix Iy].
  destruct (plan_run _ _ _ _ _ HP sx sy Hx Hy Qx Ix Iy) as (fx&fy&R1&R2&_&_&S1&S2&P1&P2&J).
  exists fx, fy. repeat (split; [assumption|]). exact (J I1 I2).
Qed.

Lemma joint_run : forall n hx hy (qx : bool),
  (2 * (length (pendh hx) + length (pendh hy)) + (if qx then 0 else 1) < n)%nat ->
  okdir hx hy -> okdir hy hx -> (qx = true -> pendh hy = []) ->
  exists Tx Ty, (exists r, Tx = 70 :: r) /\
    forall sx sy, s_h sx = hx -> s_h sy = hy -> s_remote_nomsgs sx = qx -> s_in sx = Ty -> s_in sy = Tx ->
      Inv sx sy -> Inv sy sx ->
      exists fx fy, run true sx = (XNil, fx) /\ run false sy = (XNil, fy) /\
        wire fx = wire sx ++ Tx /\ wire fy = wire sy ++ Ty /\
        hsame (s_h fx) hx /\ hsame (s_h fy) hy /\ pendh (s_h fx) = [] /\ pendh (s_h fy) = [] /\
        Inv fx fy /\ Inv fy fx.
Proof.
  intros n hx hy qx Hn Oxy Oyx Hq. destruct (plan_exists n hx hy qx Hn Oxy Oyx Hq) as (Tx&Ty&HP).
  exists Tx, Ty. split; [exact (plan_F _ _ _ _ _ HP)|]. intros sx sy Hx Hy Qx Ix Iy I1 I2.
  destruct (plan_run _ _ _ _ _ HP sx sy Hx Hy Qx Ix Iy) as (fx&fy&R1&R2&W1&W2&S1&S2&P1&P2&J).
  exists fx, fy. repeat (split; [assumption|]). exact (J I1 I2).
Qed.

Lemma handshake_proj {T} (g : sess -> T) :
  (forall s b, g (wr s b) = g s) -> (forall a b, eqo a b -> g a = g b) ->
  forall s s', handshake s = ROk s' -> g s' = g s.
Proof.
  intros Gw Ge s s' H. pose proof (handshake_quiet s) as A. rewrite H in A. destruct A as (p&b&r&w&_&_&->).
  clear H. transitivity (g (set_in s r)); [|apply Ge; reflexivity].
  induction w as [|x w IH]; [f_equal; destruct s as [i o e [] m n se rc c mo]; reflexivity|].
  change (upd (act p b []) (x :: w) r s) with (wr (upd (act p b []) w r s) x). rewrite Gw. exact IH.
Qed.

Lemma handshake_ev s s' : handshake s = ROk s' -> s_ev s' = s_ev s.
Proof. apply handshake_proj; [reflexivity|apply eqo_ev]. Qed.
Lemma handshake_nomsgs s s' : handshake s = ROk s' -> s_remote_nomsgs s' = s_remote_nomsgs s.
Proof. apply handshake_proj; [reflexivity|]. intros a b H. exact (f_equal s_remote_nomsgs H). Qed.

Lemma exchange_ok3 cfg input s2 :
  h_present (c_handler cfg) && h_prepare_err (c_handler cfg) = false ->
  handshake (init_state cfg input) = ROk s2 ->
  x_res (exchange cfg input) = fst (run (negb (c_master cfg)) s2) /\
  x_wire (exchange cfg input) = wire (final (negb (c_master cfg)) s2) /\
  x_events (exchange cfg input) = rev (s_ev (final (negb (c_master cfg)) s2)).
Proof.
  intros Hp Hh. split; [|apply exchange_ok; assumption].
  rewrite (exchange_run _ _ _ Hp Hh). destruct (run (negb (c_master cfg)) s2) as [r s3]. apply finish_res.
Qed.

Lemma init_state_present cfg i : h_present (c_handler cfg) = true ->
  s_ev (init_state cfg i) = [EvPrepare] /\ s_remote_nomsgs (init_state cfg i) = false.
Proof. intros H. unfold init_state. rewrite H. split; reflexivity. Qed.

(* side x can deliver its outbox to side y *)
Definition side_ready (x y : side_cfg) : Prop :=
  h_prepare_err (c_handler x) = false /\ okdir (c_handler x) (c_handler y) /\
  (forall p, In p (h_outbox (c_handler x)) -> ~ In (o_mid p) (h_gone (c_handler x))).

Lemma side_ready_noerr x y : side_ready x y -> h_present (c_handler x) && h_prepare_err (c_handler x) = false.
Proof. intros (E&_). rewrite E. apply andb_false_r. Qed.

(* what the logs of the owner (ox) and of the peer (oy) say about the owner's outbox *)
Definition delivered (hx hy : hstate) (ox oy : outcome) : Prop :=
  (forall p, In p (h_outbox hx) ->
    match policy_of hy (o_mid p) with
    | AAccept => filter (own (o_mid p)) (x_events ox) = [EvSetSent (o_mid p) false] /\
                 filter (proc (o_mid p)) (x_events oy) = [EvProcess (o_mid p) (pm_data p) true] /\
                 proposal_message (o_cdata p) = MOk (o_mid p) (pm_data p)
    | AReject => filter (own (o_mid p)) (x_events ox) = [EvSetSent (o_mid p) true] /\
                 filter (proc (o_mid p)) (x_events oy) = []
    | ADefer => filter (own (o_mid p)) (x_events ox) = [EvSetDeferred (o_mid p)] /\
                filter (proc (o_mid p)) (x_events oy) = []
    end) /\
  (* and nothing else: no event of these kinds for a MID that is not in the outbox *)
  (forall m, ~ In m (map o_mid (h_outbox hx)) ->
     filter (own m) (x_events ox) = [] /\ filter (proc m) (x_events oy) = []).

Lemma filter_one_rev f l e : cnt f l = 1%nat -> In e l -> f e = true -> filter f (rev l) = [e].
Proof. intros H1 H2 H3. apply cnt_one; [rewrite cnt_rev; exact H1|apply in_rev in H2; exact H2|exact H3]. Qed.
Lemma filter_zero_rev f l : cnt f l = 0%nat -> filter f (rev l) = [].
Proof. intros H. apply cnt_zero. rewrite cnt_rev. exact H. Qed.

Lemma done_delivered hx hy fx fy ox oy :
  hsame (s_h fx) hx -> hsame (s_h fy) hy -> pendh (s_h fx) = [] -> Inv fx fy ->
  Forall prop_wf (h_outbox hx) ->
  x_events ox = rev (s_ev fx) -> x_events oy = rev (s_ev fy) ->
  delivered hx hy ox oy.
Proof.
  intros Sx Sy Pe [HI HA] Hwf Ex Ey. unfold delivered. rewrite Ex, Ey. split.
  2:{ intros m Hm. destruct (HA m) as [A1 A2]; [unfold hob; rewrite (hsame_outbox _ _ Sx); exact Hm|].
      split; apply filter_zero_rev; assumption. }
  intros p Hp.
  assert (Hp' : In p (hob fx)) by (unfold hob; rewrite (hsame_outbox _ _ Sx); exact Hp).
  destruct (HI p Hp') as [(D1&D2&D3&D4)|(N1&_)].
  2:{ exfalso. assert (K : In p (pendh (s_h fx))) by (apply pendh_In; split; assumption). rewrite Pe in K. exact K. }
  rewrite (hsame_policy _ _ (o_mid p) Sy) in D3, D4.
  destruct (policy_of hy (o_mid p)).
  - destruct D4 as [D4 D5]. split; [|split].
    + apply filter_one_rev; [exact D2|exact D3|]. cbn [own]. apply beq_bytes_refl.
    + apply filter_one_rev; [exact D4|exact D5|]. cbn [proc]. apply beq_bytes_refl.
    + apply (proj1 (Forall_forall _ _) Hwf), Hp.
  - split; [|apply filter_zero_rev, D4].
    apply filter_one_rev; [exact D2|exact D3|]. cbn [own]. apply beq_bytes_refl.
  - split; [|apply filter_zero_rev, D4].
    apply filter_one_rev; [exact D2|exact D3|]. cbn [own]. apply beq_bytes_refl.
Qed.

(* after the handshakes nothing has been touched: the invariant holds with every outbox entry
   "not yet", as long as none of them is marked gone *)
Lemma Inv_start cx cy ix iy sx sy jx jy :
  h_present (c_handler cx) = true -> h_present (c_handler cy) = true ->
  handshake (init_state cx ix) = ROk sx -> handshake (init_state cy iy) = ROk sy ->
  (forall p, In p (h_outbox (c_handler cx)) -> ~ In (o_mid p) (h_gone (c_handler cx))) ->
  Inv (ext jx sx) (ext jy sy).
Proof.
  intros Px Py Hx Hy G.
  assert (Vx : s_ev (ext jx sx) = [EvPrepare])
    by (cbn [ext set_in s_ev]; rewrite (handshake_ev _ _ Hx); apply (init_state_present cx ix Px)).
  assert (Vy : s_ev (ext jy sy) = [EvPrepare])
    by (cbn [ext set_in s_ev]; rewrite (handshake_ev _ _ Hy); apply (init_state_present cy iy Py)).
  assert (Fx : s_h (ext jx sx) = c_handler cx) by (cbn [ext set_in s_h]; rewrite (handshake_h _ _ Hx); apply init_state_h).
  split; [|intros k _; rewrite Vx, Vy; split; reflexivity].
  intros p Hp. right. unfold notyet_p, gone, hob in *. rewrite Fx in Hp |- *. rewrite Vx, Vy.
  split; [apply G, Hp|split; reflexivity].
Qed.

(* a closed pair of streams: each side's input is exactly what the other side wrote *)
Definition closed (a b : side_cfg) (in_a in_b : bytes) : Prop :=
  x_wire (exchange a in_a) = in_b /\ x_wire (exchange b in_b) = in_a.

(* master m and slave s with the greetings M, S of hs_compat, fed S ++ 70 :: r and M ++ Y: both
   handshakes succeed and leave the pair at its first turn boundary, the slave to send *)
Lemma ms_boundary (m s : side_cfg) M S sm ss r Y :
  handshake (init_state m (S ++ [70])) = ROk sm -> s_in sm = [70] ->
  handshake (init_state s M) = ROk ss -> s_in ss = [] -> h_present (c_handler s) = true ->
  handshake (init_state m (S ++ 70 :: r)) = ROk (ext r sm) /\ handshake (init_state s (M ++ Y)) = ROk (ext Y ss) /\
  s_h (ext Y ss) = c_handler s /\ s_h (ext r sm) = c_handler m /\ s_remote_nomsgs (ext Y ss) = false /\
  s_in (ext Y ss) = Y /\ s_in (ext r sm) = 70 :: r.
Proof.
  intros Hm1 Hm2 Hs1 Hs2 Ps.
  split; [change (70 :: r) with ([70] ++ r); rewrite app_assoc, init_state_ext; apply hs_forward, Hm1|].
  split; [rewrite init_state_ext; apply hs_forward, Hs1|].
  cbn [ext set_in s_h s_remote_nomsgs s_in].
  rewrite (handshake_h _ _ Hs1), (handshake_h _ _ Hm1), (handshake_nomsgs _ _ Hs1), !init_state_h, Hm2, Hs2.
  repeat split. apply (init_state_present s M Ps).
Qed.

(* a closed pair is the two greetings followed by the streams of the first turn boundary *)
Lemma closed_pair_split (m s : side_cfg) M S sm ss :
  c_master m = true -> c_master s = false ->
  handshake (init_state m (S ++ [70])) = ROk sm -> s_in sm = [70] -> wire sm = M ->
  handshake (init_state s M) = ROk ss -> s_in ss = [] -> wire ss = S ->
  side_ready m s -> side_ready s m ->
  forall in_m in_s, closed m s in_m in_s ->
  exists sx sy, in_s = M ++ tailw false sy /\ in_m = S ++ tailw true sx /\
    s_h sx = c_handler s /\ s_h sy = c_handler m /\ s_remote_nomsgs sx = false /\
    tailw true sx = s_in sy /\ tailw false sy = s_in sx.
Proof.
  intros Mm Ms Hm1 Hm2 Hm3 Hs1 Hs2 Hs3 Rm Rs in_m in_s [Cm Cs].
  pose proof (side_ready_noerr m s Rm) as Bm. pose proof (side_ready_noerr s m Rs) as Bs.
  destruct Rm as (_&Om&Gm). destruct Rs as (_&Os&Gs). pose proof Om as (Pm&_). pose proof Os as (Ps&_).
  destruct (master_greets m _ sm in_m Mm Bm Hm1) as [X HX]. rewrite Cm, Hm3 in HX.
  (* the slave reads it, answers and takes the first turn *)
  assert (Hhs : handshake (init_state s in_s) = ROk (ext X ss)) by (rewrite HX, init_state_ext; apply hs_forward, Hs1).
  destruct (exchange_ok3 s in_s _ Bs Hhs) as (_&Wrs&_). rewrite Ms in Wrs. cbn [negb] in Wrs.
  destruct (tailw_send_F (ext X ss)) as [rF HF].
  assert (Hinm : in_m = S ++ 70 :: rF).
  { rewrite <- Cs, Wrs, tailw_eq, HF. change (wire (ext X ss)) with (wire ss). rewrite Hs3. reflexivity. }
  (* the master reads the slave's greeting *)
  destruct (ms_boundary m s M S sm ss rF X Hm1 Hm2 Hs1 Hs2 Ps) as (Hhm&_&Hsx&Hsy&Qx&Ix&Iy). rewrite <- Hinm in Hhm.
  destruct (exchange_ok3 m in_m _ Bm Hhm) as (_&Wrm&_). rewrite Mm in Wrm. cbn [negb] in Wrm.
  assert (EX : X = tailw false (ext rF sm)).
  { rewrite <- Cm, Wrm, tailw_eq in HX. change (wire (ext rF sm)) with (wire sm) in HX. rewrite Hm3 in HX.
    apply app_inv_head in HX. symmetry. exact HX. }
  exists (ext X ss), (ext rF sm). rewrite <- EX, HF, Ix, Iy. split; [exact HX|]. split; [exact Hinm|].
  repeat (split; [assumption || reflexivity|]). reflexivity.
Qed.

(* master m, slave s: the greetings followed by the streams of the plan are a closed pair, there is no other, and
   it delivers *)
Theorem closed_pair_ms (m s : side_cfg) :
  c_master m = true -> c_master s = false -> hs_compat m s -> side_ready m s -> side_ready s m ->
  exists in_m in_s, closed m s in_m in_s /\ (forall i j, closed m s i j -> i = in_m /\ j = in_s) /\
    x_res (exchange m in_m) = XNil /\ x_res (exchange s in_s) = XNil /\
    delivered (c_handler m) (c_handler s) (exchange m in_m) (exchange s in_s) /\
    delivered (c_handler s) (c_handler m) (exchange s in_s) (exchange m in_m).
Proof.
  intros Mm Ms (M&S&sm&ss&Hm1&Hm2&Hm3&Hs1&Hs2&Hs3) Rm Rs.
  pose proof (side_ready_noerr m s Rm) as Bm. pose proof (side_ready_noerr s m Rs) as Bs.
  pose proof Rm as (_&Om&Gm). pose proof Rs as (_&Os&Gs). pose proof Om as (Pm&_&Wm&_). pose proof Os as (Ps&_&Ws&_).
  destruct (plan_exists (Datatypes.S (2 * (length (pendh (c_handler s)) + length (pendh (c_handler m))) + 1))%nat
              (c_handler s) (c_handler m) false (Nat.lt_succ_diag_r _) Os Om ltac:(discriminate)) as (Tx&Ty&HP).
  exists (S ++ Tx), (M ++ Ty).
  (* both sides fed these follow the plan *)
  destruct (plan_F _ _ _ _ _ HP) as [r Er].
  destruct (ms_boundary m s M S sm ss r Ty Hm1 Hm2 Hs1 Hs2 Ps) as (Hhm&Hhs&Hsx&Hsy&Qx&Ix&Iy).
  rewrite <- Er in Hhm, Iy.
  destruct (plan_run _ _ _ _ _ HP (ext Ty ss) (ext r sm) Hsx Hsy Qx Ix Iy) as (fx&fy&R1&R2&W1&W2&S1&S2&P1&P2&J).
  destruct J as [J1 J2];
    [exact (Inv_start s m M (S ++ [70]) ss sm _ _ Ps Pm Hs1 Hm1 Gs)|exact (Inv_start m s (S ++ [70]) M sm ss _ _ Pm Ps Hm1 Hs1 Gm)|].
  destruct (exchange_ok3 s (M ++ Ty) _ Bs Hhs) as (Rs'&Wrs&Evs). destruct (exchange_ok3 m (S ++ Tx) _ Bm Hhm) as (Rm'&Wrm&Evm).
  rewrite Ms in Rs', Wrs, Evs. rewrite Mm in Rm', Wrm, Evm. unfold final in Wrm, Wrs, Evm, Evs. cbn [negb] in *.
  rewrite R1 in Rs', Wrs, Evs. rewrite R2 in Rm', Wrm, Evm. cbn [fst snd fin_state] in *.
  change (wire (ext Ty ss)) with (wire ss) in W1. change (wire (ext r sm)) with (wire sm) in W2.
  rewrite W1, Hs3 in Wrs. rewrite W2, Hm3 in Wrm.
  split; [split; assumption|]. split; [|split; [exact Rm'|]; split; [exact Rs'|]; split].
  - (* a closed pair stands at the first boundary as a closed pair of states, which reads the plan *)
    intros i j Hc.
    destruct (closed_pair_split m s M S sm ss Mm Ms Hm1 Hm2 Hm3 Hs1 Hs2 Hs3 Rm Rs i j Hc) as (sx&sy&HX&HY&Hx&Hy&Qx'&C1&C2).
    destruct (plan_closed _ _ _ _ _ HP sx sy Hx Hy Qx' C1 C2) as [Kx Ky].
    rewrite C2, Kx in HX. rewrite C1, Ky in HY. split; assumption.
  - eapply (done_delivered _ _ fy fx); eassumption.
  - eapply (done_delivered _ _ fx fy); eassumption.
Qed.

(* master m, slave s: any closed pair *)
Theorem closed_exchange_ms (m s : side_cfg) :
  c_master m = true -> c_master s = false -> hs_compat m s -> side_ready m s -> side_ready s m ->
  forall in_m in_s, closed m s in_m in_s ->
    x_res (exchange m in_m) = XNil /\ x_res (exchange s in_s) = XNil /\
    delivered (c_handler m) (c_handler s) (exchange m in_m) (exchange s in_s) /\
    delivered (c_handler s) (c_handler m) (exchange s in_s) (exchange m in_m).
Proof.
  intros Mm Ms Hhs Rm Rs in_m in_s Hc. destruct (closed_pair_ms m s Mm Ms Hhs Rm Rs) as (i&j&_&U&R).
  destruct (U _ _ Hc) as [-> ->]. exact R.
Qed.

(* master m, slave s: there is a closed pair *)
Theorem complete_exchange_ms (m s : side_cfg) :
  c_master m = true -> c_master s = false -> hs_compat m s -> side_ready m s -> side_ready s m ->
  exists in_m in_s,
    x_wire (exchange m in_m) = in_s /\ x_wire (exchange s in_s) = in_m /\
    x_res (exchange m in_m) = XNil /\ x_res (exchange s in_s) = XNil /\
    delivered (c_handler m) (c_handler s) (exchange m in_m) (exchange s in_s) /\
    delivered (c_handler s) (c_handler m) (exchange s in_s) (exchange m in_m).
Proof.
  intros Mm Ms Hhs Rm Rs. destruct (closed_pair_ms m s Mm Ms Hhs Rm Rs) as (i&j&[C1 C2]&_&R).
  exists i, j. split; [exact C1|]. split; [exact C2|exact R].
Qed.

(* either side may be the master *)
Theorem complete_exchange (a b : side_cfg) :
  c_master a = negb (c_master b) ->
  hs_compat (if c_master a then a else b) (if c_master a then b else a) ->
  side_ready a b -> side_ready b a ->
  exists in_a in_b,
    x_wire (exchange a in_a) = in_b /\ x_wire (exchange b in_b) = in_a /\
    x_res (exchange a in_a) = XNil /\ x_res (exchange b in_b) = XNil /\
    delivered (c_handler a) (c_handler b) (exchange a in_a) (exchange b in_b) /\
    delivered (c_handler b) (c_handler a) (exchange b in_b) (exchange a in_a).
Proof.
  intros Hrole Hhs Ra Rb. destruct (roles_cases a b Hrole) as [[Ma Mb]|[Ma Mb]]; rewrite Ma in Hhs.
  - destruct (complete_exchange_ms a b Ma Mb Hhs Ra Rb) as (ia&ib&H1&H2&H3&H4&H5&H6).
    exists ia, ib. repeat (split; [assumption|]); assumption.
  - destruct (complete_exchange_ms b a Mb Ma Hhs Rb Ra) as (ib&ia&H1&H2&H3&H4&H5&H6).
    exists ia, ib. repeat (split; [assumption|]); assumption.
Qed.

(* the hypotheses on a side spelled out with the definitions of PairDefs.v / CutP.v *)
Lemma side_ready_intro (x y : side_cfg) :
  h_present (c_handler x) = true -> h_prepare_err (c_handler x) = false ->
  Forall prop_syn (h_outbox (c_handler x)) ->
  (forall p, In p (h_outbox (c_handler x)) -> ~ In 0 (firstn 80 (o_title p))) ->
  outbox_wf (c_handler x) ->
  NoDup (map o_mid (h_outbox (c_handler x))) ->
  (forall p, In p (h_outbox (c_handler x)) -> ~ In (o_mid p) (h_fail (c_handler y))) ->
  (forall p, In p (h_outbox (c_handler x)) -> ~ In (o_mid p) (h_gone (c_handler x))) ->
  side_ready x y.
Proof.
  intros H1 H2 H3 H4 H5 H6 H7 H8. split; [exact H2|]. split; [|exact H8].
  split; [exact H1|]. split; [|split; [|split; [exact H6|]]].
  - apply Forall_forall. intros p Hp. split; [apply (proj1 (Forall_forall _ _) H3), Hp|apply H4, Hp].
  - apply Forall_forall. intros p Hp. apply prop_wf_iff, H5, Hp.
  - intros p Hp. apply mem_bytes_notin, H7, Hp.
Qed.

(* in the terms of PairIter.v (delivered_once, sent_once) *)
Lemma filter_filter_imp {T} (f g : T -> bool) l : (forall e, g e = true -> f e = true) -> filter g (filter f l) = filter g l.
Proof.
  intros H. induction l as [|x l IH]; [reflexivity|]. cbn [filter].
  destruct (f x) eqn:Ef; cbn [filter].
  - rewrite IH. reflexivity.
  - destruct (g x) eqn:Eg; [rewrite (H _ Eg) in Ef; discriminate|exact IH].
Qed.

Lemma delivered_once_of hx hy ox oy p :
  delivered hx hy ox oy -> In p (h_outbox hx) -> policy_of hy (o_mid p) = AAccept ->
  delivered_once oy (o_mid p) /\ sent_once ox (o_mid p).
Proof.
  intros [H _] Hp Ha. specialize (H p Hp). rewrite Ha in H. destruct H as (H1&H2&_). split.
  - unfold delivered_once. rewrite <- (filter_filter_imp (proc (o_mid p))).
    + rewrite H2. cbn [filter]. rewrite beq_bytes_refl. reflexivity.
    + intros [| | | | |m d [|]|]; try discriminate. intros E; exact E.
  - unfold sent_once. rewrite <- (filter_filter_imp (own (o_mid p))).
    + rewrite H1. cbn [filter]. rewrite beq_bytes_refl. reflexivity.
    + intros [| |m [|]| | | |]; try discriminate. intros E; exact E.
Qed.

(* the conclusion of PairIter.C01_exchange_statement under the hypotheses that make it true, for the
   complete run given as the pair of streams, in both directions *)
Theorem C01_exchange_delivers (a b : side_cfg) :
  c_master a = negb (c_master b) ->
  hs_compat (if c_master a then a else b) (if c_master a then b else a) ->
  side_ready a b -> side_ready b a ->
  exists in_a in_b,
    let oa := exchange a in_a in let ob := exchange b in_b in
    x_wire oa = in_b /\ x_wire ob = in_a /\ x_res oa = XNil /\ x_res ob = XNil /\
    (forall p, In p (h_outbox (c_handler a)) -> policy_of (c_handler b) (o_mid p) = AAccept ->
       delivered_once ob (o_mid p) /\ sent_once oa (o_mid p)) /\
    (forall p, In p (h_outbox (c_handler b)) -> policy_of (c_handler a) (o_mid p) = AAccept ->
       delivered_once oa (o_mid p) /\ sent_once ob (o_mid p)).
Proof.
  intros H1 H2 H3 H4. destruct (complete_exchange a b H1 H2 H3 H4) as (ia&ib&W1&W2&R1&R2&D1&D2).
  exists ia, ib. cbv zeta. repeat split; try assumption.
  - eapply delivered_once_of; eassumption.
  - eapply delivered_once_of; eassumption.
  - eapply delivered_once_of; eassumption.
  - eapply delivered_once_of; eassumption.
Qed.

(* the iteration stops exactly at the closed pairs, and stays there *)
Lemma pair_iter_closed n a b in_a in_b : closed a b in_a in_b ->
  pair_iter n a b in_a = (exchange a in_a, exchange b in_b).
Proof.
  intros [H1 H2]. destruct n as [|n]; cbn [pair_iter]; rewrite H1; [reflexivity|].
  rewrite H2, beq_bytes_refl. reflexivity.
Qed.

Fixpoint iter_in (n : nat) (a b : side_cfg) (i : bytes) : bytes :=
  match n with O => i | S k => iter_in k a b (x_wire (exchange b (x_wire (exchange a i)))) end.

Lemma pair_iter_stable n a b : forall i, let '(oa, ob) := pair_iter n a b i in
  x_wire (exchange a (x_wire ob)) = x_wire oa -> closed a b (x_wire ob) (x_wire oa).
Proof.
  induction n as [|n IH]; intros i; cbn [pair_iter].
  - intros H. split; [exact H|reflexivity].
  - destruct (beq_bytes _ i) eqn:E; [|apply IH].
    apply beq_bytes_true in E. intros _. unfold closed. rewrite E. split; reflexivity.
Qed.

(* a stable input stays: further rounds change nothing, and the iteration returns its outcomes *)
Lemma iter_in_stable n a b i : x_wire (exchange b (x_wire (exchange a i))) = i -> iter_in n a b i = i.
Proof. intros H. induction n as [|n IH]; cbn [iter_in]; [reflexivity|]. rewrite H. exact IH. Qed.

Lemma iter_in_add k a b : forall n i, iter_in (k + n) a b i = iter_in n a b (iter_in k a b i).
Proof. induction k as [|k IH]; intros n i; cbn [iter_in Nat.add]; [reflexivity|apply IH]. Qed.

Lemma iter_in_stop k n a b i : (k <= n)%nat ->
  x_wire (exchange b (x_wire (exchange a (iter_in k a b i)))) = iter_in k a b i ->
  iter_in n a b i = iter_in k a b i.
Proof.
  intros Hk H. replace n with (k + (n - k))%nat by lia. rewrite iter_in_add. apply iter_in_stable, H.
Qed.

Lemma pair_iter_stop k a b : forall n i, (k <= n)%nat ->
  x_wire (exchange b (x_wire (exchange a (iter_in k a b i)))) = iter_in k a b i ->
  pair_iter n a b i = (exchange a (iter_in k a b i), exchange b (x_wire (exchange a (iter_in k a b i)))).
Proof.
  induction k as [|k IH]; intros n i Hk H.
  - cbn [iter_in] in *. apply pair_iter_closed. split; [reflexivity|exact H].
  - destruct n as [|n]; [lia|]. cbn [pair_iter]. destruct (beq_bytes _ i) eqn:E.
    + apply beq_bytes_true in E. rewrite (iter_in_stable (S k) a b i E). reflexivity.
    + cbn [iter_in] in *. apply IH; [lia|exact H].
Qed.

(* for a pair as in complete_exchange, the iteration started at the closed pair of the theorem
   returns its two outcomes, whatever n *)
Corollary complete_exchange_iter (a b : side_cfg) :
  c_master a = negb (c_master b) ->
  hs_compat (if c_master a then a else b) (if c_master a then b else a) ->
  side_ready a b -> side_ready b a ->
  exists in_a, forall n, let '(oa, ob) := pair_iter n a b in_a in
    closed a b in_a (x_wire oa) /\ x_res oa = XNil /\ x_res ob = XNil /\
    delivered (c_handler a) (c_handler b) oa ob /\ delivered (c_handler b) (c_handler a) ob oa.
Proof.
  intros H1 H2 H3 H4. destruct (complete_exchange a b H1 H2 H3 H4) as (ia&ib&W1&W2&R1&R2&D1&D2).
  exists ia. intros n. rewrite (pair_iter_closed n a b ia ib (conj W1 W2)).
  split; [split; [reflexivity|rewrite W1; exact W2]|]. repeat (split; [assumption|]); assumption.
Qed.

Definition prop_check (p : oprop) : bool :=
  negb (in_list 13 (o_mid p)) && negb (in_list 32 (o_mid p)) &&
  (6 <=? length (o_cdata p))%nat && (N.of_nat (length (o_cdata p)) <=? 9223372036854775807) &&
  negb (in_list 0 (firstn 80 (o_title p))) &&
  match proposal_message (o_cdata p) with MOk m _ => beq_bytes m (o_mid p) | _ => false end.
Fixpoint nodupb (l : list bytes) : bool :=
  match l with [] => true | x :: r => negb (mem_bytes x r) && nodupb r end.
Definition side_check (x y : side_cfg) : bool :=
  h_present (c_handler x) && negb (h_prepare_err (c_handler x)) &&
  forallb prop_check (h_outbox (c_handler x)) && nodupb (map o_mid (h_outbox (c_handler x))) &&
  forallb (fun p => negb (mem_bytes (o_mid p) (h_fail (c_handler y))) && negb (mem_bytes (o_mid p) (h_gone (c_handler x))))
          (h_outbox (c_handler x)).

Lemma prop_check_sound p : prop_check p = true -> prop_live p /\ prop_wf p.
Proof.
  unfold prop_check. rewrite !andb_true_iff, !negb_true_iff. intros [[[[[H1 H2] H3] H4] H5] H6].
  split; [split; [split; [split|split]|]|].
  - apply in_list_false, H1.
  - apply in_list_false, H2.
  - apply Nat.leb_le, H3.
  - apply N.leb_le in H4. lia.
  - apply in_list_false, H5.
  - unfold prop_wf, pm_data. destruct (proposal_message (o_cdata p)) as [m d| |]; try discriminate.
    apply beq_bytes_true in H6. subst m. reflexivity.
Qed.
Lemma nodupb_sound l : nodupb l = true -> NoDup l.
Proof.
  induction l as [|x r IH]; intros H; [constructor|]. cbn [nodupb] in H. apply andb_true_iff in H.
  destruct H as [H1 H2]. apply negb_true_iff, mem_bytes_notin in H1. constructor; [exact H1|apply IH, H2].
Qed.
Lemma side_check_sound x y : side_check x y = true -> side_ready x y.
Proof.
  unfold side_check. rewrite !andb_true_iff, negb_true_iff. intros [[[[H1 H2] H3] H4] H5].
  rewrite forallb_forall in H3, H5.
  split; [exact H2|]. split.
  - split; [exact H1|]. split; [|split; [|split]].
    + apply Forall_forall. intros p Hp. apply prop_check_sound, H3, Hp.
    + apply Forall_forall. intros p Hp. apply prop_check_sound, H3, Hp.
    + apply nodupb_sound, H4.
    + intros p Hp. specialize (H5 p Hp). apply andb_true_iff in H5. apply negb_true_iff, (proj1 H5).
  - intros p Hp. specialize (H5 p Hp). apply andb_true_iff in H5. apply mem_bytes_notin, negb_true_iff, (proj2 H5).
Qed.

Theorem complete_exchange_check (a b : side_cfg) :
  c_master a = negb (c_master b) ->
  hs_check (if c_master a then a else b) (if c_master a then b else a) = true ->
  side_check a b = true -> side_check b a = true ->
  exists in_a in_b,
    closed a b in_a in_b /\ x_res (exchange a in_a) = XNil /\ x_res (exchange b in_b) = XNil /\
    delivered (c_handler a) (c_handler b) (exchange a in_a) (exchange b in_b) /\
    delivered (c_handler b) (c_handler a) (exchange b in_b) (exchange a in_a).
Proof.
  intros H1 H2 H3 H4.
  destruct (complete_exchange a b H1 (hs_check_sound _ _ H2) (side_check_sound _ _ H3) (side_check_sound _ _ H4))
    as (ia&ib&W1&W2&R). exists ia, ib. split; [split; assumption|exact R].
Qed.

(* "Mid: <m>\r\nBody: 5\r\nDate: 2016/12/30 01:00\r\n\r\nhAR\r\n" *)
Definition dx_msg (m : bytes) : bytes :=
  [77;105;100;58;32] ++ m ++ [13;10;66;111;100;121;58;32;53;13;10;68;97;116;101;58;32;50;48;49;54;47;49;50;47;
   51;48;32;48;49;58;48;48;13;10;13;10;104;65;82;13;10].
Definition dx_prop (m : bytes) : oprop :=
  {| o_mid := m; o_title := [116]; o_plain_title := [116]; o_size := 50; o_cdata := Dec.compress true (dx_msg m) |}.
(* six messages A1..A6 (more than one block) one way, two messages B1, B2 the other way; the slave
   rejects A2 and defers A4 *)
Definition dx_a : side_cfg := cx_side true (map dx_prop [[65;49];[65;50];[65;51];[65;52];[65;53];[65;54]]) [] [].
Definition dx_b : side_cfg := cx_side false (map dx_prop [[66;49];[66;50]]) [([65;50], AReject); ([65;52], ADefer)] [].

(* The compressed messages are evaluated once each (compress is by far the dearest part of these
   runs); the instances below rewrite with these equations before anything is computed. *)
Lemma dx_cdata_A1 : compress true (dx_msg [65;49]) =
  [238;107;49;0;0;0;236;253;126;28;109;103;55;123;153;203;115;191;120;96;184;88;60;27;235;222;135;180;3;227;
   90;182;251;121;127;194;221;211;176;165;223;215;217;159;90;213;72;233;71;167;75;233;129;222;138;16].
Proof. vm_compute. reflexivity. Qed.

Definition dx_a_lit : side_cfg := Eval vm_compute in dx_a.
Definition dx_b_lit : side_cfg := Eval vm_compute in dx_b.
Lemma dx_a_eq : dx_a = dx_a_lit.
Proof. unfold dx_a. cbn [map]. unfold dx_prop at 1. rewrite dx_cdata_A1. vm_compute. reflexivity. Qed.
Lemma dx_b_eq : dx_b = dx_b_lit.
Proof. vm_compute. reflexivity. Qed.

Lemma dx_checks :
  hs_check dx_a_lit dx_b_lit = true /\ side_check dx_a_lit dx_b_lit = true /\ side_check dx_b_lit dx_a_lit = true.
Proof. vm_compute. repeat split. Qed.

Example dx_complete :
  exists in_a in_b,
    closed dx_a dx_b in_a in_b /\ x_res (exchange dx_a in_a) = XNil /\ x_res (exchange dx_b in_b) = XNil /\
    delivered (c_handler dx_a) (c_handler dx_b) (exchange dx_a in_a) (exchange dx_b in_b) /\
    delivered (c_handler dx_b) (c_handler dx_a) (exchange dx_b in_b) (exchange dx_a in_a).
Proof.
  rewrite dx_a_eq, dx_b_eq. destruct dx_checks as (H1&H2&H3).
  apply complete_exchange_check; [reflexivity|exact H1|exact H2|exact H3].
Qed.

(* Six rounds of PairIter.pair_iter from the empty input reach a stable input for this
   instance.  It and the two outcomes on it are evaluated once each; what follows, here and in the
   files that use the instance, rewrites with these equations. *)
Definition dx_in6 : bytes := Eval vm_compute in iter_in 6 dx_a_lit dx_b_lit [].
Lemma dx_in6_eq : iter_in 6 dx_a_lit dx_b_lit [] = dx_in6.
Proof. vm_compute. reflexivity. Qed.
Definition dx_oa6 : outcome := Eval vm_compute in exchange dx_a_lit dx_in6.
Lemma dx_oa6_eq : exchange dx_a_lit dx_in6 = dx_oa6.
Proof. vm_compute. reflexivity. Qed.
Definition dx_ob6 : outcome := Eval vm_compute in exchange dx_b_lit (x_wire dx_oa6).
Lemma dx_ob6_eq : exchange dx_b_lit (x_wire dx_oa6) = dx_ob6.
Proof. vm_compute. reflexivity. Qed.
Lemma dx_in6_stable :
  x_wire (exchange dx_b_lit (x_wire (exchange dx_a_lit (iter_in 6 dx_a_lit dx_b_lit [])))) = iter_in 6 dx_a_lit dx_b_lit [].
Proof. rewrite dx_in6_eq, dx_oa6_eq, dx_ob6_eq. reflexivity. Qed.

(* the iteration started with the empty input reaches a closed pair (dx_in6_stable), with the events
   in the order of the session *)
Definition strip (e : event) : event := match e with EvProcess m _ ok => EvProcess m [] ok | _ => e end.
Example dx_iter :
  let '(oa, ob) := pair_iter 20 dx_a dx_b [] in
  closed dx_a dx_b (x_wire ob) (x_wire oa) /\ x_res oa = XNil /\ x_res ob = XNil /\
  map strip (x_events oa) =
    [EvPrepare; EvAnswer [66;49] AAccept; EvAnswer [66;50] AAccept; EvProcess [66;49] [] true; EvProcess [66;50] [] true;
     EvGetOutbound; EvSetDeferred [65;52]; EvSetSent [65;50] true; EvSetSent [65;49] false; EvSetSent [65;51] false;
     EvSetSent [65;53] false; EvBlockEnd; EvGetOutbound; EvSetSent [65;54] false; EvBlockEnd; EvGetOutbound] /\
  map strip (x_events ob) =
    [EvPrepare; EvGetOutbound; EvSetSent [66;49] false; EvSetSent [66;50] false; EvBlockEnd;
     EvAnswer [65;49] AAccept; EvAnswer [65;50] AReject; EvAnswer [65;51] AAccept; EvAnswer [65;52] ADefer;
     EvAnswer [65;53] AAccept; EvProcess [65;49] [] true; EvProcess [65;51] [] true; EvProcess [65;53] [] true;
     EvGetOutbound; EvAnswer [65;54] AAccept; EvProcess [65;54] [] true; EvGetOutbound].
Proof.
  rewrite dx_a_eq, dx_b_eq. rewrite (pair_iter_stop 6 dx_a_lit dx_b_lit 20 [] ltac:(lia) dx_in6_stable).
  split; [rewrite dx_in6_stable; split; [reflexivity|exact dx_in6_stable]|].
  rewrite dx_in6_eq, dx_oa6_eq, dx_ob6_eq. repeat split.
Qed.

(* Each example exhibits a CLOSED pair of streams (the one the iteration reaches from the empty
   input) for two sides with opposite roles, compatible handshakes and handlers on both sides,
   that violates the conclusion of complete_exchange.  The hypothesis that fails is one conjunct of
   side_check a b, named in the comment above each example; the statements of (1)-(6) record only that
   side_check a b = false and side_check b a = true, that of (7) (h_prepare_err of a) records no check.
   The proofs have one shape: the input is stable after at most three rounds (cx_in_stop), so
   cx_in 3, the two outcomes on it and the two checks are each computed once, and the conjuncts
   are read off the results.  Not examined: the two bounds on the compressed length in prop_syn; hs_compat
   and "no CR in a MID" are shown necessary for safety in PairP (two_party_safety_corrected_is_false_motd,
   _mid). *)
Definition cx_in (n : nat) (a b : side_cfg) : bytes := iter_in n a b [].

Lemma cx_in_stop k n a b : (k <= n)%nat ->
  x_wire (exchange b (x_wire (exchange a (cx_in k a b)))) = cx_in k a b -> cx_in n a b = cx_in k a b.
Proof. apply iter_in_stop. Qed.
Lemma pair_iter_cx k n a b : (k <= n)%nat ->
  x_wire (exchange b (x_wire (exchange a (cx_in k a b)))) = cx_in k a b ->
  pair_iter n a b [] = (exchange a (cx_in k a b), exchange b (x_wire (exchange a (cx_in k a b)))).
Proof. apply pair_iter_stop. Qed.

(* (1) the peer's store fails for the MID (h_fail): both sides end with an error *)
Example store_failure_breaks :
  let a := cx_side false [dx_prop [65;49]] [] [] in let b := cx_side true [] [] [[65;49]] in
  let ia := cx_in 6 a b in let ib := x_wire (exchange a ia) in
  closed a b ia ib /\ x_res (exchange a ia) = XOther /\ x_res (exchange b ib) = XOther /\
  side_check a b = false /\ side_check b a = true.
Proof.
  unfold dx_prop. rewrite dx_cdata_A1. set (a := cx_side false _ _ _). set (b := cx_side true _ _ _).
  eassert (Ei : cx_in 3 a b = _) by (vm_compute; reflexivity).
  eassert (Ea : exchange a (cx_in 3 a b) = _) by (rewrite Ei; vm_compute; reflexivity).
  eassert (Eb : exchange b (x_wire (exchange a (cx_in 3 a b))) = _) by (rewrite Ea; vm_compute; reflexivity).
  eassert (Sa : side_check a b = _) by (vm_compute; reflexivity).
  eassert (Sb : side_check b a = _) by (vm_compute; reflexivity).
  rewrite (cx_in_stop 3 6 a b) by (try lia; rewrite Eb, Ei; reflexivity).
  unfold closed. rewrite Eb, Ea, Ei, Sa, Sb. repeat split.
Qed.

(* (2) a NUL among the 80 title bytes that are sent: the receiver refuses the transfer *)
Definition nul_title_prop : oprop :=
  {| o_mid := [65;49]; o_title := [116;0;116]; o_plain_title := [116]; o_size := 50;
     o_cdata := Dec.compress true (dx_msg [65;49]) |}.
Example title_nul_refused :
  let a := cx_side false [nul_title_prop] [] [] in let b := cx_side true [] [] [] in
  let ia := cx_in 6 a b in let ib := x_wire (exchange a ia) in
  closed a b ia ib /\ x_res (exchange a ia) = XOther /\ x_res (exchange b ib) = XOther /\
  Forall prop_syn (h_outbox (c_handler a)) /\ side_check a b = false /\ side_check b a = true.
Proof.
  unfold nul_title_prop. rewrite dx_cdata_A1. set (a := cx_side false _ _ _). set (b := cx_side true _ _ _).
  eassert (Ei : cx_in 3 a b = _) by (vm_compute; reflexivity).
  eassert (Ea : exchange a (cx_in 3 a b) = _) by (rewrite Ei; vm_compute; reflexivity).
  eassert (Eb : exchange b (x_wire (exchange a (cx_in 3 a b))) = _) by (rewrite Ea; vm_compute; reflexivity).
  eassert (Sa : side_check a b = _) by (vm_compute; reflexivity).
  eassert (Sb : side_check b a = _) by (vm_compute; reflexivity).
  rewrite (cx_in_stop 3 6 a b) by (try lia; rewrite Eb, Ei; reflexivity).
  unfold closed. rewrite Eb, Ea, Ei, Sa, Sb.
  split; [split; reflexivity|]. split; [reflexivity|]. split; [reflexivity|]. split; [|split; reflexivity].
  constructor; [|constructor]. unfold prop_syn, mid_ok. cbn [o_mid o_cdata length].
  repeat split; try lia; intros H; cbn in H; intuition discriminate.
Qed.

(* (3) the same MID twice in an outbox: both results are nil and the message is delivered once
   and reported sent once, but it is ALSO reported deferred (the receiver defers the second
   proposal of a MID in a block), so "exactly one event for the MID" fails *)
Example duplicate_mid_also_deferred :
  let a := cx_side false [dx_prop [65;49]; dx_prop [65;49]] [] [] in let b := cx_side true [] [] [] in
  let ia := cx_in 6 a b in let ib := x_wire (exchange a ia) in
  closed a b ia ib /\ x_res (exchange a ia) = XNil /\ x_res (exchange b ib) = XNil /\
  filter (own [65;49]) (x_events (exchange a ia)) = [EvSetDeferred [65;49]; EvSetSent [65;49] false] /\
  delivered_once (exchange b ib) [65;49] /\ sent_once (exchange a ia) [65;49] /\
  side_check a b = false /\ side_check b a = true.
Proof.
  unfold dx_prop. rewrite dx_cdata_A1. set (a := cx_side false _ _ _). set (b := cx_side true _ _ _).
  eassert (Ei : cx_in 3 a b = _) by (vm_compute; reflexivity).
  eassert (Ea : exchange a (cx_in 3 a b) = _) by (rewrite Ei; vm_compute; reflexivity).
  eassert (Eb : exchange b (x_wire (exchange a (cx_in 3 a b))) = _) by (rewrite Ea; vm_compute; reflexivity).
  eassert (Sa : side_check a b = _) by (vm_compute; reflexivity).
  eassert (Sb : side_check b a = _) by (vm_compute; reflexivity).
  rewrite (cx_in_stop 3 6 a b) by (try lia; rewrite Eb, Ei; reflexivity).
  unfold closed, delivered_once, sent_once. rewrite Eb, Ea, Ei, Sa, Sb. repeat split.
Qed.

(* (4) a MID that is already marked gone is never proposed *)
Example gone_mid_not_sent :
  let a := {| c_master := false; c_motd := []; c_hs := c_hs (cx_side false [] [] []);
              c_handler := {| h_present := true; h_prepare_err := false; h_outbox := [dx_prop [65;49]];
                              h_gone := [[65;49]]; h_policy := []; h_fail := [] |} |} in
  let b := cx_side true [] [] [] in
  let ia := cx_in 6 a b in let ib := x_wire (exchange a ia) in
  closed a b ia ib /\ x_res (exchange a ia) = XNil /\ x_res (exchange b ib) = XNil /\
  filter (own [65;49]) (x_events (exchange a ia)) = [] /\ filter (proc [65;49]) (x_events (exchange b ib)) = [] /\
  side_check a b = false /\ side_check b a = true.
Proof.
  unfold dx_prop. rewrite dx_cdata_A1. set (a := Build_side_cfg false _ _ _). set (b := cx_side true _ _ _).
  eassert (Ei : cx_in 3 a b = _) by (vm_compute; reflexivity).
  eassert (Ea : exchange a (cx_in 3 a b) = _) by (rewrite Ei; vm_compute; reflexivity).
  eassert (Eb : exchange b (x_wire (exchange a (cx_in 3 a b))) = _) by (rewrite Ea; vm_compute; reflexivity).
  eassert (Sa : side_check a b = _) by (vm_compute; reflexivity).
  eassert (Sb : side_check b a = _) by (vm_compute; reflexivity).
  rewrite (cx_in_stop 3 6 a b) by (try lia; rewrite Eb, Ei; reflexivity).
  unfold closed. rewrite Eb, Ea, Ei, Sa, Sb. repeat split.
Qed.

(* (5) the MID announced is not the MID inside (CutP.cx_bad_prop): XYZ is reported sent, the
   peer stores ABC *)
Example wrong_mid_inside :
  let a := cx_side false [cx_bad_prop] [] [] in let b := cx_side true [] [] [] in
  let ia := cx_in 6 a b in let ib := x_wire (exchange a ia) in
  closed a b ia ib /\ x_res (exchange a ia) = XNil /\ x_res (exchange b ib) = XNil /\
  filter (own [88;89;90]) (x_events (exchange a ia)) = [EvSetSent [88;89;90] false] /\
  filter (proc [88;89;90]) (x_events (exchange b ib)) = [] /\
  side_check a b = false /\ side_check b a = true.
Proof.
  cbv zeta. unfold cx_bad_prop. rewrite cx_cdata_eq. set (a := cx_side false _ _ _). set (b := cx_side true _ _ _).
  eassert (Ei : cx_in 3 a b = _) by (vm_compute; reflexivity).
  eassert (Ea : exchange a (cx_in 3 a b) = _) by (rewrite Ei; vm_compute; reflexivity).
  eassert (Eb : exchange b (x_wire (exchange a (cx_in 3 a b))) = _) by (rewrite Ea; vm_compute; reflexivity).
  eassert (Sa : side_check a b = _) by (vm_compute; reflexivity).
  eassert (Sb : side_check b a = _) by (vm_compute; reflexivity).
  rewrite (cx_in_stop 3 6 a b) by (try lia; rewrite Eb, Ei; reflexivity).
  unfold closed. rewrite Eb, Ea, Ei, Sa, Sb. repeat split.
Qed.

(* (6) a space in the MID (prop_syn fails): the peer cannot parse the proposal *)
Definition space_mid_prop : oprop :=
  {| o_mid := [65;32;49]; o_title := [116]; o_plain_title := [116]; o_size := 50;
     o_cdata := Dec.compress true (dx_msg [65;32;49]) |}.
Example space_in_mid_breaks :
  let a := cx_side false [space_mid_prop] [] [] in let b := cx_side true [] [] [] in
  let ia := cx_in 6 a b in let ib := x_wire (exchange a ia) in
  closed a b ia ib /\ x_res (exchange a ia) <> XNil /\ x_res (exchange b ib) <> XNil /\
  side_check a b = false /\ side_check b a = true.
Proof.
  cbv zeta. eassert (Ec : space_mid_prop = _) by (vm_compute; reflexivity). rewrite Ec. clear Ec.
  set (a := cx_side false _ _ _). set (b := cx_side true _ _ _).
  eassert (Ei : cx_in 3 a b = _) by (vm_compute; reflexivity).
  eassert (Ea : exchange a (cx_in 3 a b) = _) by (rewrite Ei; vm_compute; reflexivity).
  eassert (Eb : exchange b (x_wire (exchange a (cx_in 3 a b))) = _) by (rewrite Ea; vm_compute; reflexivity).
  eassert (Sa : side_check a b = _) by (vm_compute; reflexivity).
  eassert (Sb : side_check b a = _) by (vm_compute; reflexivity).
  rewrite (cx_in_stop 3 6 a b) by (try lia; rewrite Eb, Ei; reflexivity).
  unfold closed. rewrite Eb, Ea, Ei, Sa, Sb. repeat split; discriminate.
Qed.

(* (7) Prepare fails *)
Example prepare_error_breaks :
  let a := {| c_master := false; c_motd := []; c_hs := c_hs (cx_side false [] [] []);
              c_handler := {| h_present := true; h_prepare_err := true; h_outbox := [dx_prop [65;49]];
                              h_gone := []; h_policy := []; h_fail := [] |} |} in
  let b := cx_side true [] [] [] in
  let ia := cx_in 6 a b in let ib := x_wire (exchange a ia) in
  closed a b ia ib /\ x_res (exchange a ia) = XOther /\ x_res (exchange b ib) <> XNil.
Proof.
  unfold dx_prop. rewrite dx_cdata_A1. set (a := Build_side_cfg false _ _ _). set (b := cx_side true _ _ _).
  eassert (Ei : cx_in 3 a b = _) by (vm_compute; reflexivity).
  eassert (Ea : exchange a (cx_in 3 a b) = _) by (rewrite Ei; vm_compute; reflexivity).
  eassert (Eb : exchange b (x_wire (exchange a (cx_in 3 a b))) = _) by (rewrite Ea; vm_compute; reflexivity).
  rewrite (cx_in_stop 3 6 a b) by (try lia; rewrite Eb, Ei; reflexivity).
  unfold closed. rewrite Eb, Ea, Ei. repeat split; discriminate.
Qed.

(* PairIter.C01_exchange_statement (roles and handlers only) is false: (1) again *)
Example C01_exchange_statement_is_false : ~ C01_exchange_statement.
Proof.
  intros H.
  specialize (H (cx_side false [dx_prop [65;49]] [] []) (cx_side true [] [] [[65;49]]) 12%nat eq_refl eq_refl eq_refl).
  assert (Hn : (12 >= 4 * (1 + 0) + 8)%nat) by lia. specialize (H Hn).
  pose proof store_failure_breaks as S. cbv zeta in S. destruct S as ((_&Hc)&Ra&_).
  rewrite (pair_iter_cx 6 12 _ _ ltac:(lia) Hc) in H. destruct H as [H _]. rewrite Ra in H. discriminate H.
Qed.

(* every complete, uncut session of a ready pair delivers: either side may be the master *)
Theorem closed_exchange (a b : side_cfg) :
  c_master a = negb (c_master b) ->
  hs_compat (if c_master a then a else b) (if c_master a then b else a) ->
  side_ready a b -> side_ready b a ->
  forall in_a in_b, closed a b in_a in_b ->
    x_res (exchange a in_a) = XNil /\ x_res (exchange b in_b) = XNil /\
    delivered (c_handler a) (c_handler b) (exchange a in_a) (exchange b in_b) /\
    delivered (c_handler b) (c_handler a) (exchange b in_b) (exchange a in_a).
Proof.
  intros Hrole Hhs Ra Rb ia ib Hc. destruct (roles_cases a b Hrole) as [[Ma Mb]|[Ma Mb]]; rewrite Ma in Hhs.
  - exact (closed_exchange_ms a b Ma Mb Hhs Ra Rb ia ib Hc).
  - destruct Hc as [H1 H2].
    destruct (closed_exchange_ms b a Mb Ma Hhs Rb Ra ib ia (conj H2 H1)) as (R1&R2&D1&D2). repeat (split; [assumption|]); assumption.
Qed.

(* PairIter.pair_iter: its result is the pair of outcomes for its last input j, and
   whenever that input is stable (the test with which the iteration stops), whatever n and wherever
   the iteration started, this is the complete exchange *)
Lemma pair_iter_shape a b : forall n i,
  exists j, pair_iter n a b i = (exchange a j, exchange b (x_wire (exchange a j))).
Proof.
  induction n as [|n IH]; intros i; cbn [pair_iter]; [exists i; reflexivity|].
  destruct (beq_bytes _ i); [exists i; reflexivity|apply IH].
Qed.

Theorem pair_iter_delivers (a b : side_cfg) n i :
  c_master a = negb (c_master b) ->
  hs_compat (if c_master a then a else b) (if c_master a then b else a) ->
  side_ready a b -> side_ready b a ->
  exists j, let oa := exchange a j in let ob := exchange b (x_wire oa) in
    pair_iter n a b i = (oa, ob) /\
    (x_wire ob = j ->
     x_res oa = XNil /\ x_res ob = XNil /\
     delivered (c_handler a) (c_handler b) oa ob /\ delivered (c_handler b) (c_handler a) ob oa /\
     (forall p, In p (h_outbox (c_handler a)) -> policy_of (c_handler b) (o_mid p) = AAccept ->
        delivered_once ob (o_mid p) /\ sent_once oa (o_mid p))).
Proof.
  intros H1 H2 H3 H4. destruct (pair_iter_shape a b n i) as [j Hj]. exists j. cbv zeta. split; [exact Hj|].
  intros Hst. destruct (closed_exchange a b H1 H2 H3 H4 j (x_wire (exchange a j)) (conj eq_refl Hst)) as (R1&R2&D1&D2).
  split; [exact R1|]. split; [exact R2|]. split; [exact D1|]. split; [exact D2|].
  intros p Hp Ha. eapply delivered_once_of; eassumption.
Qed.

Definition exchange_delivers (a b : side_cfg) (in_a in_b : bytes) : Prop :=
  let oa := exchange a in_a in let ob := exchange b in_b in
  x_res oa = XNil /\ x_res ob = XNil /\
  delivered (c_handler a) (c_handler b) oa ob /\ delivered (c_handler b) (c_handler a) ob oa.

(* C01 (Properties/C01.C01_exchange): for a ready pair there is a complete, uncut session (a closed pair of
   streams), and every such session ends with nil on both sides and delivers, in both directions *)
Theorem complete_exchange_delivers (a b : side_cfg) :
  c_master a = negb (c_master b) ->
  hs_compat (if c_master a then a else b) (if c_master a then b else a) ->
  side_ready a b -> side_ready b a ->
  (exists in_a in_b, closed a b in_a in_b) /\
  (forall in_a in_b, closed a b in_a in_b -> exchange_delivers a b in_a in_b).
Proof.
  intros H1 H2 H3 H4. split.
  - destruct (complete_exchange a b H1 H2 H3 H4) as (ia&ib&W1&W2&_). exists ia, ib. split; assumption.
  - intros ia ib Hc. exact (closed_exchange a b H1 H2 H3 H4 ia ib Hc).
Qed.

(* the same with the handshake hypothesis in syntactic form (PairP.pair_text_ok: no MOTD, the
   master's greeting ends with the prompt, printable handshake fields) *)
Theorem complete_exchange_delivers_text (a b : side_cfg) :
  c_master a = negb (c_master b) -> pair_text_ok a b -> side_ready a b -> side_ready b a ->
  (exists in_a in_b, closed a b in_a in_b) /\
  (forall in_a in_b, closed a b in_a in_b -> exchange_delivers a b in_a in_b).
Proof.
  intros Hrole Ht. apply complete_exchange_delivers; [exact Hrole|apply pair_text_compat; assumption].
Qed.

Print Assumptions joint_run.
Print Assumptions joint_closed.
Print Assumptions complete_exchange_ms.
Print Assumptions complete_exchange.
Print Assumptions closed_exchange.
Print Assumptions complete_exchange_delivers.
Print Assumptions complete_exchange_delivers_text.
Print Assumptions C01_exchange_delivers.
Print Assumptions complete_exchange_iter.
Print Assumptions pair_iter_delivers.
Print Assumptions complete_exchange_check.
Print Assumptions dx_complete.
Print Assumptions dx_iter.
Print Assumptions store_failure_breaks.
Print Assumptions title_nul_refused.
Print Assumptions duplicate_mid_also_deferred.
Print Assumptions gone_mid_not_sent.
Print Assumptions wrong_mid_inside.
Print Assumptions space_in_mid_breaks.
Print Assumptions prepare_error_breaks.
Print Assumptions C01_exchange_statement_is_false.
