(* B2F/PairP.v -- two-party safety (C02) of the session model (B2F/Side.v, `exchange`): "a link failure never
   marks an undelivered message sent" (two_party_safety_intact).  `final my s` is the state in which the rest of
   the session ends from a turn boundary, `tailw my s` what the side will still write.  Joint invariant at a turn
   boundary, sx about to send and sy about to receive: the unread input of each is an initial part of what the
   other will still write (prefix (s_in sx) (tailw false sy) /\ prefix (s_in sy) (tailw true sx)).
   cut_turn_holds is ONE turn under that invariant, whatever happens (any cut, a store or a decoding failure, a
   bad byte behind the transfers): each side reaches the next boundary or has stopped, the invariant holds at
   the next boundary, every event recorded meanwhile is justified by the peer's outbox and policy, and what the
   sender marked as sent the receiver has stored.  It is proved by the causality lemmas of CutP used backwards
   (CutP.relx_back, reader_back): the run on the full future is known from the inverse lemmas (PairLines, PairXfer),
   so the actual run on an initial part of it is the same or ends in a lost link.  `adds P s s'` says what one
   side did meanwhile: the log of s' is that of s with new events in front, all with the property P, and the
   handler of s' is that of s with exactly the MIDs marked that these events report.  cut_ind is the
   induction over the boundaries (cut_safety its use for what was marked as sent), hs_boundary and cut_start
   establish the invariant past the handshakes.  No cut position is excluded: the corner of CutP.exchange_cut,
   a cut right behind an EOT byte, is covered by PairXfer.read_compressed_agree (in receive_log). *)
From Coq Require Import List NArith ZArith Bool Lia ZifyN ZifyNat ZifyBool Sorting.Permutation.
From Verif Require Import Base.Bytes Base.BytesP gen.Tables Lzhuf.Dec Msg.Message B2F.Secure B2F.Side B2F.SideP
  B2F.TermP B2F.CodecP B2F.CutP B2F.PairDefs.
From Verif Require Import B2F.PairLines B2F.PairXfer B2F.PairHs.
Import ListNotations.
Open Scope N_scope.

Lemma prefix_refl {A} (a : list A) : prefix a a.
Proof. exists []. symmetry. apply app_nil_r. Qed.
Lemma prefix_nil {A} (a : list A) : prefix [] a.
Proof. exists a. reflexivity. Qed.
Lemma prefix_of_nil {A} (a : list A) : prefix a [] -> a = [].
Proof. intros [x H]. destruct a; [reflexivity|discriminate]. Qed.
Lemma prefix_trans {A} (a b c : list A) : prefix a b -> prefix b c -> prefix a c.
Proof. intros [x ->] [y ->]. exists (x ++ y). rewrite app_assoc. reflexivity. Qed.
Lemma prefix_app {A} (a b c : list A) : prefix b c -> prefix (a ++ b) (a ++ c).
Proof. intros [x ->]. exists x. rewrite app_assoc. reflexivity. Qed.
Lemma prefix_app_inv {A} (a b c : list A) : prefix (a ++ b) (a ++ c) -> prefix b c.
Proof. intros [x H]. rewrite <- app_assoc in H. apply app_inv_head in H. exists x. exact H. Qed.
Lemma prefix_app_l {A} (a b : list A) : prefix a (a ++ b).
Proof. exists b. reflexivity. Qed.
Lemma prefix_cons_inv {A} (c : A) x y : prefix (c :: x) y -> exists y', y = c :: y' /\ prefix x y'.
Proof. intros [z ->]. exists (x ++ z). split; [reflexivity|apply prefix_app_l]. Qed.
Lemma prefix_length {A} (a b : list A) : prefix a b -> (length a <= length b)%nat.
Proof. intros [x ->]. rewrite app_length. lia. Qed.

Lemma prefix_comparable {A} : forall (a b c : list A), prefix a c -> prefix b c -> prefix a b \/ prefix b a.
Proof.
  induction a as [|x a IH]; intros b c Ha Hb; [left; apply prefix_nil|].
  destruct b as [|y b]; [right; apply prefix_nil|].
  destruct Ha as [u ->]. destruct Hb as [v Hv]. cbn [app] in Hv. injection Hv as -> Hv.
  destruct (IH b (a ++ u)) as [H|H]; [apply prefix_app_l|exists v; exact Hv| |].
  - left. apply (prefix_app [y]). exact H.
  - right. apply (prefix_app [y]). exact H.
Qed.

Lemma sfx_prefix_ext (r i : bytes) : sfx r i -> exists p, i = p ++ r.
Proof. intros H; exact H. Qed.

Lemma wire_eqo a b : eqo a b -> wire a = wire b.
Proof. intros H. unfold wire. rewrite (eqo_out _ _ H). reflexivity. Qed.
Lemma wire_out a b : s_out a = s_out b -> wire a = wire b.
Proof. intros H. unfold wire. rewrite H. reflexivity. Qed.

Lemma pre_wire (a b : sess) : pre (s_out a) (s_out b) -> exists d, wire b = wire a ++ d.
Proof.
  intros [x H]. unfold wire. rewrite H, rev_app_distr, concat_app. eexists; reflexivity.
Qed.
Lemma grows_wire a b : grows a b -> exists d, wire b = wire a ++ d.
Proof. intros (H&_). apply pre_wire, H. Qed.

Lemma wire_fold_wr {B} (f : B -> bytes) l : forall s,
  wire (fold_left (fun acc x => wr acc (f x)) l s) = wire s ++ concat (map f l).
Proof.
  induction l as [|x l IH]; intros s; cbn [fold_left map concat]; [symmetry; apply app_nil_r|].
  rewrite IH, wire_wr, <- app_assoc. reflexivity.
Qed.

(* the turn loop with fuel that suffices, CutP.loop under the name the pair proofs use: any fuel that large
   gives the same run (turns_run), and a turn is unfolded without a fuel (run_eq) *)
Definition run (my : bool) (s : sess) : xres * sess := turns (2 * inlen s + 2) my s.

Lemma turns_run f (my : bool) s : (2 * inlen s + (if my then 2 else 1) <= f)%nat -> turns f my s = run my s.
Proof. exact (turns_loop f my s). Qed.
Lemma run_eq my s : run my s = match turn my s with inl t => t | inr s1 => run (negb my) s1 end.
Proof. exact (loop_eq my s). Qed.

Lemma run_send s :
  run true s = match handle_outbound s with
               | ROk (q, s1) => if q then (XNil, s1) else run false s1
               | RFail e s' => (xerr e, s')
               | RPanic => (XPanic, s)
               end.
Proof. rewrite run_eq. unfold turn. destruct (handle_outbound s) as [[[|] s1]|e s1|]; reflexivity. Qed.

Lemma run_recv s :
  run false s = match inbound_loop (S (length (s_in s))) s [] [] with
                | RFail e s' => (xerr e, s')
                | RPanic => (XPanic, s)
                | ROk (q, props, s1) =>
                    match receive_accepted s1 props with
                    | RcOk s2 => if q then (XNil, s2) else run true s2
                    | RcErr e s' => (xerr e, s')
                    | RcPanic => (XPanic, s1)
                    | RcUnknown => (XUnknown, s1)
                    end
                end.
Proof.
  rewrite run_eq. unfold turn. destruct (inbound_loop _ s [] []) as [[[q props] s1]|e s1|]; try reflexivity.
  destruct (receive_accepted s1 props); try reflexivity. destruct q; reflexivity.
Qed.

(* the state in which the session ends, the error report included *)
Definition final (my : bool) (s : sess) : sess := fin_state (fst (run my s)) (snd (run my s)).

Lemma fin_state_grows r s : grows s (fin_state r s).
Proof. destruct r; cbn [fin_state]; gr. Qed.

Lemma final_grows my s : grows s (final my s).
Proof. unfold final, run. eapply grows_trans; [apply turns_grows|apply fin_state_grows]. Qed.

Definition tailw (my : bool) (s : sess) : bytes := skipn (length (wire s)) (wire (final my s)).

Lemma tailw_eq my s : wire (final my s) = wire s ++ tailw my s.
Proof.
  unfold tailw. destruct (grows_wire _ _ (final_grows my s)) as [d H]. rewrite H.
  rewrite skipn_app, skipn_all, Nat.sub_diag. reflexivity.
Qed.

Lemma tailw_intro my s t : wire (final my s) = wire s ++ t -> tailw my s = t.
Proof. intros H. rewrite tailw_eq in H. apply app_inv_head in H. exact H. Qed.

Lemma final_ev my s : pre (s_ev s) (s_ev (final my s)).
Proof. apply (final_grows my s). Qed.

Lemma final_send_ok s s1 : handle_outbound s = ROk (false, s1) -> final true s = final false s1.
Proof. intros H. unfold final. rewrite run_send, H. reflexivity. Qed.
Lemma final_send_quit s s1 : handle_outbound s = ROk (true, s1) -> final true s = s1.
Proof. intros H. unfold final. rewrite run_send, H. reflexivity. Qed.
Lemma final_send_fail s e s1 : handle_outbound s = RFail e s1 -> final true s = fin_state (xerr e) s1.
Proof. intros H. unfold final. rewrite run_send, H. reflexivity. Qed.

Lemma final_recv_fail s e s1 :
  inbound_loop (S (length (s_in s))) s [] [] = RFail e s1 -> final false s = fin_state (xerr e) s1.
Proof. intros H. unfold final. rewrite run_recv, H. reflexivity. Qed.
Lemma final_recv_ok s props s1 s2 :
  inbound_loop (S (length (s_in s))) s [] [] = ROk (false, props, s1) -> receive_accepted s1 props = RcOk s2 ->
  final false s = final true s2.
Proof. intros H1 H2. unfold final. rewrite run_recv, H1, H2. reflexivity. Qed.
Lemma final_recv_quit s props s1 s2 :
  inbound_loop (S (length (s_in s))) s [] [] = ROk (true, props, s1) -> receive_accepted s1 props = RcOk s2 ->
  final false s = s2.
Proof. intros H1 H2. unfold final. rewrite run_recv, H1, H2. reflexivity. Qed.
Lemma final_recv_err s q props s1 e s2 :
  inbound_loop (S (length (s_in s))) s [] [] = ROk (q, props, s1) -> receive_accepted s1 props = RcErr e s2 ->
  final false s = fin_state (xerr e) s2.
Proof. intros H1 H2. unfold final. rewrite run_recv, H1, H2. reflexivity. Qed.
Lemma final_recv_unknown s q props s1 :
  inbound_loop (S (length (s_in s))) s [] [] = ROk (q, props, s1) -> receive_accepted s1 props = RcUnknown ->
  final false s = s1.
Proof. intros H1 H2. unfold final. rewrite run_recv, H1, H2. reflexivity. Qed.

Lemma tailw_send_F s : exists r, tailw true s = 70 :: r.
Proof.
  pose proof (handle_outbound_speaks s) as Hs. pose proof (handle_outbound_nopanic s) as Np.
  assert (K : forall s', (exists w, s_out s' = w ++ s_out s /\ starts_with_F w) -> grows s' (final true s) ->
              exists r, tailw true s = 70 :: r).
  { intros s' (w&Hw&(w'&r&->)) ([x Hx]&_).
    eexists. apply tailw_intro. unfold wire. rewrite Hx, Hw, !rev_app_distr, !concat_app.
    cbn [rev app concat]. rewrite <- !app_assoc. cbn [app]. reflexivity. }
  destruct (handle_outbound s) as [[q s1]|e s1|] eqn:E; [| |congruence].
  - apply (K s1 Hs). destruct q.
    + rewrite (final_send_quit _ _ E). gr.
    + rewrite (final_send_ok _ _ E). apply final_grows.
  - apply (K s1 Hs). rewrite (final_send_fail _ _ _ E). apply fin_state_grows.
Qed.

(* a reader whose run on the whole input `full` is known, run on an initial part of it: the same
   result, with the rest of the input still to come, or the link is lost *)
Lemma reader_back {A} (rd : nat -> sess -> res sess (A * sess)) :
  (forall i2 f1 f2 s, (inlen s < f1)%nat -> (inlen s + length i2 < f2)%nat -> relx i2 s (rd f1 s) (rd f2 (ext i2 s))) ->
  forall s full a s2, prefix (s_in s) full -> rd (S (length full)) (set_in s full) = ROk (a, s2) ->
  (exists s1 j, rd (S (length (s_in s))) s = ROk (a, s1) /\ s2 = ext j s1 /\ full = s_in s ++ j) \/
  (exists s1, rd (S (length (s_in s))) s = RFail EConnLost s1).
Proof.
  intros Hext s full a s2 [j ->] Hfull. change (set_in s (s_in s ++ j)) with (ext j s) in Hfull.
  pose proof (Hext j (S (length (s_in s))) (S (length (s_in s ++ j))) s) as Rx.
  unfold inlen in Rx. rewrite app_length in Rx. specialize (Rx ltac:(lia) ltac:(lia)).
  rewrite <- app_length, Hfull in Rx. apply relx_back in Rx.
  destruct Rx as [(s1&E1&E2)|(s1&E1&_)]; [left; exists s1, j; auto|right; exists s1; exact E1].
Qed.

Lemma inbound_loop_back sy full a s2 : prefix (s_in sy) full ->
  inbound_loop (S (length full)) (set_in sy full) [] [] = ROk (a, s2) ->
  (exists s1 j, inbound_loop (S (length (s_in sy))) sy [] [] = ROk (a, s1) /\ s2 = ext j s1 /\ full = s_in sy ++ j) \/
  (exists s1, inbound_loop (S (length (s_in sy))) sy [] [] = RFail EConnLost s1).
Proof.
  exact (reader_back (fun f s => inbound_loop f s [] []) (fun i2 f1 f2 s => inbound_loop_ext i2 f1 f2 s [] []) sy full a s2).
Qed.

Lemma read_reply_back s full l s2 : prefix (s_in s) full ->
  read_reply (S (length full)) (set_in s full) = ROk (l, s2) ->
  (exists s1 j, read_reply (S (length (s_in s))) s = ROk (l, s1) /\ s2 = ext j s1 /\ full = s_in s ++ j /\ eqo s s1) \/
  (exists s1, read_reply (S (length (s_in s))) s = RFail EConnLost s1 /\ eqo s s1).
Proof.
  intros Hp Hf. pose proof (read_reply_eqo (S (length (s_in s))) s) as Q.
  destruct (reader_back read_reply read_reply_ext s full l s2 Hp Hf) as [(s1&j&E1&E2&Ej)|(s1&E1)]; rewrite E1 in Q;
    [left; exists s1, j|right; exists s1]; repeat (split; [assumption|]); exact Q.
Qed.

(* the outbox of the handler, which no step changes *)
Definition hob (s : sess) : list oprop := h_outbox (s_h s).
Definition side_ok (s : sess) : Prop := Forall prop_syn (hob s).

Lemma outbound_block s props s0 :
  outbound s = (props, s0) ->
  (forall p, In p props -> In p (hob s)) /\ s_in s0 = s_in s /\ wire s0 = wire s /\ s_h s0 = s_h s /\ nm s s0.
Proof.
  intros H. pose proof (outbound_does s) as D. pose proof (outbound_nm s) as N. rewrite H in D, N. cbn [snd] in D, N. split.
  - unfold outbound in H. destruct (h_present (s_h s)); injection H as <- _; [|intros p []].
    intros p Hp. apply (Permutation_in _ (Permutation_sym (sort_props_perm _))) in Hp. apply filter_In in Hp. apply Hp.
  - split; [symmetry; exact (does_in _ _ _ D)|]. split; [rewrite (does_wire _ _ _ D); apply app_nil_r|]. split; [|exact N].
    refine (via_h _ _ (does_via _ _ _ _ D _)). destruct (h_present (s_h s)); repeat constructor.
Qed.

Lemma mark_rej_out sent s : wire (mark_rej sent s) = wire s /\ hob (mark_rej sent s) = hob s.
Proof.
  pose proof (mark_rej_does sent s) as D.
  split; [rewrite (does_wire _ _ _ D); apply app_nil_r|exact (does_outbox _ _ _ D)].
Qed.
Lemma mark_sent_out sent s : wire (mark_sent sent s) = wire s /\ hob (mark_sent sent s) = hob s.
Proof.
  pose proof (mark_sent_does sent s) as D.
  split; [rewrite (does_wire _ _ _ D); apply app_nil_r|exact (does_outbox _ _ _ D)].
Qed.

Lemma answer_props_out props s seen acc :
  wire (fst (answer_props s props seen acc)) = wire s /\ s_h (fst (answer_props s props seen acc)) = s_h s.
Proof.
  destruct (answer_props_does props s seen acc) as (E&D&F). split; [rewrite (does_wire _ _ _ D); apply app_nil_r|].
  refine (via_h _ _ (via_mono _ _ _ _ _ (does_via _ _ _ _ D F))). intros e K. destruct e; destruct K; reflexivity.
Qed.

Lemma zip_answers block : forall answers, length answers = length block ->
  map (fun p => answer_byte (i_answer p)) (zip_props block answers) = map answer_byte answers.
Proof.
  unfold zip_props. induction block as [|p ps IH]; intros [|a r] H; try discriminate; [reflexivity|].
  cbn [combine map]. cbn [iprop_of i_answer fst snd]. f_equal. apply IH. cbn in H. lia.
Qed.

Lemma zip_props_cons p ps a r : zip_props (p :: ps) (a :: r) = iprop_of p a :: zip_props ps r.
Proof. reflexivity. Qed.

(* the receiver of a proposal block that is all there answers it, one answer per proposal, and
   records the answers; with a handler and distinct MIDs the answers are its policy *)
Lemma recv_block_whole sy block R f :
  block <> [] -> Forall prop_syn block -> s_in sy = proposal_bytes block ++ R -> (length (s_in sy) < f)%nat ->
  exists answers sy1 E, length answers = length block /\
    inbound_loop f sy [] [] = ROk (false, zip_props block answers, sy1) /\
    s_in sy1 = R /\ wire sy1 = wire sy ++ fs_line answers /\ s_h sy1 = s_h sy /\ s_remote_nomsgs sy1 = false /\
    s_ev sy1 = E ++ s_ev sy /\ Forall (fun e => exists m a, e = EvAnswer m a) E /\
    (forall p a, In (p, a) (combine block answers) -> a = ADefer \/ a = policy_of (s_h sy) (o_mid p)) /\
    (h_present (s_h sy) = true -> NoDup (map o_mid block) ->
     answers = map (fun p => policy_of (s_h sy) (o_mid p)) block).
Proof.
  intros Hne Hsyn Hin Hf. rewrite (inbound_block block sy R f Hne Hsyn Hin Hf).
  destruct (answer_props_zip_pol block (set_nomsgs (set_in sy R) false) [] [])
    as (answers&s'&E&Hl&Eq&V&Fa&I'&O'&H'&N'&Ha&Hpol).
  rewrite Eq. cbn [rev' rev_append app]. rewrite (zip_answers block answers Hl).
  exists answers, (wr s' ([70; 83; 32] ++ map answer_byte answers ++ [13])), E.
  split; [exact Hl|]. split; [reflexivity|]. split; [exact I'|].
  split; [rewrite wire_wr; unfold wire; rewrite O'; reflexivity|].
  split; [exact H'|]. split; [exact N'|]. split; [exact V|]. split; [exact Fa|]. split; [exact Ha|].
  intros Hpr Hnd. apply Hpol; [exact Hpr|exact Hnd|reflexivity].
Qed.

(* the sender waiting for the answer line *)
Lemma send_reply s2 answers T :
  answers <> [] -> prefix (s_in s2) (fs_line answers ++ T) ->
  (exists s3, read_reply (S (length (s_in s2))) s2 = ROk ([70; 83; 32] ++ map answer_byte answers, s3) /\
     prefix (s_in s3) T /\ eqo s2 s3)
  \/ (exists s', read_reply (S (length (s_in s2))) s2 = RFail EConnLost s' /\ eqo s2 s').
Proof.
  intros Hne Hp.
  pose proof (read_reply_fs answers (set_in s2 (fs_line answers ++ T)) T _ Hne eq_refl (Nat.lt_succ_diag_r _)) as Hfull.
  destruct (read_reply_back s2 _ _ _ Hp Hfull) as [(s1&j&E1&E2&_&Q)|Hlost]; [left|right; exact Hlost].
  exists s1. split; [exact E1|]. split; [exists j; exact (f_equal s_in E2)|exact Q].
Qed.

Lemma peek_cases sent s4 :
  (s_in s4 = [] /\ ho_peek sent s4 = RFail EConnLost (ev (mark_rej sent s4) EvBlockEnd))
  \/ (exists b r, s_in s4 = b :: r /\ (b = 70 \/ b = 59) /\
        ho_peek sent s4 = ROk (false, ev (mark_sent sent (mark_rej sent s4)) EvBlockEnd))
  \/ (exists b r e s', s_in s4 = b :: r /\ b <> 70 /\ b <> 59 /\ ho_peek sent s4 = RFail e s').
Proof.
  unfold ho_peek. cbv zeta. rewrite mark_rej_in.
  destruct (s_in s4) as [|b r] eqn:E; [left; split; reflexivity|right].
  destruct (negb ((b =? 70) || (b =? 59))) eqn:Eb.
  - right. apply negb_true_iff, orb_false_iff in Eb. destruct Eb as [E1 E2].
    apply N.eqb_neq in E1. apply N.eqb_neq in E2.
    pose proof (next_line_nopanic true (mark_rej sent s4)) as Np.
    destruct (next_line true (mark_rej sent s4)) as [[l s']|e s'|]; [| |congruence]; eauto 10.
  - left. exists b, r. split; [reflexivity|]. split; [|reflexivity].
    apply negb_false_iff, orb_true_iff in Eb. destruct Eb as [Eb|Eb]; apply N.eqb_eq in Eb; auto.
Qed.

Lemma marked_io sent s e :
  wire (ev (mark_rej sent s) e) = wire s /\
  wire (ev (mark_sent sent (mark_rej sent s)) e) = wire s /\ s_in (ev (mark_sent sent (mark_rej sent s)) e) = s_in s.
Proof.
  change (wire (mark_rej sent s) = wire s /\ wire (mark_sent sent (mark_rej sent s)) = wire s /\
          s_in (mark_sent sent (mark_rej sent s)) = s_in s).
  rewrite (proj1 (mark_sent_out _ _)), (proj1 (mark_rej_out _ _)), mark_sent_in, mark_rej_in. repeat split.
Qed.

(* the sender part of a turn with proposals, up to the wait for the answer *)
Lemma send_start sx p ps s0 :
  outbound sx = (p :: ps, s0) ->
  let block := firstn (N.to_nat MaxBlockSize) (p :: ps) in
  let s2 := ho_propose block s0 in
  block <> [] /\ (forall q, In q block -> In q (hob sx)) /\
  s_in s2 = s_in sx /\ wire s2 = wire sx ++ proposal_bytes block /\ hob s2 = hob sx /\ nm sx s2 /\
  handle_outbound sx = match read_reply (S (length (s_in s2))) s2 with
                       | RFail e s' => RFail e s'
                       | RPanic => RPanic
                       | ROk (reply, s3) => ho_transfer block reply s3
                       end.
Proof.
  intros Eo. cbv zeta. destruct (outbound_block _ _ _ Eo) as (Hin&E0&O0&H0&N0).
  pose proof (ho_propose_does (firstn (N.to_nat MaxBlockSize) (p :: ps)) s0) as D2.
  split; [change (N.to_nat MaxBlockSize) with 5%nat; cbn [firstn]; discriminate|].
  split; [intros q Hq; apply Hin; eapply In_firstn; exact Hq|].
  split; [rewrite <- E0; symmetry; exact (does_in _ _ _ D2)|]. split; [rewrite (does_wire _ _ _ D2), O0; reflexivity|].
  split; [unfold hob; rewrite (via_h _ _ (does_via _ _ _ _ D2 (Forall_nil _))), H0; reflexivity|].
  split; [exact (nm_trans _ _ _ N0 (via_nm _ _ (does_via _ _ _ _ D2 (Forall_nil _))))|].
  rewrite handle_outbound_eq, Eo. reflexivity.
Qed.

(* the sender with nothing to propose writes FF, or FQ when the peer had nothing either *)
Lemma send_ff sx s0 : outbound sx = ([], s0) -> s_remote_nomsgs s0 = false ->
  handle_outbound sx = ROk (false, wr s0 [70; 70; 13]) /\ s_in (wr s0 [70; 70; 13]) = s_in sx /\
  nm sx (wr s0 [70; 70; 13]) /\ tailw true sx = [70; 70; 13] ++ tailw false (wr s0 [70; 70; 13]).
Proof.
  intros Eo Eq. destruct (outbound_block _ _ _ Eo) as (_&E0&O0&_&N0).
  assert (Hho : handle_outbound sx = ROk (false, wr s0 [70; 70; 13]))
    by (rewrite handle_outbound_eq, Eo; cbv zeta; rewrite Eq; reflexivity).
  split; [exact Hho|]. split; [exact E0|]. split; [exact N0|].
  apply tailw_intro. rewrite (final_send_ok _ _ Hho), tailw_eq, wire_wr, O0, <- app_assoc. reflexivity.
Qed.

Lemma send_fq sx s0 : outbound sx = ([], s0) -> s_remote_nomsgs s0 = true ->
  handle_outbound sx = ROk (true, wr s0 [70; 81; 13]) /\ tailw true sx = [70; 81; 13].
Proof.
  intros Eo Eq. destruct (outbound_block _ _ _ Eo) as (_&_&O0&_).
  assert (Hho : handle_outbound sx = ROk (true, wr s0 [70; 81; 13]))
    by (rewrite handle_outbound_eq, Eo; cbv zeta; rewrite Eq; reflexivity).
  split; [exact Hho|]. apply tailw_intro. rewrite (final_send_quit _ _ Hho), wire_wr, O0. reflexivity.
Qed.

(* the receiver given an initial part of FF and of what follows: it has read FF and it is its turn, or the
   link is lost before anything is written *)
Lemma recv_ff sy R : prefix (s_in sy) ([70; 70; 13] ++ R) ->
  (exists s1, inbound_loop (S (length (s_in sy))) sy [] [] = ROk (false, [], s1) /\
     prefix (s_in s1) R /\ tailw false sy = tailw true s1)
  \/ (exists s', inbound_loop (S (length (s_in sy))) sy [] [] = RFail EConnLost s').
Proof.
  intros Hp.
  pose proof (inbound_ff (set_in sy ([70; 70; 13] ++ R)) R (S (length ([70; 70; 13] ++ R))) eq_refl (Nat.lt_0_succ _)) as Hfull.
  destruct (inbound_loop_back sy _ _ _ Hp Hfull) as [(s1&j&E1&E2&_)|Hlost]; [left|right; exact Hlost].
  exists s1. split; [exact E1|]. split; [exists j; exact (f_equal s_in E2)|].
  apply tailw_intro. rewrite (final_recv_ok sy [] s1 s1 E1 eq_refl), tailw_eq. f_equal.
  apply wire_out. symmetry. exact (f_equal s_out E2).
Qed.

(* whatever happens to the sender after its proposal block, the session ends in a state that
   continues the one in which the block was written *)
Lemma send_grows sx p ps s0 :
  outbound sx = (p :: ps, s0) ->
  grows (ho_propose (firstn (N.to_nat MaxBlockSize) (p :: ps)) s0) (final true sx).
Proof.
  intros Eo. destruct (send_start _ _ _ _ Eo) as (_&_&_&_&_&_&Hstep). cbv zeta in Hstep.
  set (block := firstn (N.to_nat MaxBlockSize) (p :: ps)) in *. set (s2 := ho_propose block s0) in *.
  pose proof (read_reply_eqo (S (length (s_in s2))) s2) as Q3.
  pose proof (read_reply_nopanic (S (length (s_in s2))) s2) as Np.
  destruct (read_reply (S (length (s_in s2))) s2) as [[reply s3]|e s3|]; cbn [res_eqo] in Q3; [| |congruence].
  - pose proof (ho_transfer_grows block reply s3) as G3. pose proof (handle_outbound_nopanic sx) as Np2.
    destruct (ho_transfer block reply s3) as [[q s']|e s'|]; cbn [res_grows] in G3; [| |congruence].
    + eapply grows_trans; [apply grows_eqo, Q3|]. eapply grows_trans; [exact G3|].
      destruct q; [rewrite (final_send_quit _ _ Hstep); gr|rewrite (final_send_ok _ _ Hstep); apply final_grows].
    + rewrite (final_send_fail _ _ _ Hstep). eapply grows_trans; [apply grows_eqo, Q3|].
      eapply grows_trans; [exact G3|apply fin_state_grows].
  - rewrite (final_send_fail _ _ _ Hstep). eapply grows_trans; [apply grows_eqo, Q3|apply fin_state_grows].
Qed.

Lemma eqo_h a b : eqo a b -> s_h a = s_h b.
Proof. intros H. exact (f_equal s_h H). Qed.

Lemma handshake_h s s' : handshake s = ROk s' -> s_h s' = s_h s.
Proof.
  intros H. pose proof (handshake_quiet s) as A. rewrite H in A. destruct A as (p&w&D).
  exact (via_h _ _ (does_via _ _ _ _ D (Forall_nil _))).
Qed.

Lemma handle_outbound_hob s q s' : handle_outbound s = ROk (q, s') -> hob s' = hob s.
Proof. intros H. pose proof (handle_outbound_via s) as A. rewrite H in A. exact (via_outbox _ _ _ A). Qed.

Lemma receive_accepted_h props s s' : receive_accepted s props = RcOk s' -> s_h s' = s_h s.
Proof.
  intros H. pose proof (receive_accepted_via props s) as A. rewrite H in A.
  refine (via_h _ _ (via_mono _ _ _ _ _ A)). intros e K. apply good_proc_is_proc in K. destruct e; destruct K; reflexivity.
Qed.


Lemma fin_state_ev r s : s_ev (fin_state r s) = s_ev s.
Proof. destruct r; reflexivity. Qed.

Lemma prefix_echo_cases x : prefix x echo ->
  x = [] \/ x = [42] \/ x = [42;42] \/ x = [42;42;42] \/ x = [42;42;42;32] \/ x = [42;42;42;32;95] \/
  x = [42;42;42;32;95;13] \/ x = [42;42;42;32;95;13;10].
Proof.
  intros [y H]. unfold echo in H.
  repeat (destruct x as [|? x]; [tauto|]; cbn [app] in H; injection H as <- H).
  destruct x; [tauto|discriminate].
Qed.

(* the MIDs a log hands to the handler, as a list *)
Definition proc_mid (e : event) : list bytes := match e with EvProcess m _ _ => [m] | _ => [] end.
Definition proc_mids (E : list event) : list bytes := flat_map proc_mid E.
Lemma proc_mids_app a b : proc_mids (a ++ b) = proc_mids a ++ proc_mids b.
Proof. apply flat_map_app. Qed.
Lemma in_proc_mids mid d ok E : In (EvProcess mid d ok) E -> In mid (proc_mids E).
Proof.
  intros H. unfold proc_mids. apply in_flat_map. exists (EvProcess mid d ok). split; [exact H|left; reflexivity].
Qed.

Definition noown (e : event) : Prop := own_mid e = [].

Lemma set_gone_self h : set_gone h (h_gone h) = h.
Proof. destruct h; reflexivity. Qed.

(* s' has the log of s with the events E in front, all with the property P; its handler is that of s
   with the MIDs these events report marked (every mark is made together with its event) *)
Definition adds (P : event -> Prop) (s s' : sess) : Prop :=
  exists E, s_ev s' = E ++ s_ev s /\ Forall P E /\ s_h s' = set_gone (s_h s) (own_mids E ++ h_gone (s_h s)).

Lemma via_adds P s s' : via P s s' -> adds P s s'.
Proof. apply via_log. Qed.
Lemma adds_same P s s' : s_h s' = s_h s -> s_ev s' = s_ev s -> adds P s s'.
Proof. intros H V. exists []. split; [exact V|]. split; [constructor|]. rewrite H. symmetry. apply set_gone_self. Qed.
Lemma adds_refl P s : adds P s s.
Proof. apply adds_same; reflexivity. Qed.
Lemma adds_trans P a b c : adds P a b -> adds P b c -> adds P a c.
Proof.
  intros (E1&V1&F1&H1) (E2&V2&F2&H2). exists (E2 ++ E1).
  split; [rewrite V2, V1; apply app_assoc|]. split; [apply Forall_app; split; assumption|].
  rewrite H2, H1, own_mids_app, <- app_assoc. reflexivity.
Qed.
Lemma adds_mono (P Q : event -> Prop) s s' : (forall e, P e -> Q e) -> adds P s s' -> adds Q s s'.
Proof. intros HPQ (E&V&F&H). exists E. split; [exact V|]. split; [exact (Forall_impl _ HPQ F)|exact H]. Qed.
Lemma adds_eqo P a b : eqo a b -> adds P a b.
Proof. intros H. apply adds_same; symmetry; [apply eqo_h, H|apply eqo_ev, H]. Qed.
Lemma adds_fin P r s : adds P s (fin_state r s).
Proof. apply adds_same; destruct r; reflexivity. Qed.
Lemma adds_hob P s s' : adds P s s' -> hob s' = hob s.
Proof. intros (E&_&_&H). unfold hob. rewrite H. reflexivity. Qed.
Lemma adds_noown s s' : adds noown s s' -> s_h s' = s_h s.
Proof. intros (E&_&F&H). rewrite H, (own_mids_none E F). apply set_gone_self. Qed.

Lemma adds_gone P s s' m : adds P s s' -> In m (h_gone (s_h s)) -> In m (h_gone (s_h s')).
Proof. intros (E&_&_&H) K. rewrite H. apply in_or_app. right. exact K. Qed.

Definition is_recv (e : event) : Prop := is_ans e \/ is_proc e.
(* steps that hand nothing to the handler *)
Definition noprocs (s s' : sess) : Prop := exists E, s_ev s' = E ++ s_ev s /\ proc_mids E = [].
Lemma noprocs_refl s : noprocs s s. Proof. exists []. split; reflexivity. Qed.
Lemma noprocs_trans a b c : noprocs a b -> noprocs b c -> noprocs a c.
Proof.
  intros (E1&V1&N1) (E2&V2&N2). exists (E2 ++ E1).
  split; [rewrite V2, V1, app_assoc; reflexivity|]. rewrite proc_mids_app, N1, N2. reflexivity.
Qed.
Lemma noprocs_fin r s : noprocs s (fin_state r s).
Proof. exists []. split; [apply fin_state_ev|reflexivity]. Qed.
Lemma noprocs_eqo a b : eqo a b -> noprocs a b.
Proof. intros H. exists []. split; [symmetry; apply eqo_ev, H|reflexivity]. Qed.

Definition res_noprocs {A} (s : sess) (r : res sess (A * sess)) : Prop :=
  match r with ROk (_, s') => noprocs s s' | RFail _ s' => noprocs s s' | RPanic => True end.

(* events that hand nothing to the handler *)
Definition noproc (e : event) : Prop := proc_mid e = [].
Lemma proc_mids_none E : Forall noproc E -> proc_mids E = [].
Proof. induction 1 as [|e E He _ IH]; [reflexivity|]. unfold proc_mids in *. cbn [flat_map]. rewrite He. exact IH. Qed.
Lemma adds_noprocs (P : event -> Prop) s s' : (forall e, P e -> noproc e) -> adds P s s' -> noprocs s s'.
Proof. intros HP (E&V&F&_). exists E. split; [exact V|apply proc_mids_none, (Forall_impl _ HP F)]. Qed.

Lemma sends_noproc e : sends e -> noproc e.
Proof. destruct e as [| |m [|]| | | |]; cbn; try reflexivity; intros []. Qed.
Lemma handle_outbound_noprocs s : res_noprocs s (handle_outbound s).
Proof.
  pose proof (handle_outbound_via s) as A.
  destruct (handle_outbound s) as [[q s']|e s'|]; cbn [res_noprocs]; [|exact (adds_noprocs _ _ _ sends_noproc (via_adds _ _ _ A))|exact I].
  refine (adds_noprocs _ _ _ _ (via_adds _ _ _ A)). intros e [K|[_ [m ->]]]; [exact (sends_noproc e K)|reflexivity].
Qed.

(* the log grows by pairwise distinct processed MIDs, all with the property Q *)
Definition new_procs (Q : bytes -> Prop) (s s' : sess) : Prop :=
  exists E, s_ev s' = E ++ s_ev s /\ NoDup (proc_mids E) /\ forall m, In m (proc_mids E) -> Q m.

Lemma new_procs_noprocs Q s s' : noprocs s s' -> new_procs Q s s'.
Proof. intros (E&V&N). exists E. split; [exact V|]. rewrite N. split; [constructor|intros m []]. Qed.
Lemma new_procs_mono (Q Q' : bytes -> Prop) s s' : (forall m, Q m -> Q' m) -> new_procs Q s s' -> new_procs Q' s s'.
Proof. intros H (E&V&N&M). exists E. split; [exact V|]. split; [exact N|]. intros m K. apply H, M, K. Qed.
Lemma new_procs_trans (Q1 Q2 Q : bytes -> Prop) a b c :
  new_procs Q1 a b -> new_procs Q2 b c -> (forall m, Q1 m -> Q2 m -> False) -> (forall m, Q1 m -> Q m) -> (forall m, Q2 m -> Q m) ->
  new_procs Q a c.
Proof.
  intros (E1&V1&N1&M1) (E2&V2&N2&M2) D H1 H2. exists (E2 ++ E1). split; [rewrite V2, V1, app_assoc; reflexivity|].
  rewrite proc_mids_app. split.
  - apply NoDup_app_iff. split; [exact N2|]. split; [exact N1|]. intros m K2 K1. exact (D m (M1 m K1) (M2 m K2)).
  - intros m K. apply in_app_or in K. destruct K as [K|K]; [apply H2, M2, K|apply H1, M1, K].
Qed.
Lemma new_procs_noprocs_l Q a b c : noprocs a b -> new_procs Q b c -> new_procs Q a c.
Proof.
  intros (E1&V1&N1) (E2&V2&N2&M2). exists (E2 ++ E1). split; [rewrite V2, V1, app_assoc; reflexivity|].
  rewrite proc_mids_app, N1, app_nil_r. split; assumption.
Qed.
Lemma new_procs_noprocs_r Q a b c : new_procs Q a b -> noprocs b c -> new_procs Q a c.
Proof.
  intros (E1&V1&N1&M1) (E2&V2&N2). exists (E2 ++ E1). split; [rewrite V2, V1, app_assoc; reflexivity|].
  rewrite proc_mids_app, N2. split; assumption.
Qed.

(* the MID announced is the MID of the message inside *)
Definition announced (p : oprop) : Prop := exists data, proposal_message (o_cdata p) = MOk (o_mid p) data.

(* an EvProcess of the message of an entry of the block, stored or not *)
Definition proc_of (block : list oprop) (e : event) : Prop :=
  exists p mid d ok, e = EvProcess mid d ok /\ In p block /\ proposal_message (o_cdata p) = MOk mid d.

Lemma proc_of_cons p0 ps e : proc_of ps e -> proc_of (p0 :: ps) e.
Proof. intros (p&mid&d&ok&E&Hp&Hm). exists p, mid, d, ok. split; [exact E|]. split; [right; exact Hp|exact Hm]. Qed.

(* what the receiver of a block has done: its handler is the same, the new events are messages of
   the block; if the block is well-formed with distinct MIDs, the MIDs handed over are pairwise distinct
   MIDs of accepted entries *)
Definition recvd (block : list oprop) (answers : list answer) (s s' : sess) : Prop :=
  s_h s' = s_h s /\ exists E, s_ev s' = E ++ s_ev s /\ Forall (proc_of block) E /\
    (Forall announced block -> NoDup (map o_mid block) ->
     NoDup (proc_mids E) /\ forall m, In m (proc_mids E) -> In (m, false) (sent_of block answers)).

Lemma recvd_same block answers s s' : s_h s' = s_h s -> s_ev s' = s_ev s -> recvd block answers s s'.
Proof.
  intros H V. split; [exact H|]. exists []. split; [exact V|]. split; [constructor|].
  intros _ _. split; [constructor|intros m []].
Qed.
Lemma recvd_eqo block answers s s' : eqo s s' -> recvd block answers s s'.
Proof. intros H. apply recvd_same; symmetry; [apply eqo_h, H|apply eqo_ev, H]. Qed.

Lemma recvd_new_procs block answers s s' : recvd block answers s s' -> Forall announced block -> NoDup (map o_mid block) ->
  new_procs (fun m => In (m, false) (sent_of block answers)) s s'.
Proof. intros (_&E&V&_&C) Hw Hnd. exists E. split; [exact V|apply C; assumption]. Qed.

Lemma recvd_cons p0 a0 ps r s s' : recvd ps r s s' -> recvd (p0 :: ps) (a0 :: r) s s'.
Proof.
  intros (H&E&V&F&C). split; [exact H|]. exists E. split; [exact V|].
  split; [eapply Forall_impl; [apply proc_of_cons|exact F]|]. intros Hw Hnd.
  inversion Hw as [|? ? _ Hw']; subst. cbn [map] in Hnd. inversion Hnd as [|? ? _ Hnd']; subst.
  destruct (C Hw' Hnd') as [N M]. split; [exact N|]. intros m K.
  cbn [sent_of]. apply in_or_app. right. apply M, K.
Qed.

(* the accepted head of the block has been handed over (s2), then the rest *)
Lemma recvd_head p0 ps r s s2 s' mid d ok :
  proposal_message (o_cdata p0) = MOk mid d -> s_h s2 = s_h s -> s_ev s2 = EvProcess mid d ok :: s_ev s ->
  recvd ps r s2 s' -> recvd (p0 :: ps) (AAccept :: r) s s'.
Proof.
  intros Hm Hh Hv (H&E&V&F&C). split; [congruence|]. exists (E ++ [EvProcess mid d ok]).
  split; [rewrite V, Hv, <- app_assoc; reflexivity|]. split.
  { apply Forall_app. split; [eapply Forall_impl; [apply proc_of_cons|exact F]|]. constructor; [|constructor].
    exists p0, mid, d, ok. split; [reflexivity|]. split; [left; reflexivity|exact Hm]. }
  intros Hw Hnd. inversion Hw as [|? ? Hwf Hw']; subst. cbn [map] in Hnd. inversion Hnd as [|? ? Hn0 Hnd']; subst.
  destruct (C Hw' Hnd') as [N M]. destruct Hwf as [d0 Hwf]. rewrite Hwf in Hm. injection Hm as <- <-.
  rewrite proc_mids_app. cbn [proc_mids flat_map proc_mid app]. split.
  - apply NoDup_app_iff. split; [exact N|]. split; [constructor; [intros []|constructor]|].
    intros m K [<-|[]]. apply Hn0. apply M in K.
    destruct (sent_of_accepted _ _ _ K) as (q&Hq&<-). apply in_map. eapply in_combine_l; exact Hq.
  - intros m K. cbn [sent_of app]. apply in_app_or in K.
    destruct K as [K|[<-|[]]]; [right; apply M, K|left; reflexivity].
Qed.

(* every accepted entry of the block whose message can be read is in the log of s', stored *)
Definition stored (block : list oprop) (answers : list answer) (s' : sess) : Prop :=
  forall p mid data, In (p, AAccept) (combine block answers) -> proposal_message (o_cdata p) = MOk mid data ->
    In (EvProcess mid data true) (s_ev s').

Lemma stored_cons p0 a0 ps r s2 s' : recvd ps r s2 s' -> stored ps r s' ->
  (a0 = AAccept -> forall mid data, proposal_message (o_cdata p0) = MOk mid data -> In (EvProcess mid data true) (s_ev s2)) ->
  stored (p0 :: ps) (a0 :: r) s'.
Proof.
  intros (_&E&V&_) St H0 p mid data [K|K] Hm; [|exact (St p mid data K Hm)].
  injection K as <- ->. rewrite V. apply in_or_app. right. exact (H0 eq_refl mid data Hm).
Qed.

(* the receiver of the transfers of a block, given an initial part of them and of what follows, whatever the
   outcome of receive_accepted, also when it stops in the middle of the block *)
Lemma receive_log block : forall answers s Y,
  length answers = length block -> Forall prop_syn block ->
  prefix (s_in s) (xfers block answers ++ Y) ->
  match receive_accepted s (zip_props block answers) with
  | RcOk s' => prefix (s_in s') Y /\ recvd block answers s s' /\ stored block answers s'
  | RcErr _ s' => recvd block answers s s'
  | _ => True
  end.
Proof.
  induction block as [|p0 ps IH]; intros answers s Y Hl Hf Hp.
  { destruct answers; [|discriminate]. cbn in Hp |- *. split; [exact Hp|]. split; [apply recvd_same; reflexivity|intros p mid data []]. }
  destruct answers as [|a0 r]; [discriminate|]. cbn [length] in Hl. injection Hl as Hl.
  inversion Hf as [|? ? Hsyn Hf']; subst.
  change (zip_props (p0 :: ps) (a0 :: r)) with (iprop_of p0 a0 :: zip_props ps r).
  cbn [receive_accepted]. change (i_answer (iprop_of p0 a0)) with a0. cbn [xfers] in Hp.
  assert (Hrest : a0 <> AAccept -> forall s0 : sess, prefix (s_in s0) (xfers ps r ++ Y) ->
            match receive_accepted s0 (zip_props ps r) with
            | RcOk s' => prefix (s_in s') Y /\ recvd (p0 :: ps) (a0 :: r) s0 s' /\ stored (p0 :: ps) (a0 :: r) s'
            | RcErr _ s' => recvd (p0 :: ps) (a0 :: r) s0 s'
            | _ => True
            end).
  { intros Ha s0 Hp0. specialize (IH r s0 Y Hl Hf' Hp0).
    destruct (receive_accepted s0 (zip_props ps r)) as [s'|e s'| |]; try exact I.
    - destruct IH as (I1&I2&I3). split; [exact I1|]. split; [apply recvd_cons, I2|].
      exact (stored_cons p0 a0 ps r s0 s' I2 I3 (fun K => False_ind _ (Ha K))).
    - apply recvd_cons, IH. }
  destruct a0; [|apply Hrest; [discriminate|exact Hp]..].
  rewrite <- app_assoc in Hp.
  set (R := xfers ps r ++ Y) in *.
  set (ip := iprop_of p0 AAccept) in *.
  pose proof (read_compressed_eqo s ip) as Hq.
  destruct (read_compressed s ip) as [[cd s1]|e s1|] eqn:Hshort; cbn [res_eqo] in Hq; [|apply recvd_eqo, Hq|exact I].
  destruct (in_dec N.eq_dec 0 (firstn 80 (o_title p0))) as [Hnul|Htitle].
  { exfalso. eapply read_compressed_nul_title; [exact Hnul|exact Hp|exact Hshort]. }
  (* the run that is known is the one on the whole transfer and what follows (Hlong); the real one (Hshort) read
     an initial part of that.  read_compressed_agree: if both accept, they return the same payload and the real
     one has left an initial part of R -- also when the input was cut behind the EOT, where the missing checksum
     reads as 0 and causality (CutP.read_compressed_ext) says nothing *)
  destruct Hp as [x Hx].
  assert (Hin : s_in (ext x s) = xfer_bytes p0 ++ R) by (symmetry; exact Hx).
  pose proof (read_compressed_xfer (ext x s) p0 ip R Htitle eq_refl Hin) as Hlong.
  destruct (read_compressed_agree _ _ _ _ _ _ _ Hshort Hlong) as [Hcd [j' Hj]]. subst cd.
  assert (HR : R = s_in s1 ++ j') by (apply (f_equal s_in) in Hj; exact Hj).
  destruct (proposal_message (o_cdata p0)) as [mid0 data0|e|] eqn:Hm0; [|apply recvd_eqo, Hq|exact I].
  assert (Hev : forall ok s2 s', s_h s2 = s_h s1 -> s_ev s2 = EvProcess mid0 data0 ok :: s_ev s1 ->
            recvd ps r s2 s' -> recvd (p0 :: ps) (AAccept :: r) s s').
  { intros ok s2 s' Hh Hv. apply (recvd_head p0 ps r s s2 s' mid0 data0 ok Hm0).
    - rewrite Hh. symmetry. apply eqo_h, Hq.
    - rewrite Hv, (eqo_ev _ _ Hq). reflexivity. }
  destruct (mem_bytes mid0 (h_fail (s_h s1))).
  { apply (Hev (negb true) (ev s1 (EvProcess mid0 data0 (negb true)))); [reflexivity..|apply recvd_same; reflexivity]. }
  set (s2 := add_recv (ev s1 (EvProcess mid0 data0 (negb false))) (i_mid ip)) in *.
  assert (Hp2 : prefix (s_in s2) (xfers ps r ++ Y)) by (exists j'; exact HR).
  specialize (IH r s2 Y Hl Hf' Hp2).
  destruct (receive_accepted s2 (zip_props ps r)) as [s'|e s'| |]; try exact I.
  - destruct IH as (I1&I2&I3). split; [exact I1|]. split; [apply (Hev (negb false) s2); [reflexivity..|exact I2]|].
    apply (stored_cons p0 AAccept ps r s2 s' I2 I3). intros _ mid data Hm. rewrite Hm0 in Hm. injection Hm as <- <-. left. reflexivity.
  - apply (Hev (negb false) s2); [reflexivity..|exact IH].
Qed.

(* the receiver of a block given an initial part of it: it answers, or the link is lost before it has written *)
Lemma recv_block_pol sy block R :
  block <> [] -> Forall prop_syn block -> prefix (s_in sy) (proposal_bytes block ++ R) ->
  (exists answers sy1, length answers = length block /\
     inbound_loop (S (length (s_in sy))) sy [] [] = ROk (false, zip_props block answers, sy1) /\
     prefix (s_in sy1) R /\ wire sy1 = wire sy ++ fs_line answers /\ s_h sy1 = s_h sy /\
     (forall p a, In (p, a) (combine block answers) -> a = ADefer \/ a = policy_of (s_h sy) (o_mid p)))
  \/ (exists s', inbound_loop (S (length (s_in sy))) sy [] [] = RFail EConnLost s').
Proof.
  intros Hne Hsyn Hp.
  destruct (recv_block_whole (set_in sy (proposal_bytes block ++ R)) block R _ Hne Hsyn eq_refl (Nat.lt_succ_diag_r _))
    as (answers&s2&E&Hl&Hfull&I2&W2&H2&_&_&_&Ha&_).
  destruct (inbound_loop_back sy _ _ _ Hp Hfull) as [(s1&j&E1&->&_)|Hlost]; [left|right; exact Hlost].
  exists answers, s1. split; [exact Hl|]. split; [exact E1|]. split; [exists j; symmetry; exact I2|]. split; [exact W2|]. split; [exact H2|exact Ha].
Qed.

Lemma sent_of_rejected block : forall answers m, In (m, true) (sent_of block answers) ->
  exists p, In (p, AReject) (combine block answers) /\ o_mid p = m.
Proof.
  induction block as [|p ps IH]; intros answers m H; [destruct H|].
  destruct answers as [|a r]; [destruct H|]. cbn [sent_of combine] in *.
  apply in_app_or in H. destruct H as [H|H].
  - destruct a; cbn in H.
    + destruct H as [E|[]]. discriminate E.
    + destruct H as [E|[]]. inversion E; subst. exists p. split; [left; reflexivity|reflexivity].
    + destruct H.
  - destruct (IH r m H) as (q & Hq & Em). exists q. split; [right; exact Hq|exact Em].
Qed.

(* what the receiver writes after its answer line, and how it goes on *)
Lemma recv_tail_cases s props s1 :
  inbound_loop (S (length (s_in s))) s [] [] = ROk (false, props, s1) ->
  exists T3, wire (final false s) = wire s1 ++ T3 /\
    ((exists s2, receive_accepted s1 props = RcOk s2 /\ T3 = tailw true s2 /\ final false s = final true s2)
     \/ (prefix T3 echo /\
         ((exists e s2, receive_accepted s1 props = RcErr e s2 /\ final false s = fin_state (xerr e) s2)
          \/ (receive_accepted s1 props = RcUnknown /\ final false s = s1)))).
Proof.
  intros E. pose proof (receive_accepted_silent props s1) as Hs. pose proof (receive_accepted_nopanic props s1) as Np.
  destruct (receive_accepted s1 props) as [s2|e s2| |] eqn:Er; [| |congruence|].
  - destruct Hs as [Ho _]. exists (tailw true s2). split.
    + rewrite (final_recv_ok _ _ _ _ E Er), tailw_eq, (wire_out _ _ Ho). reflexivity.
    + left. exists s2. split; [reflexivity|]. split; [reflexivity|apply (final_recv_ok _ _ _ _ E Er)].
  - pose proof (final_recv_err _ _ _ _ _ _ E Er) as Hf. rewrite Hf. destruct e; cbn [xerr fin_state].
    + exists []. split; [rewrite app_nil_r; apply wire_out, Hs|]. right. split; [apply prefix_nil|]. left. eauto.
    + exists echo. split; [rewrite wire_wr, (wire_out _ _ Hs); reflexivity|]. right. split; [apply prefix_refl|]. left. eauto.
  - pose proof (final_recv_unknown _ _ _ _ E Er) as Hf. rewrite Hf. exists [].
    split; [rewrite app_nil_r; reflexivity|]. right. split; [apply prefix_nil|]. right. split; reflexivity.
Qed.

Lemma sender_noreply s2 : s_in s2 = [] ->
  exists e s3, read_reply (S (length (s_in s2))) s2 = RFail e s3 /\ eqo s2 s3.
Proof.
  intros Hin. pose proof (read_reply_eqo (S (length (s_in s2))) s2) as Hq.
  pose proof (read_reply_nopanic (S (length (s_in s2))) s2) as Np.
  destruct (read_reply (S (length (s_in s2))) s2) as [[l s3]|e s3|] eqn:Er; [| |congruence].
  - apply TermP.read_reply_ok in Er. unfold inlen in Er. rewrite Hin in Er. cbn in Er. lia.
  - exists e, s3. split; [reflexivity|exact Hq].
Qed.

(* a side whose peer has stopped: all it can still read is (part of) the error report *)
Lemma next_line_echo s : prefix (s_in s) echo -> exists e s', next_line true s = RFail e s' /\ eqo s s'.
Proof.
  intros Hp. pose proof (next_line_eqo true s) as Hq.
  assert (K : forall l s', next_line true s <> ROk (l, s')).
  { intros l s'. unfold next_line. apply prefix_echo_cases in Hp.
    destruct Hp as [E|[E|[E|[E|[E|[E|[E|E]]]]]]]; rewrite E; vm_compute; discriminate. }
  pose proof (next_line_nopanic true s) as Np.
  destruct (next_line true s) as [[l s']|e s'|]; [exfalso; eapply K; reflexivity| |congruence].
  exists e, s'. split; [reflexivity|exact Hq].
Qed.

Lemma fin_state_wire r s : exists Y, wire (fin_state r s) = wire s ++ Y /\ prefix Y echo.
Proof.
  destruct r; cbn [fin_state]; try (exists []; split; [symmetry; apply app_nil_r|apply prefix_nil]).
  exists echo. split; [apply wire_wr|apply prefix_refl].
Qed.

Lemma mark_sent_gone l s m : In (m, false) l -> In m (h_gone (s_h (mark_sent l s))).
Proof.
  intros H. rewrite (does_h _ _ _ (mark_sent_does l s)). cbn [act e_ev set_gone h_gone]. rewrite own_mids_marks.
  apply in_or_app. left. rewrite <- in_rev. apply in_map_iff. exists (m, false). split; [reflexivity|].
  apply filter_In. split; [exact H|reflexivity].
Qed.

(* what the peek may record: the end of the block and the marks of the answered entries *)
Definition Pmarks (sent : list (bytes * bool)) (e : event) : Prop := e = EvBlockEnd \/ Pmark false sent e \/ Pmark true sent e.

Lemma is_get_noproc e : is_get e -> noproc e.
Proof. intros ->. reflexivity. Qed.

Lemma ho_peek_adds sent s4 :
  match ho_peek sent s4 with
  | ROk (_, s') => adds (Pmarks sent) s4 s' /\ wire s' = wire s4
  | RFail _ s' => adds (Pmarks sent) s4 s' /\ wire s' = wire s4
  | RPanic => True end.
Proof.
  assert (Fm : forall rej, Forall (Pmarks sent) (marks rej sent)).
  { intros rej. eapply Forall_impl; [|apply marks_P]. unfold Pmarks. destruct rej; auto. }
  (* whatever the peek reads (p) and whichever marks it logs (E) before the end of the block, it writes nothing *)
  assert (K : forall p E s', does (act p [] (EvBlockEnd :: E)) s4 s' -> Forall (Pmarks sent) E ->
                adds (Pmarks sent) s4 s' /\ wire s' = wire s4).
  { intros p E s' D F. split; [|rewrite (does_wire _ _ _ D); apply app_nil_r].
    apply via_adds, (does_via _ _ _ _ D). constructor; [left; reflexivity|exact F]. }
  pose proof (ho_peek_does sent s4) as A.
  destruct (ho_peek sent s4) as [[q s']|e s'|]; [destruct A as [_ A]|destruct A as [p A]|exact I].
  - apply (K _ _ _ A), Forall_app. split; apply Fm.
  - apply (K _ _ _ A), Fm.
Qed.

(* the transfers the sender writes for the answers it has read, and what it records meanwhile *)
Lemma send_transfer block answers s3 :
  length answers = length block -> Forall prop_syn block ->
  exists s4 E, ho_transfer block ([70; 83; 32] ++ map answer_byte answers) s3 = ho_peek (sent_of block answers) s4 /\
    does (act [] (xfers block answers) E) s3 s4 /\ Forall is_defer E.
Proof.
  intros Hlen Hsyn. unfold ho_transfer.
  change (slice_from 3 ([70; 83; 32] ++ map answer_byte answers)) with (Some (map answer_byte answers)). cbv iota beta.
  rewrite (parse_answers_bytes answers (S (length (map answer_byte answers))) (length block) [])
    by (rewrite ?map_length; lia).
  cbn [rev' rev_append app].
  destruct (send_accepted_zero block answers s3 [] Hlen Hsyn) as (s4&->&D).
  exists s4, (rev (map EvSetDeferred (deferred block answers))). rewrite app_nil_r, rev'_rev, rev_involutive.
  split; [reflexivity|]. split; [exact D|].
  apply Forall_rev, Forall_forall. intros e K. apply in_map_iff in K. destruct K as (m&<-&_). exact I.
Qed.

(* a side that can only read (part of) the error report records nothing but GetOutbound *)
Lemma quiet_recv_adds s : prefix (s_in s) echo -> adds is_get s (final false s).
Proof.
  intros Hp. destruct (next_line_echo s Hp) as (e&s'&En&Hq).
  assert (Ei : inbound_loop (S (length (s_in s))) s [] [] = RFail e s') by (rewrite inbound_loop_eq, En; reflexivity).
  rewrite (final_recv_fail _ _ _ Ei). eapply adds_trans; [apply adds_eqo, Hq|apply adds_fin].
Qed.

(* a sender with nothing to propose records nothing but GetOutbound, whatever it then writes (send_fq,
   send_ff: FQ if its peer has nothing either, FF otherwise) *)
Lemma sender_idle sx s0 w : outbound sx = ([], s0) -> adds is_get sx (wr s0 w).
Proof.
  intros Eo. pose proof (via_adds _ _ _ (outbound_via sx)) as S0. rewrite Eo in S0.
  eapply adds_trans; [exact S0|apply adds_same; reflexivity].
Qed.

Lemma quiet_send_adds s : prefix (s_in s) echo -> adds is_get s (final true s).
Proof.
  intros Hp. destruct (outbound s) as [[|p ps] s0] eqn:Eo.
  - destruct (s_remote_nomsgs s0) eqn:Eq.
    + destruct (send_fq s s0 Eo Eq) as [Hho _]. rewrite (final_send_quit _ _ Hho). exact (sender_idle s s0 _ Eo).
    + destruct (send_ff s s0 Eo Eq) as (Hho&Ein&_). rewrite (final_send_ok _ _ Hho).
      eapply adds_trans; [exact (sender_idle s s0 [70; 70; 13] Eo)|]. apply quiet_recv_adds. rewrite Ein. exact Hp.
  - pose proof (via_adds _ _ _ (outbound_via s)) as S0. rewrite Eo in S0. cbn [snd] in S0.
    destruct (send_start _ _ _ _ Eo) as (_&_&E2&_&_&_&Hstep). cbv zeta in *.
    set (block := firstn (N.to_nat MaxBlockSize) (p :: ps)) in *. set (s2 := ho_propose block s0) in *.
    assert (Hp2 : prefix (s_in s2) echo) by (rewrite E2; exact Hp).
    destruct (next_line_echo s2 Hp2) as (e&s'&En&Hq).
    assert (Er : read_reply (S (length (s_in s2))) s2 = RFail e s') by (cbn [read_reply]; rewrite En; reflexivity).
    rewrite Er in Hstep. rewrite (final_send_fail _ _ _ Hstep).
    eapply adds_trans; [exact S0|]. eapply adds_trans; [exact (via_adds _ _ _ (does_via _ _ _ _ (ho_propose_does block s0) (Forall_nil _)))|].
    eapply adds_trans; [apply adds_eqo, Hq|apply adds_fin].
Qed.


Lemma adds_nm (P : event -> Prop) s s' : (forall e, P e -> nomark e) -> adds P s s' -> nm s s'.
Proof.
  intros HP (E&V&F&_) m K. rewrite V in K. apply in_app_or in K. destruct K as [K|K]; [|exact K].
  destruct (HP _ (proj1 (Forall_forall _ _) F _ K) m eq_refl).
Qed.
Lemma is_get_nomark e : is_get e -> nomark e.
Proof. intros -> m. discriminate. Qed.

(* what a side may record, given the handler h of its peer: what it hands to its own handler is the message of an
   entry of the peer's outbox; it records "rejected" only if the peer's policy rejects *)
Definition okfor (h : hstate) (e : event) : Prop :=
  match e with
  | EvProcess mid d _ => exists p, In p (h_outbox h) /\ proposal_message (o_cdata p) = MOk mid d
  | EvSetSent m true => policy_of h m = AReject
  | _ => True
  end.
(* what a receiver may record *)
Definition okrecv (h : hstate) (e : event) : Prop := is_recv e /\ okfor h e.

Lemma okfor_get h e : is_get e -> okfor h e. Proof. intros ->. exact I. Qed.
Lemma okfor_defer h e : is_defer e -> okfor h e. Proof. destruct e; intros []; exact I. Qed.
Lemma okrecv_answer h e : is_ans e -> okrecv h e.
Proof. intros H. split; [left; exact H|]. destruct e; destruct H; exact I. Qed.
Lemma okrecv_proc_of h block e : (forall q, In q block -> In q (h_outbox h)) -> proc_of block e -> okrecv h e.
Proof.
  intros Hb (p&mid&d&ok&->&Hp&Hm). split; [right; exact I|]. exists p. split; [apply Hb, Hp|exact Hm].
Qed.
Lemma okrecv_nomark h e : okrecv h e -> nomark e.
Proof. intros [[H|H] _] m'; destruct e; try destruct H; discriminate. Qed.
Lemma okrecv_noown h e : okrecv h e -> noown e.
Proof. intros [[H|H] _]; destruct e; try destruct H; reflexivity. Qed.

(* how a side goes on after the turn: at a new boundary (Some), or it has stopped (None) *)
Definition went (P : event -> Prop) (my : bool) (s : sess) (my' : bool) (c : option sess) : Prop :=
  match c with
  | Some s' => final my s = final my' s' /\ adds P s s'
  | None => adds P s (final my s)
  end.
(* the invariant at the new boundary (cx: the sender of the turn, it receives next; cy: the receiver, it
   sends next); a side whose peer has stopped can read at most the error report *)
Definition linked (cx cy : option sess) : Prop :=
  match cx, cy with
  | Some sx', Some sy2 => prefix (s_in sx') (tailw true sy2) /\ prefix (s_in sy2) (tailw false sx')
  | Some sx', None => prefix (s_in sx') echo
  | None, Some sy2 => prefix (s_in sy2) echo
  | None, None => True
  end.
(* the two sides that go on have less unread input together than before the turn *)
Definition fewer (cx cy : option sess) (sx sy : sess) : Prop :=
  match cx, cy with
  | Some sx', Some sy2 => (inlen sx' + inlen sy2 < inlen sx + inlen sy)%nat
  | _, _ => True
  end.

(* the list form of `went`, for a block B of MIDs: a sender has handed nothing to its handler, and if it
   goes on it has marked them; the receiver has been given pairwise distinct MIDs of B and nothing else *)
Definition sender_marks (cx : option sess) (sx : sess) (B : bytes -> Prop) : Prop :=
  match cx with
  | Some sx' => noprocs sx sx' /\ (forall m, B m -> In m (h_gone (s_h sx')))
  | None => noprocs sx (final true sx)
  end.
Definition receiver_gets (cy : option sess) (sy : sess) (B : bytes -> Prop) : Prop :=
  match cy with
  | Some sy2 => new_procs B sy sy2
  | None => new_procs B sy (final false sy)
  end.
(* of the messages f reports sent beyond s, each is an entry of the outbox of s, and g has stored what is in it *)
Definition marks_stored (s f g : sess) : Prop :=
  forall m, In (EvSetSent m false) (s_ev f) -> In (EvSetSent m false) (s_ev s) \/
    exists p, In p (hob s) /\ o_mid p = m /\
      forall mid data, proposal_message (o_cdata p) = MOk mid data -> In (EvProcess mid data true) (s_ev g).

(* what the sender has newly marked as sent in the turn, the receiver has stored; if either side stops, the
   sender has marked nothing as sent *)
Definition sent_stored (cx cy : option sess) (sx : sess) : Prop :=
  match cx, cy with
  | Some sx', Some sy2 => marks_stored sx sx' sy2
  | Some sx', None => nm sx sx'
  | None, _ => nm sx (final true sx)
  end.
(* the hypothesis under which MIDs can be counted, on the block sx is about to propose: each entry announces
   the MID of the message inside, the MIDs are pairwise distinct, none is marked yet *)
Definition block_wf (sx : sess) : Prop :=
  let block := firstn (N.to_nat MaxBlockSize) (fst (outbound sx)) in
  Forall announced block /\ NoDup (map o_mid block) /\ forall q, In q block -> ~ In (o_mid q) (h_gone (s_h sx)).
(* a MID that s may still be given: the peer (marks G) has not marked it, the policy of s accepts it *)
Definition fresh (G : list bytes) (s : sess) (m : bytes) : Prop := ~ In m G /\ policy_of (s_h s) m = AAccept.

(* one turn: cx, cy as in `went`; if the sender's block is well-formed with distinct MIDs, the set
   B of MIDs the receiver accepts: not yet marked by the sender, accepted by the receiver's policy *)
Definition turned (sx sy : sess) (cx cy : option sess) : Prop :=
  (block_wf sx -> exists B : bytes -> Prop, (forall m, B m -> fresh (h_gone (s_h sx)) sy m) /\
                           sender_marks cx sx B /\ receiver_gets cy sy B) /\
  went (okfor (s_h sy)) true sx false cx /\ went (okrecv (s_h sx)) false sy true cy /\
  sent_stored cx cy sx /\ linked cx cy /\ fewer cx cy sx sy.
Definition cut_turn (sx sy : sess) : Prop := exists cx cy, turned sx sy cx cy.

Lemma recvd_adds block answers s s' : recvd block answers s s' -> adds (proc_of block) s s'.
Proof.
  intros (H&E&V&F&_). exists E. split; [exact V|]. split; [exact F|].
  assert (N : own_mids E = []).
  { apply own_mids_none. eapply Forall_impl; [|exact F]. intros e (p&mid&d&ok&->&_). reflexivity. }
  rewrite N, H. symmetry. apply set_gone_self.
Qed.

(* a receiver that has read its commands has recorded only answers *)
Lemma receiver_ok (P : event -> Prop) sy a s1 :
  (forall e, is_ans e -> P e) -> inbound_loop (S (length (s_in sy))) sy [] [] = ROk (a, s1) ->
  adds P sy s1 /\ noprocs sy s1.
Proof.
  intros HA Ei. pose proof (inbound_loop_via (S (length (s_in sy))) sy [] []) as S1. rewrite Ei in S1. apply via_adds in S1.
  split; [exact (adds_mono _ _ _ _ HA S1)|refine (adds_noprocs _ _ _ _ S1)]. intros e H; destruct e; try destruct H; reflexivity.
Qed.

(* the receiver's half of a turn with a block, once it is known what the sender wrote after it *)
Lemma finish_turn (PY : event -> Prop) sx sy block answers sy1 T3 Y cx :
  length answers = length block -> Forall prop_syn block ->
  (forall e, proc_of block e -> PY e) -> (forall e, is_ans e -> PY e) ->
  inbound_loop (S (length (s_in sy))) sy [] [] = ROk (false, zip_props block answers, sy1) ->
  ((exists s2, receive_accepted sy1 (zip_props block answers) = RcOk s2 /\ T3 = tailw true s2 /\ final false sy = final true s2)
   \/ (prefix T3 echo /\
       ((exists e s2, receive_accepted sy1 (zip_props block answers) = RcErr e s2 /\ final false sy = fin_state (xerr e) s2)
        \/ (receive_accepted sy1 (zip_props block answers) = RcUnknown /\ final false sy = sy1)))) ->
  prefix (s_in sy1) (xfers block answers ++ Y) ->
  match cx with
  | Some sx' => Y = tailw false sx' /\ prefix (s_in sx') T3 /\ (inlen sx' <= inlen sx)%nat
  | None => prefix Y echo
  end ->
  exists cy, went PY false sy true cy /\ linked cx cy /\ fewer cx cy sx sy /\
    match cy with Some sy2 => stored block answers sy2 | None => True end /\
    (Forall announced block -> NoDup (map o_mid block) -> receiver_gets cy sy (fun m => In (m, false) (sent_of block answers))).
Proof.
  intros Hlen Hsyn HG HA Ei Hcase P1 Hcx.
  destruct (receiver_ok PY sy _ sy1 HA Ei) as [S1 L1].
  pose proof (receive_log block answers sy1 Y Hlen Hsyn P1) as RG.
  destruct Hcase as [(sy2&Erc&HT&Hf)|(HTe&Hstop)].
  - rewrite Erc in RG. destruct RG as (J1&J2&J3). pose proof (adds_mono _ PY _ _ HG (recvd_adds _ _ _ _ J2)) as J2'.
    exists (Some sy2). split; [split; [exact Hf|eapply adds_trans; eassumption]|].
    assert (YS : Forall announced block -> NoDup (map o_mid block) ->
                 receiver_gets (Some sy2) sy (fun m => In (m, false) (sent_of block answers))).
    { intros Hw Hnd. cbn [receiver_gets].
      eapply new_procs_noprocs_l; [exact L1|exact (recvd_new_procs _ _ _ _ J2 Hw Hnd)]. }
    destruct cx as [sx'|]; cbn [linked fewer].
    + destruct Hcx as (HY&HP3&Hl). split; [split; [rewrite <- HT; exact HP3|rewrite <- HY; exact J1]|].
      split; [|split; [exact J3|exact YS]].
      pose proof (inbound_loop_ok _ _ _ _ _ _ _ Ei) as K1. pose proof (receive_accepted_inlen (zip_props block answers) sy1) as K2.
      rewrite Erc in K2. lia.
    + split; [eapply prefix_trans; eassumption|]. split; [exact I|split; [exact J3|exact YS]].
  - (* the receiver stops: what it wrote after the answers is part of the error report *)
    assert (LN : linked cx None /\ fewer cx None sx sy).
    { destruct cx as [sx'|]; cbn [linked fewer]; [|split; exact I].
      destruct Hcx as (_&HP3&_). split; [eapply prefix_trans; eassumption|exact I]. }
    exists None. cbn [went receiver_gets]. destruct Hstop as [(e&s2&Erc&Hf)|(Erc&Hf)]; rewrite Erc in RG; rewrite Hf.
    + split; [eapply adds_trans; [exact S1|]; eapply adds_trans; [exact (adds_mono _ PY _ _ HG (recvd_adds _ _ _ _ RG))|apply adds_fin]|].
      split; [exact (proj1 LN)|]. split; [exact (proj2 LN)|]. split; [exact I|]. intros Hw Hnd.
      eapply new_procs_noprocs_r; [eapply new_procs_noprocs_l; [exact L1|exact (recvd_new_procs _ _ _ _ RG Hw Hnd)]|apply noprocs_fin].
    + split; [exact S1|]. split; [exact (proj1 LN)|]. split; [exact (proj2 LN)|]. split; [exact I|].
      intros _ _. apply new_procs_noprocs, L1.
Qed.

Lemma cut_turn_nil sx sy cx cy :
  sender_marks cx sx (fun _ => False) -> receiver_gets cy sy (fun _ => False) ->
  went (okfor (s_h sy)) true sx false cx -> went (okrecv (s_h sx)) false sy true cy ->
  sent_stored cx cy sx -> linked cx cy -> fewer cx cy sx sy -> cut_turn sx sy.
Proof.
  intros XS YS AX AY HM HL HS. exists cx, cy.
  split; [intros _; exists (fun _ => False); split; [intros m []|]; split; assumption|].
  repeat (split; [assumption|]); assumption.
Qed.

(* a receiver that loses the connection before a complete command has recorded and written nothing *)
Lemma receiver_lost (P : event -> Prop) sy s' B :
  inbound_loop (S (length (s_in sy))) sy [] [] = RFail EConnLost s' ->
  went P false sy true None /\ receiver_gets None sy B /\ tailw false sy = [].
Proof.
  intros Ei. pose proof (inbound_loop_lost_eqo _ _ _ _ _ Ei) as Qi. cbn [went receiver_gets]. rewrite (final_recv_fail _ _ _ Ei). cbn [xerr fin_state].
  split; [apply adds_eqo, Qi|]. split; [apply new_procs_noprocs, noprocs_eqo, Qi|].
  apply tailw_intro. rewrite (final_recv_fail _ _ _ Ei). cbn [xerr fin_state]. rewrite app_nil_r. symmetry. apply wire_eqo, Qi.
Qed.

(* a sender whose turn fails stops; it has handed nothing to its handler and marked nothing as sent *)
Lemma sender_fails (P : event -> Prop) sx e s' B :
  handle_outbound sx = RFail e s' -> adds P sx s' ->
  went P true sx false None /\ sender_marks None sx B /\ nm sx (final true sx).
Proof.
  intros H S. pose proof (handle_outbound_noprocs sx) as Hpn. rewrite H in Hpn.
  cbn [went sender_marks]. rewrite (final_send_fail _ _ _ H).
  split; [eapply adds_trans; [exact S|apply adds_fin]|]. split; [eapply noprocs_trans; [exact Hpn|apply noprocs_fin]|].
  intros m. rewrite fin_state_ev. apply (handle_outbound_fail_nm _ _ _ H).
Qed.

Lemma sender_quit (P : event -> Prop) sx s0 :
  outbound sx = ([], s0) -> s_remote_nomsgs s0 = true -> (forall e, is_get e -> P e) ->
  went P true sx false None /\ sender_marks None sx (fun _ => False) /\ nm sx (final true sx) /\ tailw true sx = [70; 81; 13].
Proof.
  intros Eo Eq HP. destruct (send_fq sx s0 Eo Eq) as [Hho Ht].
  pose proof (sender_idle sx s0 [70; 81; 13] Eo) as A.
  cbn [went sender_marks]. rewrite (final_send_quit _ _ Hho).
  split; [exact (adds_mono _ _ _ _ HP A)|]. split; [exact (adds_noprocs _ _ _ is_get_noproc A)|].
  split; [exact (adds_nm _ _ _ is_get_nomark A)|exact Ht].
Qed.

Lemma sender_pass (P : event -> Prop) sx s0 :
  outbound sx = ([], s0) -> s_remote_nomsgs s0 = false -> (forall e, is_get e -> P e) ->
  exists sx', went P true sx false (Some sx') /\ sender_marks (Some sx') sx (fun _ => False) /\ nm sx sx' /\
    tailw true sx = [70; 70; 13] ++ tailw false sx' /\ s_in sx' = s_in sx.
Proof.
  intros Eo Eq HP. destruct (send_ff sx s0 Eo Eq) as (Hho&Ein&_&Ht).
  pose proof (sender_idle sx s0 [70; 70; 13] Eo) as A.
  exists (wr s0 [70; 70; 13]). cbn [went sender_marks].
  split; [split; [exact (final_send_ok _ _ Hho)|exact (adds_mono _ _ _ _ HP A)]|].
  split; [split; [exact (adds_noprocs _ _ _ is_get_noproc A)|intros m []]|].
  split; [exact (adds_nm _ _ _ is_get_nomark A)|split; [exact Ht|exact Ein]].
Qed.

(* the receiver of FQ stops, whether or not the line reaches it whole *)
Lemma receiver_quit (P : event -> Prop) sy B :
  (forall e, is_ans e -> P e) -> prefix (s_in sy) [70; 81; 13] -> went P false sy true None /\ receiver_gets None sy B.
Proof.
  intros HA I2.
  destruct (inbound_loop_back sy _ _ _ I2 (inbound_fq (set_in sy _) [] _ eq_refl (Nat.lt_0_succ _)))
    as [(s1&_&E1&_)|(s1&E1)].
  - cbn [went receiver_gets]. rewrite (final_recv_quit sy [] s1 s1 E1 eq_refl).
    destruct (receiver_ok P sy _ s1 HA E1) as [S1 L1]. split; [exact S1|apply new_procs_noprocs, L1].
  - destruct (receiver_lost P sy s1 B E1) as (AY&YS&_). split; assumption.
Qed.

(* the receiver of FF followed by T becomes the sender with T to read, or loses the connection *)
Lemma receiver_pass (P : event -> Prop) sy T B :
  (forall e, is_ans e -> P e) -> prefix (s_in sy) ([70; 70; 13] ++ T) ->
  (exists s1, went P false sy true (Some s1) /\ receiver_gets (Some s1) sy B /\ prefix (s_in s1) T /\
     tailw false sy = tailw true s1 /\ (inlen s1 < inlen sy)%nat)
  \/ (went P false sy true None /\ receiver_gets None sy B /\ tailw false sy = []).
Proof.
  intros HA I2.
  destruct (recv_ff sy T I2) as [(s1&E1&P1&Hty)|(s1&E1)]; [left|right; exact (receiver_lost P sy s1 B E1)].
  destruct (receiver_ok P sy _ s1 HA E1) as [S1 L1].
  exists s1. cbn [went receiver_gets]. split; [split; [exact (final_recv_ok sy [] s1 s1 E1 eq_refl)|exact S1]|].
  split; [apply new_procs_noprocs, L1|].
  split; [exact P1|]. split; [exact Hty|]. exact (inbound_loop_ok _ _ _ _ _ _ _ E1).
Qed.

Lemma is_defer_nomark e : is_defer e -> nomark e.
Proof. destruct e; intros [] m'; discriminate. Qed.

(* the sender of a block (s2: the proposals written, T2: what it writes after them) whose unread input is
   an initial part of the answers and T3: it stops without a complete answer, having written nothing more;
   or it writes the transfers and then stops, writing at most the error report; or it writes the
   transfers, finds the first byte of the peer's next command, marks what was accepted and goes on *)
Lemma sender_block (P : event -> Prop) sx s2 block answers T2 T3 :
  handle_outbound sx = match read_reply (S (length (s_in s2))) s2 with
                       | RFail e s' => RFail e s'
                       | RPanic => RPanic
                       | ROk (reply, s3) => ho_transfer block reply s3
                       end ->
  adds P sx s2 -> nm sx s2 -> s_in s2 = s_in sx -> wire (final true sx) = wire s2 ++ T2 ->
  length answers = length block -> Forall prop_syn block -> answers <> [] ->
  (forall e, is_defer e -> P e) -> (forall e, Pmarks (sent_of block answers) e -> P e) ->
  prefix (s_in s2) (fs_line answers ++ T3) ->
  exists cx Y, went P true sx false cx /\ sender_marks cx sx (fun m => In (m, false) (sent_of block answers)) /\
    (forall I, prefix I T2 -> prefix I (xfers block answers ++ Y)) /\
    match cx with
    | Some sx' => Y = tailw false sx' /\ prefix (s_in sx') T3 /\ (inlen sx' <= inlen sx)%nat /\ ~ prefix (s_in sx') echo /\
        forall m, In (EvSetSent m false) (s_ev sx') -> In (EvSetSent m false) (s_ev sx) \/ In (m, false) (sent_of block answers)
    | None => prefix Y echo /\ nm sx (final true sx)
    end.
Proof.
  intros Hstep S2 N2 E2 HT2 Hlen Hsyn Hane PD WM I1.
  (* the answer line: all of it arrives, or the link is lost and nothing more is written (T2 = []) *)
  destruct (send_reply s2 answers T3 Hane I1) as [(s3&Er&P3&Q3)|(s'&Er&Q3)]; rewrite Er in Hstep.
  2:{ destruct (sender_fails P sx _ s' (fun m => In (m, false) (sent_of block answers)) Hstep) as (AX&XS&NM);
        [eapply adds_trans; [exact S2|apply adds_eqo, Q3]|].
      exists None, []. split; [exact AX|]. split; [exact XS|]. split; [|split; [apply prefix_nil|exact NM]].
      rewrite (final_send_fail _ _ _ Hstep) in HT2. cbn [xerr fin_state] in HT2.
      rewrite <- (wire_eqo _ _ Q3) in HT2. rewrite <- (app_nil_r (wire s2)) in HT2 at 1.
      apply app_inv_head in HT2. subst T2. intros I K. apply prefix_of_nil in K. rewrite K. apply prefix_nil. }
  (* the transfers are written (s4), the deferred entries recorded *)
  destruct (send_transfer block answers s3 Hlen Hsyn) as (s4&E4&Etr&D4&F4).
  pose proof (does_wire _ _ _ D4 : wire s4 = wire s3 ++ xfers block answers) as W4.
  pose proof (eq_sym (does_in _ _ _ D4) : s_in s4 = s_in s3) as I4. pose proof (via_adds _ _ _ (does_via _ _ _ _ D4 F4)) as S4.
  cbn [app] in Etr, Hstep. rewrite Etr in Hstep.
  assert (S4' : adds P sx s4).
  { eapply adds_trans; [exact S2|]. eapply adds_trans; [apply adds_eqo, Q3|exact (adds_mono _ _ _ _ PD S4)]. }
  assert (Ws4 : wire s4 = wire s2 ++ xfers block answers) by (rewrite W4, <- (wire_eqo _ _ Q3); reflexivity).
  (* the peek: it fails, or it finds the first byte of a command, so that what is left to read is not the
     error report, and the turn ends in sx' with the marks made *)
  pose proof (ho_peek_adds (sent_of block answers) s4) as Hpk.
  set (sx' := ev (mark_sent (sent_of block answers) (mark_rej (sent_of block answers) s4)) EvBlockEnd).
  assert (Hpc : (exists e s', ho_peek (sent_of block answers) s4 = RFail e s')
                \/ (ho_peek (sent_of block answers) s4 = ROk (false, sx') /\ ~ prefix (s_in s4) echo)).
  { destruct (peek_cases (sent_of block answers) s4) as [[_ Hp]|[(b&r&Eb&Hb&Hp)|(b&r&e&s'&_&_&_&Hp)]]; eauto.
    right. split; [exact Hp|]. rewrite Eb. intros K. destruct (prefix_cons_inv _ _ _ K) as (y&Hy&_).
    injection Hy as <- _. destruct Hb; discriminate. }
  destruct Hpc as [(e&s'&Hp)|[Hp Hne]]; rewrite Hp in Hpk, Hstep; destruct Hpk as [Ap Op];
    pose proof (adds_trans _ _ _ _ S4' (adds_mono _ _ _ _ WM Ap)) as Sp.
  - destruct (fin_state_wire (xerr e) s') as (Y&HY&HYe).
    destruct (sender_fails P sx _ s' (fun m => In (m, false) (sent_of block answers)) Hstep Sp) as (AX&XS&NM).
    exists None, Y. split; [exact AX|]. split; [exact XS|]. split; [|split; [exact HYe|exact NM]].
    rewrite (final_send_fail _ _ _ Hstep), HY, Op, Ws4, <- app_assoc in HT2.
    apply app_inv_head in HT2. subst T2. intros I K. exact K.
  - assert (Ein' : s_in sx' = s_in s3) by (unfold sx'; cbn [ev s_in]; rewrite mark_sent_in, mark_rej_in; exact I4).
    exists (Some sx'), (tailw false sx'). split; [split; [apply (final_send_ok _ _ Hstep)|exact Sp]|]. split; [|split].
    + cbn [sender_marks]. split; [pose proof (handle_outbound_noprocs sx) as N; rewrite Hstep in N; exact N|].
      intros m Km. apply mark_sent_gone, Km.
    + rewrite (final_send_ok _ _ Hstep), tailw_eq, Op, Ws4, <- app_assoc in HT2.
      apply app_inv_head in HT2. subst T2. intros I K. exact K.
    + split; [reflexivity|]. split; [rewrite Ein'; exact P3|]. split; [|split; [rewrite Ein', <- I4; exact Hne|]].
      * pose proof (TermP.read_reply_ok _ _ _ _ Er) as L3. unfold inlen in *. rewrite Ein'. rewrite E2 in L3. lia.
      * (* a "sent" mark of sx' was made by mark_sent, or stood in the log before the turn *)
        intros m [Km|Km]; [discriminate|]. apply mark_sent_events in Km. destruct Km as [Km|Km]; [right; exact Km|left].
        apply N2. rewrite (eqo_ev _ _ Q3). apply (adds_nm _ _ _ is_defer_nomark S4), (mark_rej_nm (sent_of block answers) s4), Km.
Qed.

Theorem cut_turn_holds sx sy :
  side_ok sx -> prefix (s_in sx) (tailw false sy) -> prefix (s_in sy) (tailw true sx) -> cut_turn sx sy.
Proof.
  intros Hok I1 I2.
  destruct (outbound sx) as [[|p ps] s0] eqn:Eo.
  - (* nothing to propose: FQ or FF *)
    destruct (s_remote_nomsgs s0) eqn:Eq.
    + destruct (sender_quit (okfor (s_h sy)) sx s0 Eo Eq (okfor_get _)) as (AX&XS&NM&Ht). rewrite Ht in I2.
      destruct (receiver_quit (okrecv (s_h sx)) sy (fun _ => False) (okrecv_answer _) I2) as [AY YS].
      exact (cut_turn_nil sx sy None None XS YS AX AY NM I I).
    + destruct (sender_pass (okfor (s_h sy)) sx s0 Eo Eq (okfor_get _)) as (sx'&AX&XS&NM&Ht&Ein). rewrite Ht in I2.
      destruct (receiver_pass (okrecv (s_h sx)) sy _ (fun _ => False) (okrecv_answer _) I2) as [(s1&AY&YS&P1&Hty&Hl)|(AY&YS&Hty)];
        rewrite Hty, <- Ein in I1.
      * apply (cut_turn_nil sx sy (Some sx') (Some s1) XS YS AX AY); [| split; assumption|].
        -- intros m K. left. exact (NM m K).
        -- cbn [fewer]. unfold inlen in *. rewrite Ein. lia.
      * apply (cut_turn_nil sx sy (Some sx') None XS YS AX AY NM); [|exact I].
        cbn [linked]. apply prefix_of_nil in I1. rewrite I1. apply prefix_nil.
  - (* a block of proposals *)
    pose proof (via_adds _ _ _ (outbound_via sx)) as S0. rewrite Eo in S0. cbn [snd] in S0.
    apply (adds_mono _ (okfor (s_h sy)) _ _ (okfor_get _)) in S0.
    destruct (send_start _ _ _ _ Eo) as (Hbne&Hbin&E2&W2&_&N2&Hstep). pose proof (send_grows _ _ _ _ Eo) as G2.
    cbv zeta in *.
    set (block := firstn (N.to_nat MaxBlockSize) (p :: ps)) in *. set (s2 := ho_propose block s0) in *.
    assert (S2 : adds (okfor (s_h sy)) sx s2) by (eapply adds_trans; [exact S0|exact (via_adds _ _ _ (does_via _ _ _ _ (ho_propose_does block s0) (Forall_nil _)))]).
    assert (HBW : block_wf sx -> Forall announced block /\ NoDup (map o_mid block) /\
                                 forall q, In q block -> ~ In (o_mid q) (h_gone (s_h sx)))
      by (unfold block_wf; rewrite Eo; exact (fun H => H)).
    clearbody s2. clearbody block.
    assert (Hsyn : Forall prop_syn block).
    { apply Forall_forall. intros q Hq. apply (proj1 (Forall_forall _ _) Hok). apply Hbin, Hq. }
    destruct (grows_wire _ _ G2) as [T2 HT2].
    assert (Ht : tailw true sx = proposal_bytes block ++ T2).
    { apply tailw_intro. rewrite HT2, W2, <- app_assoc. reflexivity. }
    rewrite Ht in I2.
    destruct (recv_block_pol sy block T2 Hbne Hsyn I2) as [(answers&sy1&Hlen&Ei&P1&W1&Hh1&HR2)|(s'&Ei)].
    2:{ (* the receiver has not seen the whole block: it stops, and so does the sender *)
        destruct (receiver_lost (okrecv (s_h sx)) sy s' (fun _ => False) Ei) as (AY&YS&Hty).
        rewrite Hty in I1. apply prefix_of_nil in I1.
        destruct (sender_noreply s2 ltac:(rewrite E2; exact I1)) as (e&s3&Er&Q3).
        rewrite Er in Hstep.
        destruct (sender_fails (okfor (s_h sy)) sx e s3 (fun _ => False) Hstep) as (AX&XS&NM);
          [eapply adds_trans; [exact S2|apply adds_eqo, Q3]|].
        exact (cut_turn_nil sx sy None None XS YS AX AY NM I I). }
    assert (Hane : answers <> []) by (intros ->; destruct block; [congruence|discriminate]).
    destruct (recv_tail_cases _ _ _ Ei) as (T3&HT3&Hcase).
    assert (Hty : tailw false sy = fs_line answers ++ T3).
    { apply tailw_intro. rewrite HT3, W1, <- app_assoc. reflexivity. }
    rewrite Hty, <- E2 in I1.
    assert (WM : forall e, Pmarks (sent_of block answers) e -> okfor (s_h sy) e).
    { intros e [->|[(m&->&_)|(m&->&Hin)]]; try exact I.
      destruct (sent_of_rejected _ _ _ Hin) as (q&Hq&<-).
      destruct (HR2 q AReject Hq) as [K|K]; [discriminate|symmetry; exact K]. }
    destruct (sender_block (okfor (s_h sy)) sx s2 block answers T2 T3 Hstep S2 N2 E2 HT2 Hlen Hsyn Hane (okfor_defer _) WM I1)
      as (cx&Y&AX&XS&HY&Hcx).
    assert (Hcx' : match cx with
                   | Some sx' => Y = tailw false sx' /\ prefix (s_in sx') T3 /\ (inlen sx' <= inlen sx)%nat
                   | None => prefix Y echo end) by (destruct cx; [decompose [and] Hcx; auto|apply Hcx]).
    destruct (finish_turn (okrecv (s_h sx)) sx sy block answers sy1 T3 Y cx Hlen Hsyn
                (fun e => okrecv_proc_of _ block e Hbin) (okrecv_answer _) Ei Hcase (HY _ P1) Hcx') as (cy&AY&HL&HS&HST&YS).
    exists cx, cy. split; [|split; [exact AX|split; [exact AY|split; [|split; assumption]]]].
    + intros Hw. destruct (HBW Hw) as (Hwf&Hnd&GbB). exists (fun m => In (m, false) (sent_of block answers)).
      split; [|split; [exact XS|exact (YS Hwf Hnd)]].
      intros m Km. destruct (sent_of_accepted _ _ _ Km) as (q&Hq&<-).
      split; [apply GbB; eapply in_combine_l; exact Hq|].
      destruct (HR2 q AAccept Hq) as [K|K]; [discriminate|symmetry; exact K].
    + (* what was marked as sent was accepted, and the receiver went on: it has stored it *)
      destruct cx as [sx'|]; [|apply Hcx]. destruct Hcx as (_&_&_&Hne&Hmk).
      destruct cy as [sy2|]; [|destruct (Hne HL)]. intros m Km.
      destruct (Hmk m Km) as [K|K]; [left; exact K|right]. destruct (sent_of_accepted _ _ _ K) as (q&Hq&Hm).
      exists q. split; [eapply Hbin, in_combine_l; exact Hq|]. split; [exact Hm|].
      intros mid data. exact (HST q mid data Hq).
Qed.

(* induction over the turn boundaries of a cut pair: a property of a boundary follows from what the turn did
   (turned, by cut_turn_holds) and, when both sides go on, from the property of the next boundary, where the
   sides have changed roles *)
Lemma cut_ind (Q : sess -> sess -> Prop) :
  (forall sx sy cx cy, side_ok sx -> side_ok sy -> turned sx sy cx cy ->
     (forall sx' sy2, cx = Some sx' -> cy = Some sy2 -> Q sy2 sx') -> Q sx sy) ->
  forall sx sy, side_ok sx -> side_ok sy ->
    prefix (s_in sx) (tailw false sy) -> prefix (s_in sy) (tailw true sx) -> Q sx sy.
Proof.
  intros Step sx sy. remember (S (inlen sx + inlen sy)) as n eqn:En. assert (Hn : (inlen sx + inlen sy < n)%nat) by lia.
  clear En. revert sx sy Hn. induction n as [|n IH]; intros sx sy Hn Okx Oky I1 I2; [lia|].
  destruct (cut_turn_holds sx sy Okx I1 I2) as (cx&cy&T). apply (Step sx sy cx cy Okx Oky T). intros sx' sy2 -> ->.
  destruct T as (_&[_ Sx]&[_ Sy]&_&[J1 J2]&HS). cbn [fewer] in HS.
  apply IH; [lia|unfold side_ok; rewrite (adds_hob _ _ _ Sy); exact Oky|unfold side_ok; rewrite (adds_hob _ _ _ Sx); exact Okx
            |exact J2|exact J1].
Qed.

(* what either side marks as sent from a boundary on, the other stores *)
Lemma cut_safety sx sy :
  side_ok sx -> side_ok sy -> prefix (s_in sx) (tailw false sy) -> prefix (s_in sy) (tailw true sx) ->
  marks_stored sx (final true sx) (final false sy) /\ marks_stored sy (final false sy) (final true sx).
Proof.
  revert sx sy. apply cut_ind. intros sx sy cx cy _ _ (_&AX&AY&HM&HL&_) IH.
  assert (NY : forall sy', adds (okrecv (s_h sx)) sy sy' -> nm sy sy') by (intros sy'; apply adds_nm, okrecv_nomark).
  destruct cx as [sx'|], cy as [sy2|]; cbn [went linked sent_stored] in AX, AY, HL, HM; unfold marks_stored in *.
  - (* both go on: what the sender marked in this turn the receiver has stored in this turn *)
    destruct AX as [Fx Sx]. destruct AY as [Fy Sy]. rewrite Fx, Fy. destruct (IH sx' sy2 eq_refl eq_refl) as [K1 K2].
    rewrite (adds_hob _ _ _ Sy) in K1. rewrite (adds_hob _ _ _ Sx) in K2. split; intros m Km.
    + destruct (K2 m Km) as [K|K]; [|right; exact K].
      destruct (HM m K) as [L|(q&Hq&Hm&Hst)]; [left; exact L|right].
      exists q. split; [exact Hq|]. split; [exact Hm|]. intros mid data Hpm.
      destruct (final_ev true sy2) as [x Hx]. rewrite Hx. apply in_or_app. right. exact (Hst mid data Hpm).
    + destruct (K1 m Km) as [K|K]; [left; exact (NY _ Sy m K)|right; exact K].
  - (* a side whose peer has stopped reads at most the error report and marks nothing *)
    destruct AX as [Fx Sx]. rewrite Fx. split; intros m Km; left; [|exact (NY _ AY m Km)].
    exact (HM m (adds_nm _ _ _ is_get_nomark (quiet_recv_adds sx' HL) m Km)).
  - destruct AY as [Fy Sy]. rewrite Fy. split; intros m Km; left; [exact (HM m Km)|].
    exact (NY _ Sy m (adds_nm _ _ _ is_get_nomark (quiet_send_adds sy2 HL) m Km)).
  - split; intros m Km; left; [exact (HM m Km)|exact (NY _ AY m Km)].
Qed.

Lemma init_state_facts cfg i :
  s_in (init_state cfg i) = i /\ s_out (init_state cfg i) = [] /\ s_h (init_state cfg i) = c_handler cfg /\
  s_master (init_state cfg i) = c_master cfg /\ (forall m, ~ In (EvSetSent m false) (s_ev (init_state cfg i))).
Proof.
  split; [apply init_state_in|]. split; [apply init_state_out|]. split; [apply init_state_h|].
  split; [apply init_state_master|].
  unfold init_state. destruct (h_present (c_handler cfg)); intros m H; cbn in H; intuition discriminate.
Qed.

Lemma finish_wire n r s : x_wire (finish n r s) = wire (fin_state r s).
Proof. unfold finish, wire. cbn [x_wire]. rewrite rev'_rev. destruct r; reflexivity. Qed.
Lemma finish_events_fin n r s : x_events (finish n r s) = rev (s_ev (fin_state r s)).
Proof. rewrite finish_events. destruct r; reflexivity. Qed.

(* after the handshake Exchange is the turn loop, whose fuel suffices *)
Lemma exchange_run cfg input s2 :
  h_present (c_handler cfg) && h_prepare_err (c_handler cfg) = false ->
  handshake (init_state cfg input) = ROk s2 ->
  exchange cfg input = let '(r, s3) := run (negb (c_master cfg)) s2 in finish (length input) r s3.
Proof.
  intros Hp Hh. rewrite exchange_session. unfold session. rewrite Hp, Hh. reflexivity.
Qed.

Lemma exchange_ok cfg input s2 :
  h_present (c_handler cfg) && h_prepare_err (c_handler cfg) = false ->
  handshake (init_state cfg input) = ROk s2 ->
  x_wire (exchange cfg input) = wire (final (negb (c_master cfg)) s2) /\
  x_events (exchange cfg input) = rev (s_ev (final (negb (c_master cfg)) s2)).
Proof.
  intros Hp Hh. rewrite (exchange_run _ _ _ Hp Hh). unfold final. destruct (run (negb (c_master cfg)) s2) as [r s3].
  split; [apply finish_wire|apply finish_events_fin].
Qed.

Lemma exchange_fail cfg input e s2 :
  h_present (c_handler cfg) && h_prepare_err (c_handler cfg) = false ->
  handshake (init_state cfg input) = RFail e s2 ->
  x_wire (exchange cfg input) = wire (fin_state (xerr e) s2) /\
  x_events (exchange cfg input) = rev (s_ev (fin_state (xerr e) s2)).
Proof.
  intros Hp Hh. rewrite exchange_eq. cbv zeta. rewrite Hp, Hh.
  split; [apply finish_wire|apply finish_events_fin].
Qed.

Lemma hs_forward i2 s s1 : handshake s = ROk s1 -> handshake (ext i2 s) = ROk (ext i2 s1).
Proof.
  intros H. pose proof (handshake_extx i2 s) as R. rewrite H in R. cbn [lift1 relx] in R. destruct R as [R _].
  destruct (handshake (ext i2 s)) as [s2|e s2|]; cbn [lift1] in R; try discriminate. injection R as ->. reflexivity.
Qed.

(* what the master writes in its handshake does not depend on what it receives *)
Lemma handshake_master_out s i s1 :
  s_master s = true -> handshake s = ROk s1 ->
  match handshake (set_in s i) with
  | ROk s2 => wire s2 = wire s1 | RFail _ s2 => wire s2 = wire s1 | RPanic => True end.
Proof.
  intros Hm H. pose proof (handshake_does s) as A. rewrite H in A. destruct A as (p&w&D&Hw). rewrite (Hw Hm) in D.
  pose proof (handshake_does (set_in s i)) as B. change (hs_greet (set_in s i)) with (hs_greet s) in B.
  destruct (handshake (set_in s i)); [destruct B as (p'&w'&D'&Hw'); rewrite (Hw' Hm) in D'|destruct B as (p'&D')|exact I];
    rewrite (does_wire _ _ _ D), (does_wire _ _ _ D'); cbn [act e_wr]; rewrite ?app_nil_r; reflexivity.
Qed.

Lemma handshake_slave_fail_out s e s' : s_master s = false -> handshake s = RFail e s' -> wire s' = wire s.
Proof.
  intros Hm H. pose proof (handshake_does s) as A. rewrite H in A. destruct A as (p&D).
  rewrite (does_wire _ _ _ D). unfold hs_greet. rewrite Hm. apply app_nil_r.
Qed.

Lemma firstn_prefix {A} n (l : list A) : prefix (firstn n l) l.
Proof. exists (skipn n l). symmetry. apply firstn_skipn. Qed.

Lemma hs_sfx s s' : handshake s = ROk s' -> sfx (s_in s') (s_in s).
Proof. intros H. pose proof (handshake_quiet s) as A. rewrite H in A. destruct A as (p&w&D). exists p. exact (does_in _ _ _ D). Qed.

Lemma rh_echo_line f s d d' s' rest :
  s_in s = [42;42;42;32;95] ++ 13 :: rest -> (rest = [] \/ rest = [10]) ->
  read_handshake f s d <> ROk (d', s').
Proof.
  intros E Hr. destruct f as [|f]; [discriminate|]. rewrite read_handshake_eq, E. cbn [app N.eqb Pos.eqb andb].
  rewrite (next_line_gen false s [42;42;42;32;95] rest) by (exact E || discriminate || reflexivity || (cbn; intuition discriminate)).
  change (rh_line d [42;42;42;32;95]) with (RhGo d).
  destruct f as [|f]; [discriminate|]. rewrite read_handshake_eq. cbn [set_in s_in].
  destruct Hr as [-> | ->]; [discriminate|]. cbn [N.eqb Pos.eqb andb]. unfold next_line. cbn [set_in s_in].
  replace (read_until 13 [10]) with (@None (bytes * bytes)) by reflexivity. discriminate.
Qed.

Lemma rh_echo x : prefix x echo -> forall f s d d' s', s_in s = x -> read_handshake f s d <> ROk (d', s').
Proof.
  intros Hp f s d d' s' E. apply prefix_echo_cases in Hp.
  destruct Hp as [->|Hp].
  { destruct f as [|f]; [discriminate|]. rewrite read_handshake_eq, E. discriminate. }
  assert (K : forall r, x = 42 :: r -> read_until 13 (42 :: r) = None -> read_handshake f s d <> ROk (d', s')).
  { intros r -> Hn. destruct f as [|f]; [discriminate|]. rewrite read_handshake_eq, E. cbn [N.eqb Pos.eqb andb].
    unfold next_line. rewrite E, Hn. discriminate. }
  destruct Hp as [Hp|[Hp|[Hp|[Hp|[Hp|[Hp|Hp]]]]]]; try (eapply K; [exact Hp|reflexivity]).
  - subst x. eapply rh_echo_line; [exact E|left; reflexivity].
  - subst x. eapply rh_echo_line; [exact E|right; reflexivity].
Qed.

(* a side that receives (an initial part of) the error report instead of a greeting does not
   complete its handshake *)
Lemma handshake_echo s s' : prefix (s_in s) echo -> handshake s <> ROk s'.
Proof.
  intros Hp. rewrite handshake_eq. pose proof (does_in _ _ _ (greeted_does s)) as G.
  pose proof (rh_echo _ Hp (S (length (s_in s))) (greeted s) d0) as Hr.
  destruct (read_handshake _ _ d0) as [[d1 s3]|e s3|]; try discriminate.
  exfalso. eapply Hr; [symmetry; exact G|reflexivity].
Qed.

(* whatever the master reads, what it writes begins with its greeting *)
Lemma master_greets m F sm i :
  c_master m = true -> h_present (c_handler m) && h_prepare_err (c_handler m) = false ->
  handshake (init_state m F) = ROk sm -> exists X, x_wire (exchange m i) = wire sm ++ X.
Proof.
  intros Mm Pm Hm.
  pose proof (handshake_master_out (init_state m F) i sm (eq_trans (init_state_master m F) Mm) Hm) as Ho.
  rewrite init_state_set_in in Ho. pose proof (handshake_nopanic (init_state m i)) as Np.
  destruct (handshake (init_state m i)) as [s0|e s0|] eqn:Hi; [| |congruence].
  - exists (tailw (negb (c_master m)) s0). rewrite (proj1 (exchange_ok _ _ _ Pm Hi)), tailw_eq, Ho. reflexivity.
  - destruct (grows_wire _ _ (fin_state_grows (xerr e) s0)) as [d Hd].
    exists d. rewrite (proj1 (exchange_fail _ _ _ _ Pm Hi)), Hd, Ho. reflexivity.
Qed.

(* a handshake known to succeed on F, run on an input x that agrees with F as far as both go: it succeeds,
   having read the same bytes C and written the same, or x is an initial part of F and the link is lost *)
Lemma hs_comparable c F T x s0 :
  handshake (init_state c F) = ROk s0 -> prefix x (F ++ T) ->
  (exists s1 C, handshake (init_state c x) = ROk s1 /\ wire s1 = wire s0 /\ F = C ++ s_in s0 /\ x = C ++ s_in s1) \/
  (exists s1, handshake (init_state c x) = RFail EConnLost s1 /\ lost s1 s0).
Proof.
  intros H0 Hp. destruct (hs_sfx _ _ H0) as [C HC]. rewrite init_state_in in HC.
  destruct (prefix_comparable x F _ Hp (prefix_app_l F T)) as [[j Hj]|[j Hj]].
  - rewrite Hj, init_state_ext in H0. destruct (hs_back _ _ _ H0) as [(s1&E1&E)|(s1&E1&L)]; [left|right; exists s1; split; assumption].
    exists s1, C. split; [exact E1|]. split; [rewrite E; reflexivity|]. split; [exact HC|].
    rewrite E in HC. cbn [ext set_in s_in] in HC. apply (app_inv_tail j). rewrite <- app_assoc, <- Hj. exact HC.
  - left. exists (ext j s0), C. rewrite Hj, init_state_ext. split; [apply hs_forward, H0|]. split; [reflexivity|].
    split; [exact HC|]. cbn [ext set_in s_in]. rewrite app_assoc, <- HC. reflexivity.
Qed.

(* a pair of opposite roles is master and slave in one of the two orders *)
Lemma roles_cases (a b : side_cfg) : c_master a = negb (c_master b) ->
  (c_master a = true /\ c_master b = false) \/ (c_master a = false /\ c_master b = true).
Proof. destruct (c_master a), (c_master b); intros H; try discriminate H; auto. Qed.

(* master m and slave s with the greetings M, S of hs_compat, each fed an initial part of what the other
   wrote: the slave's handshake succeeds, having read M and written S, and then the master's, having read S
   and written M -- unless the link is lost in one of the two handshakes *)
Lemma ms_cut m s M S sm ss in_m in_s :
  c_master m = true -> c_master s = false ->
  h_present (c_handler m) && h_prepare_err (c_handler m) = false ->
  h_present (c_handler s) && h_prepare_err (c_handler s) = false ->
  handshake (init_state m (S ++ [70])) = ROk sm -> s_in sm = [70] -> wire sm = M ->
  handshake (init_state s M) = ROk ss -> s_in ss = [] -> wire ss = S ->
  prefix in_s (x_wire (exchange m in_m)) -> prefix in_m (x_wire (exchange s in_s)) ->
  (exists s1, handshake (init_state s in_s) = RFail EConnLost s1) \/
  exists ss0, handshake (init_state s in_s) = ROk ss0 /\ wire ss0 = S /\ in_s = M ++ s_in ss0 /\
    ((exists s1, handshake (init_state m in_m) = RFail EConnLost s1 /\ lost s1 sm) \/
     exists sm0, handshake (init_state m in_m) = ROk sm0 /\ wire sm0 = M /\ in_m = S ++ s_in sm0).
Proof.
  intros Mm Ms Pm Ps Hm1 Hm2 Hm3 Hs1 Hs2 Hs3 Hs Hm.
  (* the master writes M whatever it reads; the slave reads it *)
  destruct (master_greets m _ sm in_m Mm Pm Hm1) as [X HX]. rewrite HX, Hm3 in Hs.
  destruct (hs_comparable s M X in_s ss Hs1 Hs) as [(ss0&C&Hss&Ws&EC&Es)|(s1&Hss&_)]; [right|left; exists s1; exact Hss].
  rewrite Hs2, app_nil_r in EC. subst C. rewrite Hs3 in Ws.
  exists ss0. split; [exact Hss|]. split; [exact Ws|]. split; [exact Es|].
  (* the slave goes on with the first byte 'F' of a command; the master reads S and stops in front of that byte *)
  rewrite (proj1 (exchange_ok _ _ _ Ps Hss)), tailw_eq, Ms in Hm. cbn [negb] in Hm.
  destruct (tailw_send_F ss0) as [rF HF]. rewrite HF, Ws in Hm.
  change (70 :: rF) with ([70] ++ rF) in Hm. rewrite app_assoc in Hm.
  destruct (hs_comparable m (S ++ [70]) rF in_m sm Hm1 Hm) as [(sm0&C&Hmm&Wm&EC&Em)|(s1&Hmm&L)];
    [right|left; exists s1; split; assumption].
  rewrite Hm2 in EC. apply app_inv_tail in EC. subst C. rewrite Hm3 in Wm.
  exists sm0. split; [exact Hmm|]. split; [exact Wm|exact Em].
Qed.

(* a cut session at its first turn boundary.  a has received in_a, an initial part of what b wrote
   on P, and P is an initial part of what a wrote.  If a has completed its handshake and has input
   left, then b has completed its handshake too, and, the two greetings cancelled, the unread input of each is
   an initial part of what the other writes from there on: the invariant of cut_turn_holds, with the slave to
   send.  (For a closed session, P = x_wire (exchange a in_a) and in_a = x_wire (exchange b P), the same
   cancellation gives equalities: DeliverP.closed_pair_split.) *)
Lemma hs_boundary (a b : side_cfg) (in_a P : bytes) sa0 :
  c_master a = negb (c_master b) ->
  hs_compat (if c_master a then a else b) (if c_master a then b else a) ->
  h_present (c_handler a) && h_prepare_err (c_handler a) = false ->
  handshake (init_state a in_a) = ROk sa0 -> s_in sa0 <> [] ->
  prefix P (x_wire (exchange a in_a)) -> prefix in_a (x_wire (exchange b P)) ->
  h_present (c_handler b) && h_prepare_err (c_handler b) = false /\
  exists sb0, handshake (init_state b P) = ROk sb0 /\
    prefix (s_in sa0) (tailw (c_master a) sb0) /\ prefix (s_in sb0) (tailw (negb (c_master a)) sa0).
Proof.
  intros Hrole Hhs Pa Ha Hne HP HI.
  destruct (h_present (c_handler b) && h_prepare_err (c_handler b)) eqn:Pb.
  { (* B's handler failed to prepare: B has sent the error report only *)
    exfalso. assert (W : x_wire (exchange b P) = echo).
    { rewrite exchange_eq. cbv zeta. rewrite Pb, finish_wire. cbn [fin_state]. rewrite wire_wr.
      unfold wire. rewrite init_state_out. reflexivity. }
    rewrite W in HI. eapply handshake_echo; [|exact Ha]. rewrite (init_state_in a in_a). exact HI. }
  split; [reflexivity|].
  (* b has completed its handshake too: each side's input is the other's greeting and what it has left *)
  assert (E : exists sb0, handshake (init_state b P) = ROk sb0 /\ in_a = wire sb0 ++ s_in sa0 /\ P = wire sa0 ++ s_in sb0).
  { destruct Hhs as (M&S&sm&ss&Hm1&Hm2&Hm3&Hs1&Hs2&Hs3).
    destruct (roles_cases a b Hrole) as [[Ma Mb]|[Ma Mb]]; rewrite Ma in *.
    - (* A is the master *)
      destruct (ms_cut a b M S sm ss in_a P Ma Mb Pa Pb Hm1 Hm2 Hm3 Hs1 Hs2 Hs3 HP HI)
        as [(s1&Hb)|(sb0&Hb&Wb&EP&[(s1&Ha'&_)|(s1&Ha'&Wa&EA)])].
      + (* the slave B has written nothing, so A has read nothing *)
        exfalso. destruct (exchange_fail _ _ _ _ Pb Hb) as [W _]. cbn [xerr fin_state] in W.
        pose proof (handshake_slave_fail_out _ _ _ (eq_trans (init_state_master b P) Mb) Hb) as Ho.
        rewrite Ho in W. unfold wire in W. rewrite init_state_out in W. cbn in W.
        rewrite W in HI. apply prefix_of_nil in HI. subst in_a.
        destruct (hs_sfx _ _ Ha) as [x Hx]. rewrite init_state_in in Hx. symmetry in Hx. apply app_eq_nil in Hx. apply Hne, Hx.
      + rewrite Ha in Ha'. discriminate.
      + rewrite Ha in Ha'. injection Ha' as <-. exists sb0. split; [exact Hb|]. split; [rewrite Wb; exact EA|rewrite Wa; exact EP].
    - (* A is the slave *)
      destruct (ms_cut b a M S sm ss P in_a Mb Ma Pb Pa Hm1 Hm2 Hm3 Hs1 Hs2 Hs3 HI HP)
        as [(s1&Ha')|(s1&Ha'&Wa&EA&Hb)]; rewrite Ha in Ha'; [discriminate|]. injection Ha' as <-.
      destruct Hb as [(sb1&Hb&L&_)|(sb0&Hb&Wb&EP)].
      + (* the master B has written an initial part of M only, so A has nothing left to read *)
        exfalso. destruct (exchange_fail _ _ _ _ Pb Hb) as [W _]. cbn [xerr fin_state] in W.
        destruct (pre_wire _ _ L) as [d Hd]. rewrite Hm3 in Hd.
        rewrite W, EA, Hd in HI. apply prefix_length in HI. rewrite !app_length in HI.
        apply Hne. clear - HI. destruct (s_in sa0); [reflexivity|cbn [length] in HI; lia].
      + exists sb0. split; [exact Hb|]. split; [rewrite Wb; exact EA|rewrite Wa; exact EP]. }
  (* the greetings cancelled *)
  destruct E as (sb0&Hb&Ea&Eb). exists sb0. split; [exact Hb|].
  rewrite (proj1 (exchange_ok _ _ _ Pa Ha)), tailw_eq in HP. rewrite (proj1 (exchange_ok _ _ _ Pb Hb)), tailw_eq, <- Hrole in HI.
  rewrite Ea in HI at 1. rewrite Eb in HP at 1. split; [exact (prefix_app_inv _ _ _ HI)|exact (prefix_app_inv _ _ _ HP)].
Qed.

Lemma handshake_fail_ev s e s' : handshake s = RFail e s' -> s_ev s' = s_ev s.
Proof. intros H. pose proof (handshake_quiet s) as A. rewrite H in A. destruct A as (p&w&D). exact (does_ev_eq _ _ _ D). Qed.

Lemma handshake_start c i s : handshake (init_state c i) = ROk s -> s_h s = c_handler c /\ s_ev s = s_ev (init_state c i).
Proof.
  intros H. split; [rewrite (handshake_h _ _ H); apply (init_state_facts c i)|].
  pose proof (handshake_quiet (init_state c i)) as A. rewrite H in A. destruct A as (p&w&D). exact (does_ev_eq _ _ _ D).
Qed.

(* the log of one side, any input: that of its initial state (Prepare failed, or the handshake did), or
   the handshake succeeded, without a new event, and the turns ran *)
Lemma exchange_log_cases cfg i :
  x_events (exchange cfg i) = rev (s_ev (init_state cfg i)) \/
  exists s0, h_present (c_handler cfg) && h_prepare_err (c_handler cfg) = false /\
    handshake (init_state cfg i) = ROk s0 /\
    x_events (exchange cfg i) = rev (s_ev (final (negb (c_master cfg)) s0)).
Proof.
  destruct (h_present (c_handler cfg) && h_prepare_err (c_handler cfg)) eqn:Pa.
  { left. rewrite exchange_eq. cbv zeta. rewrite Pa. apply finish_events. }
  pose proof (handshake_nopanic (init_state cfg i)) as Np.
  destruct (handshake (init_state cfg i)) as [s0|e s0|] eqn:Ha; [| |congruence].
  - right. exists s0. split; [reflexivity|]. split; [reflexivity|]. exact (proj2 (exchange_ok _ _ _ Pa Ha)).
  - left. rewrite (proj2 (exchange_fail _ _ _ _ Pa Ha)), fin_state_ev, (handshake_fail_ev _ _ _ Ha). reflexivity.
Qed.


(* a cut session at its first turn boundary: the log of a is that of its initial state, or a has completed its
   handshake and then has nothing to read (it can only ask for its outbox), or both have completed their handshakes and stand at the first
   boundary: the slave sends, and the invariant of cut_turn_holds holds *)
Lemma cut_start (a b : side_cfg) (in_a in_b : bytes) :
  c_master a = negb (c_master b) ->
  hs_compat (if c_master a then a else b) (if c_master a then b else a) ->
  prefix in_a (x_wire (exchange b in_b)) -> prefix in_b (x_wire (exchange a in_a)) ->
  x_events (exchange a in_a) = rev (s_ev (init_state a in_a)) \/
  exists sa0, handshake (init_state a in_a) = ROk sa0 /\
    x_events (exchange a in_a) = rev (s_ev (final (negb (c_master a)) sa0)) /\
    (adds is_get sa0 (final (negb (c_master a)) sa0) \/
     exists sb0, handshake (init_state b in_b) = ROk sb0 /\
       x_events (exchange b in_b) = rev (s_ev (final (c_master a) sb0)) /\
       prefix (s_in sa0) (tailw (c_master a) sb0) /\ prefix (s_in sb0) (tailw (negb (c_master a)) sa0)).
Proof.
  intros Hrole Hhs HI HP.
  destruct (exchange_log_cases a in_a) as [EA|(sa0&Pa&Ha&EA)]; [left; exact EA|right].
  exists sa0. split; [exact Ha|]. split; [exact EA|].
  assert (D : s_in sa0 = [] \/ s_in sa0 <> []) by (destruct (s_in sa0); [left; reflexivity|right; discriminate]).
  destruct D as [E0|Hne]; [left|right].
  { assert (Hp : prefix (s_in sa0) echo) by (rewrite E0; apply prefix_nil).
    destruct (negb (c_master a)); [apply quiet_send_adds|apply quiet_recv_adds]; exact Hp. }
  destruct (hs_boundary a b in_a in_b sa0 Hrole Hhs Pa Ha Hne HP HI) as (Pb&sb0&Hb&HB).
  exists sb0. split; [exact Hb|]. split; [|exact HB]. rewrite Hrole. exact (proj2 (exchange_ok _ _ _ Pb Hb)).
Qed.

Theorem two_party_safety_intact (a b : side_cfg) (in_a : bytes) (k : nat) (mid : bytes) :
  c_master a = negb (c_master b) ->
  hs_compat (if c_master a then a else b) (if c_master a then b else a) ->
  Forall prop_syn (h_outbox (c_handler a)) -> Forall prop_syn (h_outbox (c_handler b)) ->
  outbox_wf (c_handler a) ->
  let oa := exchange a in_a in
  In (EvSetSent mid false) (x_events oa) ->
  in_a = firstn (length in_a) (x_wire (exchange b (firstn k (x_wire oa)))) ->
  exists p data, In p (h_outbox (c_handler a)) /\ o_mid p = mid /\ proposal_message (o_cdata p) = MOk mid data /\
    In (EvProcess mid data true) (x_events (exchange b (firstn k (x_wire oa)))).
Proof.
  intros Hrole Hhs Sa Sb Wf oa Hmark Hin. set (P := firstn k (x_wire oa)) in *.
  assert (HP : prefix P (x_wire oa)) by apply firstn_prefix.
  assert (HI : prefix in_a (x_wire (exchange b P))) by (rewrite Hin at 1; apply firstn_prefix).
  assert (N0 : forall s, s_ev s = s_ev (init_state a in_a) -> ~ In (EvSetSent mid false) (s_ev s)).
  { intros s E K. rewrite E in K. exact (proj2 (proj2 (proj2 (proj2 (init_state_facts a in_a)))) mid K). }
  unfold oa in Hmark. destruct (cut_start a b in_a P Hrole Hhs HI HP) as [EA|(sa0&Ha&EA&HB)]; rewrite EA, <- in_rev in Hmark.
  { destruct (N0 _ eq_refl Hmark). }
  destruct (handshake_start _ _ _ Ha) as [Hha Eva].
  destruct HB as [Q|(sb0&Hb&EB&I1&I2)].
  { (* nothing to read after the handshake: nothing is marked *)
    destruct (N0 _ Eva (adds_nm _ _ _ is_get_nomark Q mid Hmark)). }
  (* both sides stand at the first turn boundary: the run of the pair from there *)
  assert (Oa : side_ok sa0) by (unfold side_ok, hob; rewrite Hha; exact Sa).
  assert (Ob : side_ok sb0) by (unfold side_ok, hob; rewrite (proj1 (handshake_start _ _ _ Hb)); exact Sb).
  assert (K : marks_stored sa0 (final (negb (c_master a)) sa0) (final (c_master a) sb0)).
  { destruct (c_master a); cbn [negb] in *.
    - exact (proj2 (cut_safety sb0 sa0 Ob Oa I2 I1)).
    - exact (proj1 (cut_safety sa0 sb0 Oa Ob I1 I2)). }
  destruct (K mid Hmark) as [X|(p&Hp&Hmid&Hst)]; [destruct (N0 _ Eva X)|]. unfold hob in Hp. rewrite Hha in Hp.
  destruct (Wf p Hp) as [data Hd]. rewrite Hmid in Hd.
  exists p, data. repeat (split; [assumption|]). rewrite EB, <- in_rev. exact (Hst mid data Hd).
Qed.

(* in the shape of CutP.two_party_safety_corrected: the receiver has stored a message with that MID *)
Theorem two_party_safety (a b : side_cfg) (in_a : bytes) (k : nat) (mid : bytes) :
  c_master a = negb (c_master b) ->
  hs_compat (if c_master a then a else b) (if c_master a then b else a) ->
  Forall prop_syn (h_outbox (c_handler a)) -> Forall prop_syn (h_outbox (c_handler b)) ->
  outbox_wf (c_handler a) ->
  let oa := exchange a in_a in
  In (EvSetSent mid false) (x_events oa) ->
  in_a = firstn (length in_a) (x_wire (exchange b (firstn k (x_wire oa)))) ->
  exists data, In (EvProcess mid data true) (x_events (exchange b (firstn k (x_wire oa)))).
Proof.
  intros H1 H2 H3 H4 H5 oa H6 H7.
  destruct (two_party_safety_intact a b in_a k mid H1 H2 H3 H4 H5 H6 H7) as (p&data&_&_&_&H). exists data. exact H.
Qed.

(* CutP.two_party_safety_corrected (opposite roles and outbox_wf only) is false: a hypothesis on the greeting
   and one on the MIDs of b's outbox are needed (two closed examples).  Not shown necessary: the conditions on
   a's own MIDs, "no space in a MID" and the two bounds on the compressed length.  Nothing is asked of the
   titles: PairXfer.read_compressed_nul_title. *)

(* the compressed message of CutP's examples, evaluated once *)
Lemma cx_cdata_eq : cx_cdata =
  [149;217;50;0;0;0;236;253;126;28;109;103;55;157;207;204;229;175;255;120;96;184;88;60;27;219;206;135;180;3;227;
   106;206;251;121;189;225;110;235;172;43;55;245;246;102;209;181;86;58;116;169;210;250;96;119;162;132].
Proof. vm_compute. reflexivity. Qed.

Example cx_prop_syn : prop_syn cx_prop.
Proof.
  unfold prop_syn, mid_ok. cbn [cx_prop o_mid o_cdata]. rewrite cx_cdata_eq. cbn [length].
  repeat split; try lia; intros H; cbn in H; intuition discriminate.
Qed.

Example cx_outbox_wf : outbox_wf (c_handler (cx_side false [cx_prop] [] [])).
Proof.
  intros p [<-|[]]. eexists. cbn [cx_prop o_cdata o_mid]. rewrite cx_cdata_eq. vm_compute. reflexivity.
Qed.

(* (1) hs_compat cannot be dropped: a forged greeting.  The master B has the MOTD lines "[x-1-B2F$]", "hi>",
   "FS +".  The slave A takes the first for the SID, the second for the prompt that ends the handshake,
   proposes its message ABC, reads the third MOTD line as B's answer "accept", transfers the
   message, peeks at the ';' of B's genuine ";FW:" line and reports ABC sent -- all of this from
   bytes B writes BEFORE it reads anything.  Cut the link in A's direction at 0 bytes (k = 0):
   B has received nothing.  Roles are opposite, A's outbox is well formed, B's is empty. *)
Definition cx_motd_side : side_cfg :=
  let c := cx_side true [] [] [] in
  {| c_master := true; c_motd := [[91;120;45;49;45;66;50;70;36;93]; [104;105;62]; [70;83;32;43]];
     c_hs := c_hs c; c_handler := c_handler c |}.

Example two_party_safety_corrected_is_false_motd : ~ two_party_safety_corrected.
Proof.
  intros H.
  specialize (H (cx_side false [cx_prop] [] []) cx_motd_side (x_wire (exchange cx_motd_side [])) 0%nat [65;66;67]
                eq_refl cx_outbox_wf).
  cbv zeta in H. cbn [firstn] in H. unfold cx_prop in H. rewrite cx_cdata_eq in H.
  (* the master's run on no input, then the slave's run on what it wrote, once each *)
  remember (exchange cx_motd_side []) as ob eqn:Eb in H. vm_compute in Eb. subst ob.
  remember (exchange (cx_side false _ _ _) _) as oa eqn:Ea in H. vm_compute in Ea. subst oa.
  destruct H as [data H]; [vm_compute; tauto|vm_compute; reflexivity|].
  vm_compute in H. repeat (destruct H as [H|H]; [discriminate|]). exact H.
Qed.

(* (2) prop_syn of the OTHER side's outbox (no CR in a MID) cannot be dropped: a forged MID.  B (slave, it
   sends first) offers one proposal whose MID is "X 1 2 0<CR>FF<CR>FS +<CR>F".  On the wire its proposal
   line reads, for A, as the lines "FC EM X 1 2 0", "FF" (B has nothing more: A's turn), then -- while A waits for
   the answer to its own proposal of ABC -- "FS +" (accept) and, at the peek, an 'F'.  A
   transfers ABC and reports it sent; B, which is waiting for the answer to ITS proposal, reads
   A's proposal instead, fails, and has stored nothing.  No link failure is involved (k large). *)
Definition cx_bad_mid_prop : oprop :=
  {| o_mid := [88;32;49;32;50;32;48;13;70;70;13;70;83;32;43;13;70]; o_title := [116]; o_plain_title := [116];
     o_size := 50; o_cdata := cx_cdata |}.
Definition cx_mid_step (i : bytes) : bytes :=
  x_wire (exchange (cx_side false [cx_bad_mid_prop] [] []) (x_wire (exchange (cx_side true [cx_prop] [] []) i))).

(* (rewriting with this equation, unlike unfolding cx_mid_step in a closed term, leaves nothing
   for the kernel to evaluate) *)
Lemma cx_mid_step_eq i : cx_mid_step i =
  x_wire (exchange (cx_side false [cx_bad_mid_prop] [] []) (x_wire (exchange (cx_side true [cx_prop] [] []) i))).
Proof. reflexivity. Qed.

Example two_party_safety_corrected_is_false_mid : ~ two_party_safety_corrected.
Proof.
  intros H.
  specialize (H (cx_side true [cx_prop] [] []) (cx_side false [cx_bad_mid_prop] [] [])
                (cx_mid_step (cx_mid_step (cx_mid_step []))) 1000%nat [65;66;67] eq_refl cx_outbox_wf).
  cbv zeta in H.
  (* three rounds, then the two runs on their result, once each *)
  remember (cx_mid_step (cx_mid_step (cx_mid_step []))) as i eqn:Ei in H.
  rewrite !cx_mid_step_eq in Ei. unfold cx_prop, cx_bad_mid_prop in H, Ei. rewrite cx_cdata_eq in H, Ei.
  vm_compute in Ei. subst i.
  remember (exchange (cx_side true _ _ _) _) as oa eqn:Ea in H. vm_compute in Ea. subst oa.
  remember (exchange (cx_side false _ _ _) _) as ob eqn:Eb in H. vm_compute in Eb. subst ob.
  destruct H as [data H]; [vm_compute; tauto|vm_compute; reflexivity|].
  vm_compute in H. repeat (destruct H as [H|H]; [discriminate|]). exact H.
Qed.

(* the hypotheses on the pair that CutP.two_party_safety_corrected lacks:
   the two handshakes are compatible, and the fields of every prepared proposal of BOTH sides
   respect the limits of the wire formats (prop_syn) *)
Definition pair_ok (a b : side_cfg) : Prop :=
  (if c_master a then hs_compat a b else hs_compat b a) /\
  Forall prop_syn (h_outbox (c_handler a)) /\ Forall prop_syn (h_outbox (c_handler b)).

Definition two_party_safety_final : Prop :=
  forall (a b : side_cfg) (in_a : bytes) (k : nat) (mid : bytes),
    c_master a = negb (c_master b) -> outbox_wf (c_handler a) -> pair_ok a b ->
    let oa := exchange a in_a in
    In (EvSetSent mid false) (x_events oa) ->
    in_a = firstn (length in_a) (x_wire (exchange b (firstn k (x_wire oa)))) ->
    exists data, In (EvProcess mid data true) (x_events (exchange b (firstn k (x_wire oa)))).

Theorem two_party_safety_holds : two_party_safety_final.
Proof.
  intros a b in_a k mid Hrole Wf (Hhs&Sa&Sb). apply two_party_safety; try assumption.
  destruct (c_master a); exact Hhs.
Qed.

(* with the handshake hypothesis in syntactic form (PairHs.hs_compat_text_gen): no MOTD, the master's
   greeting ends with the prompt, and every handshake field of both sides is printable text *)
Definition pair_text_ok (a b : side_cfg) : Prop :=
  let m := if c_master a then a else b in let s := if c_master a then b else a in
  c_motd m = [] /\ hs_master (c_hs m) = true /\ hs_cfg_ok (c_hs m) /\ hs_cfg_ok (c_hs s).

Lemma pair_text_compat (a b : side_cfg) : c_master a = negb (c_master b) -> pair_text_ok a b ->
  hs_compat (if c_master a then a else b) (if c_master a then b else a).
Proof.
  intros Hrole (Hmo&Hhm&Hom&Hos). destruct (roles_cases a b Hrole) as [[Ma Mb]|[Ma Mb]]; rewrite Ma in *; apply hs_compat_text_gen; assumption.
Qed.

Theorem two_party_safety_text (a b : side_cfg) (in_a : bytes) (k : nat) (mid : bytes) :
  c_master a = negb (c_master b) -> pair_text_ok a b ->
  Forall prop_syn (h_outbox (c_handler a)) -> Forall prop_syn (h_outbox (c_handler b)) ->
  outbox_wf (c_handler a) ->
  let oa := exchange a in_a in
  In (EvSetSent mid false) (x_events oa) ->
  in_a = firstn (length in_a) (x_wire (exchange b (firstn k (x_wire oa)))) ->
  exists data, In (EvProcess mid data true) (x_events (exchange b (firstn k (x_wire oa)))).
Proof.
  intros Hrole Ht Sa Sb Wf. apply two_party_safety; try assumption. apply pair_text_compat; assumption.
Qed.

(* hs_compat decided by computation *)
Definition hs_check (m s : side_cfg) : bool :=
  match handshake (init_state m []) with       (* fails for lack of input, but has written M *)
  | RFail _ sm0 =>
      let M := wire sm0 in
      match handshake (init_state s M) with
      | ROk ss =>
          match s_in ss with
          | [] => match handshake (init_state m (wire ss ++ [70])) with
                  | ROk sm => beq_bytes (s_in sm) [70] && beq_bytes (wire sm) M
                  | _ => false
                  end
          | _ => false
          end
      | _ => false
      end
  | _ => false
  end.

Lemma hs_check_sound m s : hs_check m s = true -> hs_compat m s.
Proof.
  unfold hs_check. destruct (handshake (init_state m [])) as [|e sm0|]; try discriminate.
  destruct (handshake (init_state s (wire sm0))) as [ss|e2 s2|] eqn:Hs; try discriminate.
  destruct (s_in ss) eqn:Es; try discriminate.
  destruct (handshake (init_state m (wire ss ++ [70]))) as [sm|e3 s3|] eqn:Hm; try discriminate.
  intros H. apply andb_true_iff in H. destruct H as [H1 H2].
  apply beq_bytes_true in H1. apply beq_bytes_true in H2.
  exists (wire sm0), (wire ss), sm, ss. repeat split; try assumption; try reflexivity.
Qed.

Example hs_compat_cx ob1 p1 f1 ob2 p2 f2 : hs_compat (cx_side true ob1 p1 f1) (cx_side false ob2 p2 f2).
Proof. apply hs_check_sound. vm_compute. reflexivity. Qed.

(* an instance: the slave of CutP's examples (one message, Mid ABC) against the master with an
   empty outbox, for every received byte string, every cut and every MID *)
Example two_party_safety_cx (in_a : bytes) (k : nat) (mid : bytes) :
  let a := cx_side false [cx_prop] [] [] in let b := cx_side true [] [] [] in
  let oa := exchange a in_a in
  In (EvSetSent mid false) (x_events oa) ->
  in_a = firstn (length in_a) (x_wire (exchange b (firstn k (x_wire oa)))) ->
  exists data, In (EvProcess mid data true) (x_events (exchange b (firstn k (x_wire oa)))).
Proof.
  cbv zeta. apply two_party_safety_holds; [reflexivity|apply cx_outbox_wf|].
  split; [apply hs_compat_cx|]. split; [constructor; [apply cx_prop_syn|constructor]|constructor].
Qed.

(* the hypotheses are not vacuous: in the complete exchange of that pair the slave does report
   ABC sent, and its input is what the master wrote *)
Definition cx_step (i : bytes) : bytes :=
  x_wire (exchange (cx_side true [] [] []) (x_wire (exchange (cx_side false [cx_prop] [] []) i))).
Lemma cx_step_eq i : cx_step i =
  x_wire (exchange (cx_side true [] [] []) (x_wire (exchange (cx_side false [cx_prop] [] []) i))).
Proof. reflexivity. Qed.
Example two_party_safety_cx_nonvacuous :
  let a := cx_side false [cx_prop] [] [] in let b := cx_side true [] [] [] in
  exists in_a k, let oa := exchange a in_a in
    In (EvSetSent [65;66;67] false) (x_events oa) /\
    in_a = firstn (length in_a) (x_wire (exchange b (firstn k (x_wire oa)))).
Proof.
  cbv zeta.
  eassert (Ei : cx_step (cx_step (cx_step (cx_step []))) = _)
    by (rewrite !cx_step_eq; unfold cx_prop; rewrite cx_cdata_eq; vm_compute; reflexivity).
  exists (cx_step (cx_step (cx_step (cx_step [])))), 1000%nat. rewrite Ei. unfold cx_prop. rewrite cx_cdata_eq.
  remember (exchange (cx_side false _ _ _) _) as oa eqn:Ea. vm_compute in Ea. subst oa.
  remember (exchange (cx_side true _ _ _) _) as ob eqn:Eb. vm_compute in Eb. subst ob.
  split; [vm_compute; tauto|vm_compute; reflexivity].
Qed.

Print Assumptions two_party_safety_intact.
Print Assumptions two_party_safety.
Print Assumptions two_party_safety_holds.
Print Assumptions two_party_safety_text.
Print Assumptions two_party_safety_cx.
Print Assumptions two_party_safety_corrected_is_false_motd.
Print Assumptions two_party_safety_corrected_is_false_mid.
