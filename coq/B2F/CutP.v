(* C02, one side; and the turns.  The phases of the two turns are named here (ho_propose, ho_transfer, ho_peek,
   mark_rej, mark_sent; il_line), each with what it does (SideP.v: does, via); from them handle_outbound,
   inbound_loop, one turn and the turn loop, and what the whole exchange inherits: no panic, termination (C03),
   integrity of what is handed over (C04).
   Causality: what a side of a B2F session has done does not depend on bytes it has not read yet.  For every
   function f of Side.v that takes the state a lemma f_ext or f_extx says how f (ext i2 s) follows from f s,
   ext i2 s being s with i2 appended to the unread input.  For the f that do not read (mark_*, write_compressed,
   send_accepted, outbound, ho_propose, parse_proposal, answer_props, il_line) f_ext is an equation.  For the f
   that read it relates the two results by relx (the same result, with i2 still unread; the same refusal; or the
   link was lost and the longer run only adds to what the shorter one had done), put together phase after phase
   by relx_bind: f_extx for the f without fuel (next_line, handshake, ho_peek, ho_transfer, handle_outbound),
   f_ext with two fuels for the loops (read_handshake, read_reply, inbound_loop), whose result does not depend
   on surplus fuel.  Where the input may end behind an EOT the relation has the escape ends_eot: rel
   (read_compressed_ext, next_line_ext), rrel (receive_accepted_ext), trel (loop_ext, session_ext); read_frames_ext and
   turn_ext state theirs in full.  From these:
   exchange_cut (causality), receiver_half and sent_only_after_next_command, the two one-sided halves of
   "a link failure never marks an undelivered message sent".  The two-party statement is in PairP.v. *)
From Coq Require Import List NArith ZArith Bool Lia ZifyN ZifyNat ZifyBool.
From Verif Require Import Base.Bytes Base.BytesP gen.Tables Lzhuf.Dec Msg.Message B2F.Secure B2F.Side B2F.PairDefs B2F.SideP
  B2F.TermP.
Import ListNotations.
Open Scope N_scope.

(* reversed logs: l1 is an initial part of the log l2 *)
Definition pre {A} (l1 l2 : list A) : Prop := exists x, l2 = x ++ l1.
Lemma pre_refl {A} (l : list A) : pre l l.
Proof. exists []. reflexivity. Qed.
Lemma pre_trans {A} (a b c : list A) : pre a b -> pre b c -> pre a c.
Proof. intros [x ->] [y ->]. exists (y ++ x). rewrite app_assoc. reflexivity. Qed.
Lemma pre_cons {A} (a b : list A) x : pre a b -> pre a (x :: b).
Proof. intros [y ->]. exists (x :: y). reflexivity. Qed.

(* the same relation on the unread input: r is what is left of i *)
Definition sfx (r i : bytes) : Prop := exists p, i = p ++ r.

Lemma sfx_refl i : sfx i i.
Proof. apply pre_refl. Qed.
Lemma sfx_trans a b c : sfx a b -> sfx b c -> sfx a c.
Proof. apply pre_trans. Qed.
Lemma sfx_cons x r : sfx r (x :: r).
Proof. apply pre_cons, pre_refl. Qed.
Lemma sfx_cons_l x r i : sfx (x :: r) i -> sfx r i.
Proof. intros H. eapply sfx_trans; [apply sfx_cons|exact H]. Qed.
Lemma sfx_length r i : sfx r i -> (length r <= length i)%nat.
Proof. intros [p ->]. rewrite app_length. lia. Qed.

(* the input ends with the byte EOT (4): the only cut position at which the model (like the
   Go code, which ignores the error of the ReadByte that fetches the checksum of a transfer)
   behaves differently from a run that sees the following byte *)
Definition ends_eot (i : bytes) : Prop := exists p, i = p ++ [CHREOT].

Lemma ends_eot_sfx r i : sfx r i -> ends_eot r -> ends_eot i.
Proof. intros [p ->] [q ->]. exists (p ++ q). rewrite app_assoc. reflexivity. Qed.

Lemma read_until_app c i1 i2 a r :
  read_until c i1 = Some (a, r) -> read_until c (i1 ++ i2) = Some (a, r ++ i2).
Proof.
  unfold read_until. destruct (split_at c i1) as [a' [r'|]] eqn:E; intros H; inversion H; subst.
  apply split_at_Some in E. destruct E as [-> Hn]. rewrite <- app_assoc. cbn [app]. rewrite split_at_app by exact Hn. reflexivity.
Qed.

Lemma read_until_sfx c i a r : read_until c i = Some (a, r) -> sfx r i.
Proof. intros H. exists (a ++ [c]). apply read_until_some, H. Qed.

(* s with i2 appended to its unread input *)
Definition ext (i2 : bytes) (s : sess) : sess := set_in s (s_in s ++ i2).

(* equal in everything but the unread input *)
Definition eqo (s1 s2 : sess) : Prop := set_in s1 [] = set_in s2 [].

Lemma eqo_refl s : eqo s s. Proof. reflexivity. Qed.
Lemma eqo_sym a b : eqo a b -> eqo b a. Proof. unfold eqo. congruence. Qed.
Lemma eqo_trans a b c : eqo a b -> eqo b c -> eqo a c. Proof. unfold eqo. congruence. Qed.
Lemma eqo_set_in s i : eqo s (set_in s i). Proof. reflexivity. Qed.
Lemma eqo_ext s i2 : eqo s (ext i2 s). Proof. reflexivity. Qed.
Lemma eqo_out a b : eqo a b -> s_out a = s_out b. Proof. intros H. apply (f_equal s_out) in H. exact H. Qed.
Lemma eqo_ev a b : eqo a b -> s_ev a = s_ev b. Proof. intros H. apply (f_equal s_ev) in H. exact H. Qed.
Lemma eqo_sent a b : eqo a b -> s_sent a = s_sent b. Proof. intros H. apply (f_equal s_sent) in H. exact H. Qed.
Lemma eqo_recv a b : eqo a b -> s_recv a = s_recv b. Proof. intros H. apply (f_equal s_recv) in H. exact H. Qed.
Lemma eqo_ev_cong a b e : eqo a b -> eqo (ev a e) (ev b e).
Proof. unfold eqo. intros H. change (ev (set_in a []) e = ev (set_in b []) e). rewrite H. reflexivity. Qed.

Lemma init_state_in cfg i : s_in (init_state cfg i) = i.
Proof. unfold init_state. destruct (h_present (c_handler cfg)); reflexivity. Qed.
Lemma init_state_set_in cfg i j : set_in (init_state cfg i) j = init_state cfg j.
Proof. unfold init_state. destruct (h_present (c_handler cfg)); reflexivity. Qed.
Lemma init_state_ext cfg i j : init_state cfg (i ++ j) = ext j (init_state cfg i).
Proof. unfold ext. rewrite init_state_set_in, init_state_in. reflexivity. Qed.

(* the four logs of s1 (writes, events, sent, received) are initial parts of those of s2 *)
Definition grows (s1 s2 : sess) : Prop :=
  pre (s_out s1) (s_out s2) /\ pre (s_ev s1) (s_ev s2) /\
  pre (s_sent s1) (s_sent s2) /\ pre (s_recv s1) (s_recv s2).

Lemma grows_refl s : grows s s.
Proof. repeat split; apply pre_refl. Qed.
Lemma grows_trans a b c : grows a b -> grows b c -> grows a c.
Proof. intros (A1&A2&A3&A4) (B1&B2&B3&B4). repeat split; eapply pre_trans; eassumption. Qed.
Lemma grows_eqo a b : eqo a b -> grows a b.
Proof.
  intros H. unfold grows. rewrite (eqo_out _ _ H), (eqo_ev _ _ H), (eqo_sent _ _ H), (eqo_recv _ _ H).
  repeat split; apply pre_refl.
Qed.
Lemma grows_wr a s b : grows a s -> grows a (wr s b).
Proof. intros (A1&A2&A3&A4). repeat split; cbn [wr s_out s_ev s_sent s_recv]; try assumption. apply pre_cons, A1. Qed.
Lemma grows_ev a s e : grows a s -> grows a (ev s e).
Proof. intros (A1&A2&A3&A4). repeat split; cbn [ev s_out s_ev s_sent s_recv]; try assumption. apply pre_cons, A2. Qed.
Lemma grows_add_sent a s m : grows a s -> grows a (add_sent s m).
Proof. intros (A1&A2&A3&A4). repeat split; cbn [add_sent s_out s_ev s_sent s_recv]; try assumption. apply pre_cons, A3. Qed.
Lemma grows_add_recv a s m : grows a s -> grows a (add_recv s m).
Proof. intros (A1&A2&A3&A4). repeat split; cbn [add_recv s_out s_ev s_sent s_recv]; try assumption. apply pre_cons, A4. Qed.
Lemma grows_set_in a s i : grows a s -> grows a (set_in s i).
Proof. intros H. exact H. Qed.
Lemma grows_ext a s i : grows a s -> grows a (ext i s).
Proof. intros H. exact H. Qed.
Lemma grows_mark_gone a s m : grows a s -> grows a (mark_gone s m).
Proof. intros H. exact H. Qed.
Lemma grows_set_nomsgs a s b : grows a s -> grows a (set_nomsgs s b).
Proof. intros H. exact H. Qed.

Lemma does_grows d s s' : does d s s' -> grows s s'.
Proof.
  intros D. split; [exact (does_out _ _ _ D)|]. split; [eexists; exact (does_ev_eq _ _ _ D)|].
  split; eexists; [exact (does_sent_eq _ _ _ D)|exact (does_recv_eq _ _ _ D)].
Qed.
Lemma via_grows P s s' : via P s s' -> grows s s'.
Proof. intros (d&D&_). exact (does_grows _ _ _ D). Qed.
(* grows a s' for a state s' built from s by the primitive steps, given grows a s *)
Ltac gr :=
  repeat first [ assumption | apply grows_refl | solve [apply grows_eqo; reflexivity] | apply grows_wr | apply grows_ev | apply grows_add_sent
               | apply grows_add_recv | apply grows_set_in | apply grows_ext | apply grows_mark_gone
               | apply grows_set_nomsgs ].

(* the state s1 in which a run stopped because the link was lost, against a state s2 of a run
   that received more: everything is kept, except that the EvBlockEnd that closes the failed
   turn of s1 may have come later in s2 *)
Definition lost (s1 s2 : sess) : Prop :=
  pre (s_out s1) (s_out s2) /\
  (pre (s_ev s1) (s_ev s2) \/ exists e0, s_ev s1 = EvBlockEnd :: e0 /\ pre e0 (s_ev s2)) /\
  pre (s_sent s1) (s_sent s2) /\ pre (s_recv s1) (s_recv s2).

Lemma grows_lost a b : grows a b -> lost a b.
Proof. intros (A1&A2&A3&A4). repeat split; auto. Qed.
Lemma lost_grows a b c : lost a b -> grows b c -> lost a c.
Proof.
  intros (A1&A2&A3&A4) (B1&B2&B3&B4). repeat split; try (eapply pre_trans; eassumption).
  destruct A2 as [A2|(e0&E&A2)]; [left|right; exists e0; split; [exact E|]]; eapply pre_trans; eassumption.
Qed.
Lemma eqo_lost a a' b : eqo a a' -> lost a b -> lost a' b.
Proof.
  intros H. unfold lost. rewrite (eqo_out _ _ H), (eqo_ev _ _ H), (eqo_sent _ _ H), (eqo_recv _ _ H). tauto.
Qed.

Definition res_lost {A} (s1 : sess) (r2 : res sess (A * sess)) : Prop :=
  match r2 with ROk (_, s2) => lost s1 s2 | RFail _ s2 => lost s1 s2 | RPanic => True end.

Definition res_grows {A} (s : sess) (r : res sess (A * sess)) : Prop :=
  match r with ROk (_, s') => grows s s' | RFail _ s' => grows s s' | RPanic => True end.

(* r1: the result on the shorter input, from state s; r2: the result from [ext i2 s] *)
Definition relx {A} (i2 : bytes) (s : sess) (r1 r2 : res sess (A * sess)) : Prop :=
  match r1 with
  | ROk (a, s1) => r2 = ROk (a, ext i2 s1) /\ sfx (s_in s1) (s_in s)
  | RFail EOther s1 => exists s2, r2 = RFail EOther s2 /\ eqo s1 s2
  | RFail EConnLost s1 => res_lost s1 r2
  | RPanic => r2 = RPanic
  end.
Definition rel {A} (i2 : bytes) (s : sess) (r1 r2 : res sess (A * sess)) : Prop :=
  ends_eot (s_in s) \/ relx i2 s r1 r2.

Lemma rel_lift {A} i2 s s1 (r1 r2 : res sess (A * sess)) :
  sfx (s_in s1) (s_in s) -> rel i2 s1 r1 r2 -> rel i2 s r1 r2.
Proof.
  intros Hs [H|H]; [left; eapply ends_eot_sfx; eassumption|right].
  destruct r1 as [[a s']|[|] s'|]; try exact H.
  destruct H as [H1 H2]. split; [exact H1|]. eapply sfx_trans; eassumption.
Qed.

Lemma res_lost_grows {A} s1 s2 (r : res sess (A * sess)) : lost s1 s2 -> res_grows s2 r -> res_lost s1 r.
Proof. intros H G. destruct r as [[a s']|e s'|]; cbn in *; try exact I; eapply lost_grows; eassumption. Qed.

Lemma res_via_grows {A} P s (r : res sess (A * sess)) : res_via P snd s r -> res_grows s r.
Proof. destruct r as [[a s']|e s'|]; cbn; [apply via_grows|apply via_grows|auto]. Qed.

Lemma next_line_grows pe s : res_grows s (next_line pe s).
Proof. exact (res_via_grows _ _ _ (res_ro_via (fun _ => True) _ _ (next_line_ro pe s))). Qed.

Lemma next_line_extx pe i2 s : relx i2 s (next_line pe s) (next_line pe (ext i2 s)).
Proof.
  unfold relx, next_line. cbn [ext set_in s_in].
  destruct (read_until 13 (s_in s)) as [[raw rest]|] eqn:E.
  - rewrite (read_until_app _ _ i2 _ _ E).
    destruct (pe && err_line (clean_string raw)).
    + eexists; split; [reflexivity|]. reflexivity.
    + split; [reflexivity|]. cbn [set_in s_in]. eapply read_until_sfx; exact E.
  - eapply res_lost_grows; [|apply (next_line_grows pe (set_in s (s_in s ++ i2)))].
    apply grows_lost. gr.
Qed.

Lemma next_line_ext pe i2 s : rel i2 s (next_line pe s) (next_line pe (ext i2 s)).
Proof. right. apply next_line_extx. Qed.

Definition res_eqo {A} (s : sess) (r : res sess (A * sess)) : Prop :=
  match r with ROk (_, s') => eqo s s' | RFail _ s' => eqo s s' | RPanic => True end.

Lemma res_eqo_grows {A} s (r : res sess (A * sess)) : res_eqo s r -> res_grows s r.
Proof. destruct r as [[a s']|e s'|]; cbn; auto using grows_eqo. Qed.

Lemma res_grows_trans {A} s s1 (r : res sess (A * sess)) : grows s s1 -> res_grows s1 r -> res_grows s r.
Proof. intros G. destruct r as [[a s']|e s'|]; cbn; auto; intros; eapply grows_trans; eassumption. Qed.

Lemma relx_lift {A} i2 s s1 (r1 r2 : res sess (A * sess)) :
  sfx (s_in s1) (s_in s) -> relx i2 s1 r1 r2 -> relx i2 s r1 r2.
Proof.
  intros Hs H. destruct r1 as [[a s']|[|] s'|]; try exact H.
  destruct H as [H1 H2]. split; [exact H1|]. eapply sfx_trans; eassumption.
Qed.

Lemma ro_eqo s s' : ro s s' -> eqo s s'.
Proof. intros (p&r&_&->). reflexivity. Qed.
Lemma res_ro_eqo {A} s (r : res sess (A * sess)) : res_ro s r -> res_eqo s r.
Proof. destruct r as [[a s']|e s'|]; cbn; auto using ro_eqo. Qed.

Lemma next_line_eqo pe s : res_eqo s (next_line pe s).
Proof. apply res_ro_eqo, next_line_ro. Qed.

Lemma read_handshake_eqo fuel : forall s d, res_eqo s (read_handshake fuel s d).
Proof. intros s d. apply res_ro_eqo, read_handshake_ro. Qed.

(* A phase followed by another.  If the first gives the same result on the longer input, the second starts
   from the same state with the longer input; if the first lost the link, whatever the longer run goes on
   to do only adds to what the shorter one had done. *)
Lemma relx_bind {A B} i2 s (r1 r2 : res sess (A * sess)) (k1 k2 : A -> sess -> res sess (B * sess)) :
  relx i2 s r1 r2 ->
  (forall a s1, r1 = ROk (a, s1) -> relx i2 s1 (k1 a s1) (k2 a (ext i2 s1))) ->
  (forall a s2, res_grows s2 (k2 a s2)) ->
  relx i2 s (match r1 with ROk (a, s1) => k1 a s1 | RFail e s' => RFail e s' | RPanic => RPanic end)
            (match r2 with ROk (a, s2) => k2 a s2 | RFail e s' => RFail e s' | RPanic => RPanic end).
Proof.
  intros H K G. destruct r1 as [[a s1]|[|] s1|]; cbn [relx] in H.
  - destruct H as [-> Hs]. eapply relx_lift; [exact Hs|]. apply K. reflexivity.
  - destruct r2 as [[a s2]|e s2|]; cbn [relx res_lost] in *; [|exact H|exact I]. eapply res_lost_grows; [exact H|apply G].
  - destruct H as (s2&->&He). exists s2. split; [reflexivity|exact He].
  - rewrite H. reflexivity.
Qed.

(* the same when the first phase only reads: a run that lost the link there has done nothing, so it is enough
   that the whole run on the longer input is known *)
Lemma relx_bind_ro {A B} i2 s (r1 r2 : res sess (A * sess)) (k1 k2 : A -> sess -> res sess (B * sess)) :
  relx i2 s r1 r2 -> res_eqo s r1 ->
  (forall a s1, r1 = ROk (a, s1) -> relx i2 s1 (k1 a s1) (k2 a (ext i2 s1))) ->
  res_grows (ext i2 s) (match r2 with ROk (a, s2) => k2 a s2 | RFail e s' => RFail e s' | RPanic => RPanic end) ->
  relx i2 s (match r1 with ROk (a, s1) => k1 a s1 | RFail e s' => RFail e s' | RPanic => RPanic end)
            (match r2 with ROk (a, s2) => k2 a s2 | RFail e s' => RFail e s' | RPanic => RPanic end).
Proof.
  intros H Q K G. destruct r1 as [[a s1]|[|] s1|]; cbn [relx res_eqo] in H, Q.
  - destruct H as [-> Hs]. eapply relx_lift; [exact Hs|]. apply K. reflexivity.
  - eapply res_lost_grows; [|exact G]. apply grows_lost, grows_eqo. eapply eqo_trans; [apply eqo_sym, Q|apply eqo_ext].
  - destruct H as (s2&->&He). exists s2. split; [reflexivity|exact He].
  - rewrite H. reflexivity.
Qed.

Lemma relx_ok {A} i2 s (a : A) : relx i2 s (ROk (a, s)) (ROk (a, ext i2 s)).
Proof. split; [reflexivity|apply sfx_refl]. Qed.
Lemma relx_fail {A} i2 s : @relx A i2 s (RFail EOther s) (RFail EOther (ext i2 s)).
Proof. eexists. split; [reflexivity|apply eqo_ext]. Qed.

Lemma read_handshake_grows f s d : res_grows s (read_handshake f s d).
Proof. apply res_eqo_grows, read_handshake_eqo. Qed.

Lemma read_handshake_ext i2 : forall f1 f2 s d, (inlen s < f1)%nat -> (inlen s + length i2 < f2)%nat ->
  relx i2 s (read_handshake f1 s d) (read_handshake f2 (ext i2 s) d).
Proof.
  induction f1 as [|f1 IH]; intros f2 s d H1 H2; [lia|]. destruct f2 as [|f2]; [lia|].
  pose proof (read_handshake_grows (S f2) (ext i2 s) d) as G. revert G. rewrite !read_handshake_eq.
  change (s_in (ext i2 s)) with (s_in s ++ i2). change (s_master (ext i2 s)) with (s_master s).
  destruct (s_in s) as [|b r] eqn:Ein.
  { (* the link is lost at the peek *) intros G. eapply res_lost_grows; [|exact G]. apply grows_lost. gr. }
  cbn [app]. destruct ((b =? 70) && s_master s); [intros _; apply relx_ok|]. intros G.
  apply relx_bind_ro; [apply next_line_extx|apply next_line_eqo| |exact G].
  intros line s1 En. apply next_line_ok in En.
  destruct (rh_line d line); [|apply relx_ok|apply relx_fail].
  apply IH; unfold inlen in *; cbn [ext set_in s_in]; rewrite ?app_length; lia.
Qed.

Definition lift1 (r : res sess sess) : res sess (unit * sess) :=
  match r with ROk s => ROk (tt, s) | RFail e s => RFail e s | RPanic => RPanic end.

Lemma fold_wr_ext {B} (f : B -> bytes) i2 l : forall s,
  fold_left (fun acc x => wr acc (f x)) l (ext i2 s) = ext i2 (fold_left (fun acc x => wr acc (f x)) l s).
Proof. induction l as [|x l IH]; intros s; cbn [fold_left]; [reflexivity|]. apply (IH (wr s (f x))). Qed.

Lemma fold_wr_in {B} (f : B -> bytes) l : forall s, s_in (fold_left (fun acc x => wr acc (f x)) l s) = s_in s.
Proof. induction l as [|x l IH]; intros s; cbn [fold_left]; [reflexivity|]. rewrite IH. reflexivity. Qed.

Lemma handshake_grows s : res_grows s (lift1 (handshake s)).
Proof.
  pose proof (handshake_quiet s) as A.
  destruct (handshake s); cbn in *; [| |exact I]; destruct A as (p&w&D); exact (via_grows _ _ _ (does_via (fun _ => True) _ _ _ D (Forall_nil _))).
Qed.

Lemma relx_bind1 {A} i2 s (r1 r2 : res sess (A * sess)) (k1 k2 : A -> sess -> res sess sess) :
  relx i2 s r1 r2 ->
  (forall a s1, r1 = ROk (a, s1) -> relx i2 s1 (lift1 (k1 a s1)) (lift1 (k2 a (ext i2 s1)))) ->
  (forall a s2, res_grows s2 (lift1 (k2 a s2))) ->
  relx i2 s (lift1 (match r1 with ROk (a, s1) => k1 a s1 | RFail e s' => RFail e s' | RPanic => RPanic end))
            (lift1 (match r2 with ROk (a, s2) => k2 a s2 | RFail e s' => RFail e s' | RPanic => RPanic end)).
Proof.
  intros H K G. pose proof (relx_bind i2 s r1 r2 (fun a s1 => lift1 (k1 a s1)) (fun a s2 => lift1 (k2 a s2)) H K G) as R.
  destruct r1 as [[a1 s1]|e1 s1|], r2 as [[a2 s2]|e2 s2|]; exact R.
Qed.

Lemma greeted_ext i2 s : greeted (ext i2 s) = ext i2 (greeted s).
Proof.
  unfold greeted. change (s_master (ext i2 s)) with (s_master s). destruct (s_master s); [|reflexivity].
  change (s_motd (ext i2 s)) with (s_motd s). rewrite (fold_wr_ext (fun l => l ++ [13])). reflexivity.
Qed.

Lemma handshake_extx i2 s : relx i2 s (lift1 (handshake s)) (lift1 (handshake (ext i2 s))).
Proof.
  rewrite !handshake_eq, greeted_ext.
  change (s_master (ext i2 s)) with (s_master s). change (s_cfg (ext i2 s)) with (s_cfg s). change (s_in (ext i2 s)) with (s_in s ++ i2).
  pose proof (does_in _ _ _ (greeted_does s)) as G. cbn [act e_rd app] in G.
  apply (relx_lift i2 s (greeted s)); [rewrite G; apply sfx_refl|].
  apply relx_bind1; [apply read_handshake_ext; unfold inlen; rewrite <- ?G, ?app_length; lia| |].
  - intros d s3 _. destruct (hs_good d); [|apply relx_fail]. destruct (s_master s); [apply relx_ok|].
    destruct (send_handshake (s_cfg s) (hd_challenge d)); [|apply relx_fail]. split; [reflexivity|apply sfx_refl].
  - intros d s2. destruct (hs_good d); [|cbn; gr]. destruct (s_master s); [cbn; gr|].
    destruct (send_handshake (s_cfg s) (hd_challenge d)); cbn; gr.
Qed.

Definition mark_rej (sent : list (bytes * bool)) (s : sess) : sess :=
  fold_left (fun acc (mr : bytes * bool) =>
               if snd mr then ev (mark_gone acc (fst mr)) (EvSetSent (fst mr) true) else acc) sent s.
Definition mark_sent (sent : list (bytes * bool)) (s : sess) : sess :=
  fold_left (fun acc (mr : bytes * bool) =>
               if snd mr then acc
               else add_sent (ev (mark_gone acc (fst mr)) (EvSetSent (fst mr) false)) (fst mr)) sent s.

(* after the transfers: the rejected ones are marked, then the session PEEKS at the next byte *)
Definition ho_peek (sent : list (bytes * bool)) (s4 : sess) : res sess (bool * sess) :=
  let s5 := mark_rej sent s4 in
  match s_in s5 with
  | [] => RFail EConnLost (ev s5 EvBlockEnd)
  | b :: _ =>
      if negb ((b =? 70) || (b =? 59)) then
        match next_line true s5 with
        | ROk (_, s') => RFail EOther (ev s' EvBlockEnd)
        | RFail e s' => RFail e (ev s' EvBlockEnd)
        | RPanic => RPanic
        end
      else ROk (false, ev (mark_sent sent s5) EvBlockEnd)
  end.

(* from the FS reply on *)
Definition ho_transfer (block : list oprop) (reply : bytes) (s3 : sess) : res sess (bool * sess) :=
  match slice_from 3 reply with
  | None => RPanic
  | Some astr =>
      match parse_answers (S (length astr)) astr (length block) [] with
      | None => RFail EOther s3
      | Some ans =>
          match send_accepted s3 block ans [] with
          | RFail e s' => RFail e s'
          | RPanic => RPanic
          | ROk (s4, sent_rev) => ho_peek (rev' sent_rev) s4
          end
      end
  end.

(* the proposal block: one line per proposal, then the checksum line *)
Definition ho_propose (block : list oprop) (s0 : sess) : sess :=
  let lines := map proposal_line block in
  wr (fold_left (fun acc l => wr acc (l ++ [13])) lines s0)
     ([70; 62; 32] ++ fmt_02X (block_checksum lines) ++ [13]).

Lemma handle_outbound_eq s :
  handle_outbound s =
  let '(props, s0) := outbound s in
  match props with
  | [] => let q := s_remote_nomsgs s0 in ROk (q, wr s0 (if q then [70; 81; 13] else [70; 70; 13]))
  | _ => let block := firstn (N.to_nat MaxBlockSize) props in
         let s2 := ho_propose block s0 in
         match read_reply (S (length (s_in s2))) s2 with
         | RFail e s' => RFail e s'
         | RPanic => RPanic
         | ROk (reply, s3) => ho_transfer block reply s3
         end
  end.
Proof. unfold handle_outbound. destruct (outbound s) as [props s0]. destruct props; reflexivity. Qed.

(* ---- what the phases of the sender's turn do ---- *)

Lemma ho_propose_does B s0 : does (act [] (proposal_bytes B) []) s0 (ho_propose B s0).
Proof. exact (does_trans _ _ _ _ _ (does_fold_wr (fun l => l ++ [13]) (map proposal_line B) s0) (does_wr _ _)). Qed.

(* the marks of the rejected (rej = true) or of the transferred messages of the list, latest first *)
Definition marks (rej : bool) (sent : list (bytes * bool)) : list event :=
  rev (map (fun m => EvSetSent m rej) (map fst (filter (fun mr => if rej then snd mr else negb (snd mr)) sent))).

Lemma own_mids_marks rej sent :
  own_mids (marks rej sent) = rev (map fst (filter (fun mr => if rej then snd mr else negb (snd mr)) sent)).
Proof. unfold marks. rewrite <- map_rev. apply own_mids_map. reflexivity. Qed.

Lemma mark_rej_does sent : forall s, does (act [] [] (marks true sent)) s (mark_rej sent s).
Proof.
  unfold mark_rej, marks. induction sent as [|[m b] l IH]; intros s; cbn [fold_left filter snd fst]; [apply does_refl|].
  destruct b; [|apply IH]. exact (does_trans _ _ _ _ _ (does_mark s m (EvSetSent m true) eq_refl eq_refl) (IH _)).
Qed.
Lemma mark_sent_does sent : forall s, does (act [] [] (marks false sent)) s (mark_sent sent s).
Proof.
  unfold mark_sent, marks. induction sent as [|[m b] l IH]; intros s; cbn [fold_left filter snd fst]; [apply does_refl|].
  destruct b; cbn [negb]; [apply IH|]. exact (does_trans _ _ _ _ _ (does_sent s m) (IH _)).
Qed.

Lemma mark_rej_in sent : forall s, s_in (mark_rej sent s) = s_in s.
Proof. intros s. symmetry. exact (does_in _ _ _ (mark_rej_does sent s)). Qed.
Lemma mark_sent_in sent : forall s, s_in (mark_sent sent s) = s_in s.
Proof. intros s. symmetry. exact (does_in _ _ _ (mark_sent_does sent s)). Qed.

Definition Pmark (rej : bool) (sent : list (bytes * bool)) (e : event) : Prop := exists m, e = EvSetSent m rej /\ In (m, rej) sent.
Lemma marks_P rej sent : Forall (Pmark rej sent) (marks rej sent).
Proof.
  apply Forall_rev, Forall_forall. intros e H. apply in_map_iff in H. destruct H as (m&<-&H). exists m. split; [reflexivity|].
  apply in_map_iff in H. destruct H as ([m' b]&<-&H). apply filter_In in H. destruct H as [H Hb].
  cbn in Hb. destruct rej, b; try discriminate Hb; exact H.
Qed.

(* the peek: nothing is written; only a turn that goes on records "sent" marks *)
Lemma ho_peek_does sent s4 :
  match ho_peek sent s4 with
  | ROk (q, s') => q = false /\ does (act [] [] (EvBlockEnd :: marks false sent ++ marks true sent)) s4 s'
  | RFail _ s' => exists p, does (act p [] (EvBlockEnd :: marks true sent)) s4 s'
  | RPanic => False
  end.
Proof.
  unfold ho_peek. cbv zeta. pose proof (mark_rej_does sent s4) as D5. set (s5 := mark_rej sent s4) in *.
  assert (Bend : forall p s', ro s5 s' -> s_in s5 = p ++ s_in s' ->
            does (act p [] (EvBlockEnd :: marks true sent)) s4 (ev s' EvBlockEnd)).
  { intros p s' (p'&r&_&->) E. cbn [set_in s_in] in E.
    apply (does_eq _ _ _ _ (does_trans _ _ _ _ _ (does_trans _ _ _ _ _ D5 (does_set_in s5 p r E)) (does_ev _ EvBlockEnd eq_refl))).
    unfold andthen, act. cbn. rewrite app_nil_r. reflexivity. }
  destruct (s_in s5) as [|b r] eqn:E5.
  { exists []. apply (Bend [] s5 (ro_refl s5)). rewrite E5. reflexivity. }
  destruct (negb ((b =? 70) || (b =? 59))).
  - pose proof (next_line_ro true s5) as Hn.
    destruct (next_line true s5) as [[l s']|e s'|]; cbn [res_ro] in Hn; [| |exact Hn];
      destruct Hn as (p&r'&E&->); exists p; (apply Bend; [exact (ro_set_in _ _ _ E)|rewrite <- E5; exact E]).
  - split; [reflexivity|].
    exact (does_trans _ _ _ _ _ (does_trans _ _ _ _ _ D5 (mark_sent_does sent s5)) (does_ev _ EvBlockEnd eq_refl)).
Qed.

(* the events of a sender's turn other than the "sent" marks *)
Definition sends (e : event) : Prop :=
  match e with EvGetOutbound | EvSetDeferred _ | EvSetSent _ true | EvBlockEnd => True | _ => False end.
Lemma is_get_sends e : is_get e -> sends e.
Proof. intros ->. exact I. Qed.
Lemma is_defer_sends e : is_defer e -> sends e.
Proof. destruct e; intros []; exact I. Qed.
Lemma marks_true_sends sent : Forall sends (marks true sent).
Proof. eapply Forall_impl; [|apply marks_P]. intros e (m&->&_). exact I. Qed.

Lemma ho_transfer_via block reply s3 : (3 <= length reply)%nat ->
  match ho_transfer block reply s3 with
  | ROk (q, s') => q = false /\ via (fun e => sends e \/ exists m, e = EvSetSent m false) s3 s'
  | RFail _ s' => via sends s3 s'
  | RPanic => False
  end.
Proof.
  intros Hl. unfold ho_transfer. destruct (slice_from_some 3 reply Hl) as [astr ->].
  destruct (parse_answers _ astr _ []) as [ans|]; [|apply via_refl].
  pose proof (send_accepted_does block s3 ans []) as Hs.
  destruct (send_accepted s3 block ans []) as [[s4 sr]|e s4|]; [| |exact Hs].
  - destruct Hs as (w&E&D&F&_). pose proof (does_via sends _ _ _ D (Forall_impl _ is_defer_sends F)) as A4.
    pose proof (ho_peek_does (rev' sr) s4) as Hp.
    destruct (ho_peek (rev' sr) s4) as [[q s']|e s'|]; [| |exact Hp].
    + destruct Hp as [-> Hp]. split; [reflexivity|].
      eapply via_trans; [exact (via_mono _ _ _ _ (fun e H => or_introl H) A4)|]. apply (does_via _ _ _ _ Hp).
      constructor; [left; exact I|]. apply Forall_app. split.
      * eapply Forall_impl; [|apply marks_P]. intros e (m&->&_). right. eexists. reflexivity.
      * eapply Forall_impl; [|apply marks_true_sends]. auto.
    + destruct Hp as [p Hp]. eapply via_trans; [exact A4|]. apply (does_via _ _ _ _ Hp).
      constructor; [exact I|apply marks_true_sends].
  - destruct Hs as (_&w&E&D&F&_). exact (does_via sends _ _ _ D (Forall_impl _ is_defer_sends F)).
Qed.

Lemma handle_outbound_via s :
  match handle_outbound s with
  | ROk (q, s') => via (fun e => sends e \/ q = false /\ exists m, e = EvSetSent m false) s s'
  | RFail _ s' => via sends s s'
  | RPanic => False
  end.
Proof.
  rewrite handle_outbound_eq.
  pose proof (via_mono _ _ _ _ is_get_sends (outbound_via s)) as H0.
  destruct (outbound s) as [props s0]. cbn [snd] in H0. destruct props as [|p ps].
  { cbv zeta. eapply via_mono; [|exact (via_trans _ _ _ _ H0 (via_wr _ s0 _))]. auto. }
  cbv zeta. set (block := firstn (N.to_nat MaxBlockSize) (p :: ps)).
  pose proof (via_trans _ _ _ _ H0 (does_via sends _ _ _ (ho_propose_does block s0) (Forall_nil _))) as H2.
  set (s2 := ho_propose block s0) in *.
  pose proof (res_ro_via sends _ _ (read_reply_ro (S (length (s_in s2))) s2)) as Hr.
  pose proof (read_reply_prefix (S (length (s_in s2))) s2) as Hp.
  destruct (read_reply (S (length (s_in s2))) s2) as [[reply s3]|e s'|]; cbn [res_via snd] in Hr;
    [|exact (via_trans _ _ _ _ H2 Hr)|exact Hr].
  specialize (Hp reply s3 eq_refl). apply prefixb_length in Hp.
  pose proof (ho_transfer_via block reply s3 Hp) as Ht. pose proof (via_trans _ _ _ _ H2 Hr) as H3.
  destruct (ho_transfer block reply s3) as [[q s']|e s'|]; [| |exact Ht].
  - destruct Ht as [-> Ht]. eapply via_trans; [exact (via_mono _ _ _ _ (fun e H => or_introl H) H3)|].
    eapply via_mono; [|exact Ht]. intros e [K|K]; auto.
  - exact (via_trans _ _ _ _ H3 Ht).
Qed.

Lemma handle_outbound_nopanic s : handle_outbound s <> RPanic.
Proof. intros E. pose proof (handle_outbound_via s) as H. rewrite E in H. exact H. Qed.

Lemma handle_outbound_grows s : res_grows s (handle_outbound s).
Proof.
  pose proof (handle_outbound_via s) as A.
  destruct (handle_outbound s) as [[q s']|e s'|]; cbn; [| |exact I]; exact (via_grows _ _ _ A).
Qed.
Lemma ho_peek_grows sent s4 : res_grows s4 (ho_peek sent s4).
Proof.
  pose proof (ho_peek_does sent s4) as A.
  destruct (ho_peek sent s4) as [[q s']|e s'|]; cbn; [destruct A as [_ A]|destruct A as [p A]|exact I]; exact (does_grows _ _ _ A).
Qed.
Lemma ho_transfer_grows block reply s3 : res_grows s3 (ho_transfer block reply s3).
Proof.
  unfold ho_transfer. destruct (slice_from 3 reply) as [astr|]; [|exact I].
  destruct (parse_answers _ astr _ []) as [ans|]; [|cbn; gr].
  pose proof (send_accepted_does block s3 ans []) as Hs.
  destruct (send_accepted s3 block ans []) as [[s4 sr]|e s4|]; [|destruct Hs as (_&w&E&D&_); exact (does_grows _ _ _ D)|exact I].
  destruct Hs as (w&E&D&_). eapply res_grows_trans; [exact (does_grows _ _ _ D)|apply ho_peek_grows].
Qed.

(* ---- the writers do not look at the input ---- *)

Lemma mark_rej_ext i2 sent : forall s, mark_rej sent (ext i2 s) = ext i2 (mark_rej sent s).
Proof.
  unfold mark_rej. induction sent as [|[m b] l IH]; intros s; cbn [fold_left snd fst]; [reflexivity|].
  destruct b; [exact (IH (ev (mark_gone s m) (EvSetSent m true)))|apply IH].
Qed.
Lemma mark_sent_ext i2 sent : forall s, mark_sent sent (ext i2 s) = ext i2 (mark_sent sent s).
Proof.
  unfold mark_sent. induction sent as [|[m b] l IH]; intros s; cbn [fold_left snd fst]; [reflexivity|].
  destruct b; [apply IH|exact (IH (add_sent (ev (mark_gone s m) (EvSetSent m false)) m))].
Qed.

Lemma write_compressed_ext i2 s p off :
  write_compressed (ext i2 s) p off =
  match write_compressed s p off with ROk s' => ROk (ext i2 s') | RFail e s' => RFail e (ext i2 s') | RPanic => RPanic end.
Proof.
  unfold write_compressed. destruct ((off <? 0)%Z || (Z.of_nat (length (o_cdata p)) <? off)%Z); [reflexivity|].
  cbv zeta. destruct (Z.of_nat (length (o_cdata p)) <? 6)%Z; reflexivity.
Qed.

Lemma send_accepted_ext i2 props : forall s ans sent,
  send_accepted (ext i2 s) props ans sent =
  match send_accepted s props ans sent with
  | ROk (s', l) => ROk (ext i2 s', l) | RFail e s' => RFail e (ext i2 s') | RPanic => RPanic end.
Proof.
  induction props as [|p ps IH]; intros s ans sent; cbn [send_accepted]; [reflexivity|].
  destruct ans as [|a r]; cbn zeta iota beta; [apply IH|].
  destruct a as [|[| |] off]; try apply IH.
  - rewrite write_compressed_ext. destruct (write_compressed s p off) as [s1|e s1|]; [apply IH|reflexivity..].
  - apply (IH (ev (mark_gone s (o_mid p)) (EvSetDeferred (o_mid p)))).
Qed.

Lemma outbound_ext i2 s : outbound (ext i2 s) = (fst (outbound s), ext i2 (snd (outbound s))).
Proof. unfold outbound. change (s_h (ext i2 s)) with (s_h s). destruct (h_present (s_h s)); reflexivity. Qed.

Lemma ho_propose_ext i2 block s0 : ho_propose block (ext i2 s0) = ext i2 (ho_propose block s0).
Proof. unfold ho_propose. cbv zeta. rewrite (fold_wr_ext (fun l => l ++ [13])). reflexivity. Qed.

Lemma read_reply_eqo fuel : forall s, res_eqo s (read_reply fuel s).
Proof. intros s. apply res_ro_eqo, read_reply_ro. Qed.

Lemma read_reply_grows f s : res_grows s (read_reply f s).
Proof. apply res_eqo_grows, read_reply_eqo. Qed.

Lemma read_reply_ext i2 : forall f1 f2 s, (inlen s < f1)%nat -> (inlen s + length i2 < f2)%nat ->
  relx i2 s (read_reply f1 s) (read_reply f2 (ext i2 s)).
Proof.
  induction f1 as [|f1 IH]; intros f2 s H1 H2; [lia|]. destruct f2 as [|f2]; [lia|]. cbn [read_reply].
  apply relx_bind_ro; [apply next_line_extx|apply next_line_eqo| |exact (read_reply_grows (S f2) (ext i2 s))].
  intros line s1 En. apply next_line_ok in En.
  destruct (prefixb [70; 83; 32] line); [apply relx_ok|]. destruct (prefixb [59] line); [|apply relx_fail].
  apply IH; unfold inlen in *; cbn [ext set_in s_in]; rewrite ?app_length; lia.
Qed.

Lemma lost_blockend s5 s6 : grows s5 s6 -> lost (ev s5 EvBlockEnd) s6.
Proof.
  intros (A1&A2&A3&A4). split; [exact A1|]. split; [|split; assumption].
  right. exists (s_ev s5). split; [reflexivity|exact A2].
Qed.

Lemma ho_peek_extx i2 sent s4 : relx i2 s4 (ho_peek sent s4) (ho_peek sent (ext i2 s4)).
Proof.
  unfold relx, ho_peek. cbv zeta. rewrite mark_rej_ext.
  pose proof (mark_rej_in sent s4) as Ein.
  set (s5 := mark_rej sent s4) in *. change (s_in (ext i2 s5)) with (s_in s5 ++ i2).
  pose proof (next_line_extx true i2 s5) as Hn. unfold relx in Hn.
  pose proof (next_line_eqo true s5) as Q1. pose proof (next_line_eqo true (ext i2 s5)) as Q2.
  destruct (s_in s5) as [|b r] eqn:E5.
  - (* the link is lost at the peek *)
    cbn [app]. destruct i2 as [|c i2'].
    + cbn. apply grows_lost. gr.
    + destruct (negb ((c =? 70) || (c =? 59))).
      * destruct (next_line true (ext (c :: i2') s5)) as [[l s']|e s'|]; cbn in *; try exact I;
          apply grows_lost, grows_eqo, eqo_ev_cong; exact Q2.
      * cbn. apply lost_blockend. rewrite mark_sent_ext. apply grows_ev, grows_ext. exact (does_grows _ _ _ (mark_sent_does sent s5)).
  - cbn [app]. destruct (negb ((b =? 70) || (b =? 59))).
    + destruct (next_line true s5) as [[l s']|[|] s'|].
      * destruct Hn as [Hn Hs]. rewrite Hn. eexists; split; reflexivity.
      * destruct (next_line true (ext i2 s5)) as [[l2 s2]|e2 s2|]; cbn in *; try exact I;
          apply grows_lost, grows_eqo, eqo_ev_cong; (eapply eqo_trans; [apply eqo_sym; exact Q1|exact Q2]).
      * destruct Hn as (s2&Hn&He).
        rewrite Hn. eexists; split; [reflexivity|apply eqo_ev_cong; exact He].
      * rewrite Hn. reflexivity.
    + rewrite mark_sent_ext. split; [reflexivity|]. cbn [ev s_in]. rewrite mark_sent_in, E5, <- Ein. apply sfx_refl.
Qed.

Lemma ho_transfer_extx i2 block reply s3 :
  relx i2 s3 (ho_transfer block reply s3) (ho_transfer block reply (ext i2 s3)).
Proof.
  unfold ho_transfer. destruct (slice_from 3 reply) as [astr|]; [|reflexivity].
  destruct (parse_answers _ astr _ []) as [ans|]; [|apply relx_fail].
  rewrite send_accepted_ext.
  pose proof (send_accepted_does block s3 ans []) as Hs.
  destruct (send_accepted s3 block ans []) as [[s4 sr]|e s4|]; [| |reflexivity].
  - destruct Hs as (w&E&D&_). eapply relx_lift; [|apply ho_peek_extx]. rewrite (does_in _ _ _ D). apply sfx_refl.
  - destruct Hs as [-> _]. apply relx_fail.
Qed.

Lemma handle_outbound_extx i2 s : relx i2 s (handle_outbound s) (handle_outbound (ext i2 s)).
Proof.
  rewrite !handle_outbound_eq, outbound_ext. pose proof (does_in _ _ _ (outbound_does s) : s_in s = s_in (snd (outbound s))) as E0.
  destruct (outbound s) as [props s0]. cbn [fst snd] in *.
  destruct props as [|p ps]; [cbn; split; [reflexivity|rewrite E0; apply sfx_refl]|].
  cbv zeta. set (block := firstn _ _). rewrite ho_propose_ext.
  pose proof (does_in _ _ _ (ho_propose_does block s0) : s_in s0 = s_in (ho_propose block s0)) as E2. set (s2 := ho_propose block s0) in *.
  change (s_in (ext i2 s2)) with (s_in s2 ++ i2).
  apply (relx_lift i2 s s2); [rewrite E0, E2; apply sfx_refl|].
  apply relx_bind; [apply read_reply_ext; unfold inlen; rewrite ?app_length; lia| |].
  - intros reply s3 _. apply ho_transfer_extx.
  - intros reply s3. apply ho_transfer_grows.
Qed.

Definition ires := res sess (bool * list iprop * sess).
Inductive ilr := IlCont (props : list iprop) (lines : list bytes) | IlDone (r : ires).

(* what one line of the peer's turn does *)
Definition il_line (s1 : sess) (props : list iprop) (lines : list bytes) (line : bytes) : ilr :=
  if prefixb str_PM line then IlCont props lines
  else match line with
       | [] => IlCont props lines
       | c0 :: rest0 =>
           if c0 =? 59 then IlCont props lines
           else if (length line <? 2)%nat || negb (c0 =? 70) then IlDone (RFail EOther s1)
           else
             match rest0 with
             | [] => IlDone RPanic
             | c1 :: _ =>
                 if in_list c1 [65; 66; 67; 68] then
                   match parse_proposal s1 line with
                   | ROk p => IlCont (p :: props) (line :: lines)
                   | RFail e s' => IlDone (RFail e s')
                   | RPanic => IlDone RPanic
                   end
                 else if c1 =? 70 then IlDone (ROk (false, [], set_nomsgs s1 true))
                 else if c1 =? 81 then IlDone (ROk (true, [], s1))
                 else if c1 =? 62 then
                   match slice_from 2 line with
                   | None => IlDone RPanic
                   | Some ck =>
                       let ours := Z.of_N (block_checksum (rev' lines)) in
                       let theirs := parse_hex_ignore_err (trim_space ck) in
                       if negb (ours =? theirs)%Z then IlDone (RFail EOther s1)
                       else
                         match props with
                         | [] => IlDone (ROk (false, [], set_nomsgs s1 true))
                         | _ =>
                             let '(s2, answered) := answer_props (set_nomsgs s1 false) (rev' props) [] [] in
                             let s3 := wr s2 ([70; 83; 32] ++ map (fun p => answer_byte (i_answer p)) answered ++ [13]) in
                             IlDone (ROk (false, answered, s3))
                         end
                   end
                 else IlDone (RFail EOther s1)
             end
       end.

Lemma inbound_loop_eq f s props lines :
  inbound_loop (S f) s props lines =
  match next_line true s with
  | RFail e s' => RFail e s'
  | RPanic => RPanic
  | ROk (line, s1) =>
      match il_line s1 props lines line with
      | IlCont p l => inbound_loop f s1 p l
      | IlDone r => r
      end
  end.
Proof.
  cbn [inbound_loop]. destruct (next_line true s) as [[line s1]|e s1|]; try reflexivity.
  unfold il_line. destruct (prefixb str_PM line); [reflexivity|].
  destruct line as [|c0 rest0]; [reflexivity|].
  destruct (c0 =? 59) eqn:E59.
  { apply N.eqb_eq in E59. subst c0. reflexivity. }
  rewrite match_lit_59 by (apply N.eqb_neq, E59).
  destruct ((length (c0 :: rest0) <? 2)%nat || negb (c0 =? 70)); [reflexivity|].
  destruct rest0 as [|c1 r]; [reflexivity|].
  destruct (in_list c1 [65; 66; 67; 68]).
  { destruct (parse_proposal s1 (c0 :: c1 :: r)); reflexivity. }
  destruct (c1 =? 70); [reflexivity|]. destruct (c1 =? 81); [reflexivity|].
  destruct (c1 =? 62); [|reflexivity].
  destruct (slice_from 2 (c0 :: c1 :: r)) as [ck|]; [|reflexivity]. cbv zeta.
  destruct (negb _); [reflexivity|].
  destruct props; [reflexivity|].
  destruct (answer_props _ _ [] []). reflexivity.
Qed.

(* ---- what the peer's turn does ---- *)

(* what one line does, when it ends the loop: nothing is read, the answers are recorded *)
Lemma il_line_does s1 props lines line :
  match il_line s1 props lines line with
  | IlCont _ _ => True
  | IlDone (ROk (_, s')) => exists d, does d s1 s' /\ e_rd d = [] /\ Forall is_ans (e_ev d)
  | IlDone (RFail e s') => e = EOther /\ s' = s1
  | IlDone RPanic => False
  end.
Proof.
  assert (Nm : forall b, exists d, does d s1 (set_nomsgs s1 b) /\ e_rd d = [] /\ Forall is_ans (e_ev d))
    by (intros b; eexists; split; [apply does_nomsgs|split; [reflexivity|constructor]]).
  unfold il_line. destruct (prefixb str_PM line); [exact I|].
  destruct line as [|c0 rest0]; [exact I|].
  destruct (c0 =? 59); [exact I|].
  destruct ((length (c0 :: rest0) <? 2)%nat || negb (c0 =? 70)) eqn:E2; [split; reflexivity|].
  apply orb_false_iff in E2. destruct E2 as [E2 _]. apply Nat.ltb_ge in E2.
  destruct rest0 as [|c1 r]; [cbn in E2; lia|].
  destruct (in_list c1 [65; 66; 67; 68]).
  { destruct (parse_proposal_cases (c0 :: c1 :: r)) as [[p H]|H]; rewrite H; [exact I|split; reflexivity]. }
  destruct (c1 =? 70); [apply Nm|]. destruct (c1 =? 81); [eexists; split; [apply does_refl|split; [reflexivity|constructor]]|].
  destruct (c1 =? 62); [|split; reflexivity].
  destruct (slice_from_some 2 (c0 :: c1 :: r) E2) as [ck ->]. cbv zeta.
  destruct (negb _); [split; reflexivity|].
  destruct props as [|p0 pr]; [apply Nm|].
  destruct (answer_props_does (rev' (p0 :: pr)) (set_nomsgs s1 false) [] []) as (E&D&F).
  destruct (answer_props (set_nomsgs s1 false) (rev' (p0 :: pr)) [] []) as [s2 answered]. cbn [fst] in D.
  eexists. split; [exact (does_trans _ _ _ _ _ (does_trans _ _ _ _ _ (does_nomsgs s1 false) D) (does_wr s2 _))|].
  split; [reflexivity|]. cbn. rewrite app_nil_r. exact F.
Qed.

(* the proposal loop reads at least a line; if it fails it has done nothing else *)
Lemma inbound_loop_does : forall f s props lines,
  match inbound_loop f s props lines with
  | ROk (_, s') => exists s2 d, ro s s2 /\ (inlen s2 < inlen s)%nat /\ does d s2 s' /\ e_rd d = [] /\ Forall is_ans (e_ev d)
  | RFail _ s' => ro s s'
  | RPanic => False
  end.
Proof.
  induction f as [|f IH]; intros s props lines; [apply ro_refl|]. rewrite inbound_loop_eq.
  pose proof (next_line_ro true s) as Hn. pose proof (next_line_ok true s) as Hl.
  destruct (next_line true s) as [[line s1]|e s1|]; cbn [res_ro] in Hn; [|exact Hn|exact Hn].
  specialize (Hl _ _ eq_refl). pose proof (il_line_does s1 props lines line) as Hi.
  destruct (il_line s1 props lines line) as [p l|[[a s2]|e s2|]]; [| |destruct Hi as [_ ->]; exact Hn|exact Hi].
  - specialize (IH s1 p l). destruct (inbound_loop f s1 p l) as [[a s']|e s'|]; [|exact (ro_trans _ _ _ Hn IH)|exact IH].
    destruct IH as (s2&d&R&L&D). exists s2, d. split; [exact (ro_trans _ _ _ Hn R)|]. split; [lia|exact D].
  - destruct Hi as (d&D). exists s1, d. auto.
Qed.

Lemma inbound_loop_via f s props lines : res_via is_ans (fun x => snd x) s (inbound_loop f s props lines).
Proof.
  pose proof (inbound_loop_does f s props lines) as H.
  destruct (inbound_loop f s props lines) as [[a s']|e s'|]; cbn [res_via snd]; [|exact (ro_via _ _ _ H)|exact H].
  destruct H as (s2&d&R&_&D&_&F). exact (via_trans _ _ _ _ (ro_via _ _ _ R) (does_via _ _ _ _ D F)).
Qed.

Lemma inbound_loop_nopanic fuel : forall s props lines, inbound_loop fuel s props lines <> RPanic.
Proof. intros s props lines. exact (res_via_nopanic _ _ _ _ (inbound_loop_via fuel s props lines)). Qed.
Lemma inbound_loop_grows : forall f s props lines, res_grows s (inbound_loop f s props lines).
Proof. intros f s props lines. exact (res_via_grows _ _ _ (inbound_loop_via f s props lines)). Qed.
Lemma inbound_loop_lost_eqo : forall f s props lines s',
  inbound_loop f s props lines = RFail EConnLost s' -> eqo s s'.
Proof. intros f s props lines s' H. pose proof (inbound_loop_does f s props lines) as A. rewrite H in A. exact (ro_eqo _ _ A). Qed.

Lemma answer_props_in props s seen acc : s_in (fst (answer_props s props seen acc)) = s_in s.
Proof. destruct (answer_props_does props s seen acc) as (E&D&_). symmetry. exact (does_in _ _ _ D). Qed.

Lemma parse_proposal_ext i2 s line :
  parse_proposal (ext i2 s) line =
  match parse_proposal s line with ROk p => ROk p | RFail e s' => RFail e (ext i2 s') | RPanic => RPanic end.
Proof. destruct (parse_proposal_cases line) as [[p H]|H]; rewrite !H; reflexivity. Qed.

Lemma answer_props_ext i2 props : forall s seen acc,
  answer_props (ext i2 s) props seen acc =
  (ext i2 (fst (answer_props s props seen acc)), snd (answer_props s props seen acc)).
Proof.
  induction props as [|p r IH]; intros s seen acc; cbn [answer_props]; [reflexivity|].
  change (s_h (ext i2 s)) with (s_h s).
  destruct (mem_bytes (i_mid p) seen || negb ((i_code p =? Wl2kProposal) || (i_code p =? GzipProposal))
            || negb (h_present (s_h s))); [apply IH|].
  apply (IH (ev s (EvAnswer (i_mid p) (policy_of (s_h s) (i_mid p))))).
Qed.

Definition imap (i2 : bytes) (r : ires) : ires :=
  match r with ROk (a, s') => ROk (a, ext i2 s') | RFail e s' => RFail e (ext i2 s') | RPanic => RPanic end.

Lemma il_line_ext i2 s1 props lines line :
  il_line (ext i2 s1) props lines line =
  match il_line s1 props lines line with IlCont p l => IlCont p l | IlDone r => IlDone (imap i2 r) end.
Proof.
  unfold il_line. destruct (prefixb str_PM line); [reflexivity|].
  destruct line as [|c0 rest0]; [reflexivity|].
  destruct (c0 =? 59); [reflexivity|].
  destruct ((length (c0 :: rest0) <? 2)%nat || negb (c0 =? 70)); [reflexivity|].
  destruct rest0 as [|c1 r]; [reflexivity|].
  destruct (in_list c1 [65; 66; 67; 68]).
  { rewrite parse_proposal_ext. destruct (parse_proposal s1 (c0 :: c1 :: r)); reflexivity. }
  destruct (c1 =? 70); [reflexivity|]. destruct (c1 =? 81); [reflexivity|].
  destruct (c1 =? 62); [|reflexivity].
  destruct (slice_from 2 (c0 :: c1 :: r)) as [ck|]; [|reflexivity]. cbv zeta.
  destruct (negb _); [reflexivity|].
  destruct props as [|p0 pr]; [reflexivity|].
  change (set_nomsgs (ext i2 s1) false) with (ext i2 (set_nomsgs s1 false)).
  rewrite answer_props_ext.
  destruct (answer_props (set_nomsgs s1 false) (rev' (p0 :: pr)) [] []) as [s2 answered]. reflexivity.
Qed.

Lemma inbound_loop_ext i2 : forall f1 f2 s props lines, (inlen s < f1)%nat -> (inlen s + length i2 < f2)%nat ->
  relx i2 s (inbound_loop f1 s props lines) (inbound_loop f2 (ext i2 s) props lines).
Proof.
  induction f1 as [|f1 IH]; intros f2 s props lines H1 H2; [lia|]. destruct f2 as [|f2]; [lia|].
  pose proof (inbound_loop_grows (S f2) (ext i2 s) props lines) as G. rewrite !inbound_loop_eq in *.
  apply relx_bind_ro; [apply next_line_extx|apply next_line_eqo| |exact G].
  intros line s1 En. apply next_line_ok in En.
  rewrite il_line_ext. pose proof (il_line_does s1 props lines line) as Hf.
  destruct (il_line s1 props lines line) as [p l|[[a s']|e s'|]].
  - apply IH; unfold inlen in *; cbn [ext set_in s_in]; rewrite ?app_length; lia.
  - destruct Hf as (d&D&Z&_). pose proof (does_in _ _ _ D) as K. rewrite Z in K.
    cbn. split; [reflexivity|]. rewrite K. apply sfx_refl.
  - destruct Hf as [-> ->]. apply relx_fail.
  - destruct Hf.
Qed.

(* ---- the turns, and what the whole exchange inherits: C03 (no panic, termination) and C04 ---- *)

(* the events of a turn other than the "sent" marks; a message is handed over only after a good delivery *)
Definition tame (e : event) : Prop :=
  match e with EvSetSent _ false => False | EvProcess mid data ok => ok = true -> good_delivery mid data | _ => True end.
Lemma sends_tame e : sends e -> tame e.
Proof. destruct e as [| |m [|]| | | |]; cbn; auto; intros []. Qed.
Lemma is_ans_tame e : is_ans e -> tame e.
Proof. destruct e; intros []; exact I. Qed.
Lemma good_proc_tame e : good_proc e -> tame e.
Proof. destruct e; cbn; auto; intros []. Qed.

Lemma turn_via my s :
  match turn my s with
  | inl (r, s') => r <> XPanic /\ r <> XOutOfFuel /\ via tame s s'
  | inr s' => via (fun e => tame e \/ my = true /\ exists m, e = EvSetSent m false) s s'
  end.
Proof.
  unfold turn.
  assert (Ve : forall e s', via tame s s' -> xerr e <> XPanic /\ xerr e <> XOutOfFuel /\ via tame s s')
    by (intros e s' H; repeat split; [destruct e; discriminate..|exact H]).
  destruct my.
  - pose proof (handle_outbound_via s) as H.
    destruct (handle_outbound s) as [[[|] s1]|e s'|]; [| |apply Ve; exact (via_mono _ _ _ _ sends_tame H)|destruct H].
    + repeat split; [discriminate..|]. eapply via_mono; [|exact H]. intros e [He|[X _]]; [exact (sends_tame e He)|discriminate X].
    + eapply via_mono; [|exact H]. intros e [He|[_ Hm]]; auto using sends_tame.
  - pose proof (inbound_loop_via (S (length (s_in s))) s [] []) as H.
    destruct (inbound_loop _ s [] []) as [[[q props] s1]|e s'|]; cbn [res_via snd] in H;
      [|apply Ve; exact (via_mono _ _ _ _ is_ans_tame H)|destruct H].
    apply (via_mono _ _ _ _ is_ans_tame) in H. pose proof (receive_accepted_via props s1) as Hr.
    destruct (receive_accepted s1 props) as [s2|e s2| |]; cbn [rc_via] in Hr;
      [apply (via_mono _ _ _ _ good_proc_tame) in Hr; pose proof (via_trans _ _ _ _ H Hr) as H2..|destruct Hr|].
    + destruct q; [repeat split; [discriminate..|exact H2]|]. eapply via_mono; [|exact H2]. auto.
    + apply Ve, H2.
    + repeat split; [discriminate..|exact H].
Qed.

Definition okev (e : event) : Prop := forall mid data, e = EvProcess mid data true -> good_delivery mid data.

Lemma turns_via fuel : forall my s, fst (turns fuel my s) <> XPanic /\ via okev s (snd (turns fuel my s)).
Proof.
  assert (T : forall e, tame e -> okev e) by (intros e H mid data ->; exact (H eq_refl)).
  apply (turns_rt (fun r => r <> XPanic) (via okev)); [discriminate|apply via_refl|apply via_trans|].
  intros my s. pose proof (turn_via my s) as A. destruct (turn my s) as [[r s']|s'].
  - split; [apply A|exact (via_mono _ _ _ _ T (proj2 (proj2 A)))].
  - eapply via_mono; [|exact A]. intros e [He|[_ [m ->]]]; [exact (T e He)|]. intros mid data X. discriminate X.
Qed.

Lemma turns_grows : forall f my s, grows s (snd (turns f my s)).
Proof. intros f my s. exact (via_grows _ _ _ (proj2 (turns_via f my s))). Qed.

Lemma handle_outbound_inlen s q s' : handle_outbound s = ROk (q, s') -> (inlen s' <= inlen s)%nat.
Proof. intros H. pose proof (handle_outbound_via s) as A. rewrite H in A. exact (via_inlen _ _ _ A). Qed.

Lemma inbound_loop_ok : forall fuel s props lines q props' s',
  inbound_loop fuel s props lines = ROk (q, props', s') -> (inlen s' < inlen s)%nat.
Proof.
  intros fuel s props lines q props' s' H. pose proof (inbound_loop_does fuel s props lines) as A. rewrite H in A.
  destruct A as (s2&d&_&L&D&Z&_). pose proof (does_in _ _ _ D) as K. rewrite Z in K. cbn [app] in K. unfold inlen in *. rewrite <- K. exact L.
Qed.

(* the peer's turn consumes at least one line *)
Lemma turn_inlen my s s' : turn my s = inr s' -> (inlen s' + (if my then 0 else 1) <= inlen s)%nat.
Proof.
  unfold turn. destruct my.
  - destruct (handle_outbound s) as [[[|] s1]|e s1|] eqn:E; try discriminate.
    intros H. injection H as <-. apply handle_outbound_inlen in E. lia.
  - destruct (inbound_loop _ s [] []) as [[[q props] s1]|e s1|] eqn:E; try discriminate.
    apply inbound_loop_ok in E. pose proof (receive_accepted_inlen props s1) as Hr.
    destruct (receive_accepted s1 props) as [s2|e s2| |]; try discriminate.
    destruct q; [discriminate|]. intros H. injection H as <-. lia.
Qed.

Theorem turns_terminate : forall (fuel : nat) (my_turn : bool) (s : sess),
  (2 * inlen s + (if my_turn then 2 else 1) <= fuel)%nat -> fst (turns fuel my_turn s) <> XOutOfFuel.
Proof.
  induction fuel as [|f IH]; intros my s Hf; [destruct my; lia|]. rewrite turns_eq.
  pose proof (turn_via my s) as A.
  pose proof (turn_inlen my s) as L.
  destruct (turn my s) as [[r s']|s']; [apply A|].
  apply IH. specialize (L _ eq_refl). destruct my; cbn [negb]; lia.
Qed.

(* the turn loop does not depend on surplus fuel: `loop` is the turn loop with enough of it (PairP.run) *)
Lemma turns_fuel : forall f1 f2 (my : bool) s,
  (2 * inlen s + (if my then 2 else 1) <= f1)%nat -> (2 * inlen s + (if my then 2 else 1) <= f2)%nat ->
  turns f1 my s = turns f2 my s.
Proof.
  induction f1 as [|f1 IH]; intros f2 my s H1 H2; [destruct my; lia|].
  destruct f2 as [|f2]; [destruct my; lia|]. rewrite !turns_eq.
  pose proof (turn_inlen my s) as Hl. destruct (turn my s) as [t|s1]; [reflexivity|].
  specialize (Hl _ eq_refl). apply IH; destruct my; cbn [negb] in *; lia.
Qed.

Definition loop (my : bool) (s : sess) : xres * sess := turns (2 * inlen s + 2) my s.

Lemma turns_loop f (my : bool) s : (2 * inlen s + (if my then 2 else 1) <= f)%nat -> turns f my s = loop my s.
Proof. intros H. unfold loop. apply turns_fuel; [exact H|destruct my; lia]. Qed.

Lemma loop_eq my s : loop my s = match turn my s with inl t => t | inr s1 => loop (negb my) s1 end.
Proof.
  unfold loop at 1. replace (2 * inlen s + 2)%nat with (S (2 * inlen s + 1)) by lia. rewrite turns_eq.
  pose proof (turn_inlen my s) as Hl. destruct (turn my s) as [t|s1]; [reflexivity|].
  specialize (Hl _ eq_refl). apply turns_loop. destruct my; cbn [negb] in *; lia.
Qed.

Lemma loop_grows my s : grows s (snd (loop my s)).
Proof. apply turns_grows. Qed.

(* Exchange up to its report: the verdict, and the state in which it is reached *)
Definition session (cfg : side_cfg) (s1 : sess) : xres * sess :=
  if h_present (c_handler cfg) && h_prepare_err (c_handler cfg) then (XOther, s1)
  else match handshake s1 with
       | RFail e s' => (xerr e, s')
       | RPanic => (XPanic, s1)
       | ROk s2 => loop (negb (c_master cfg)) s2
       end.

Lemma exchange_session cfg input :
  exchange cfg input = let '(r, s) := session cfg (init_state cfg input) in finish (length input) r s.
Proof.
  rewrite exchange_eq. cbv zeta. unfold session.
  destruct (h_present (c_handler cfg) && h_prepare_err (c_handler cfg)); [reflexivity|].
  pose proof (handshake_inlen (init_state cfg input)) as Hl.
  destruct (handshake (init_state cfg input)) as [s2|e s'|]; [|reflexivity..].
  unfold inlen in Hl at 2. rewrite init_state_in in Hl.
  rewrite (turns_loop _ (negb (c_master cfg)) s2) by (destruct (negb (c_master cfg)); lia). reflexivity.
Qed.

Lemma session_via cfg s1 :
  fst (session cfg s1) <> XPanic /\ fst (session cfg s1) <> XOutOfFuel /\ via okev s1 (snd (session cfg s1)).
Proof.
  unfold session. destruct (h_present (c_handler cfg) && h_prepare_err (c_handler cfg)); [repeat split; [discriminate..|apply via_refl]|].
  (* the handshake records nothing *)
  assert (V : forall s2, (exists p w, does (act p w []) s1 s2) -> via okev s1 s2)
    by (intros s2 (p&w&D); exact (does_via _ _ _ _ D (Forall_nil _))).
  pose proof (handshake_quiet s1) as Hh.
  destruct (handshake s1) as [s2|e s'|]; [| |destruct Hh].
  - unfold loop. split; [apply turns_via|]. split; [apply turns_terminate; destruct (negb (c_master cfg)); lia|].
    exact (via_trans _ _ _ _ (V _ Hh) (proj2 (turns_via _ _ _))).
  - repeat split; [destruct e; discriminate..|exact (V _ Hh)].
Qed.

Theorem exchange_nopanic cfg input : x_res (exchange cfg input) <> XPanic.
Proof.
  rewrite exchange_session. pose proof (session_via cfg (init_state cfg input)) as H.
  destruct (session cfg (init_state cfg input)). apply H.
Qed.

Theorem exchange_terminates cfg input : x_res (exchange cfg input) <> XOutOfFuel.
Proof.
  rewrite exchange_session. pose proof (session_via cfg (init_state cfg input)) as H.
  destruct (session cfg (init_state cfg input)). apply H.
Qed.

(* C04: every successful ProcessInbound of a whole exchange hands over a payload that decompressed with a
   successful Close and parsed as a message with that Mid.  good_delivery says no more than that: its
   accepted transfer is some transfer, not one of this exchange *)
Theorem exchange_integrity cfg input mid data :
  In (EvProcess mid data true) (x_events (exchange cfg input)) -> good_delivery mid data.
Proof.
  rewrite exchange_session. pose proof (session_via cfg (init_state cfg input)) as (_&_&A).
  destruct (session cfg (init_state cfg input)) as [r s]. cbn [snd] in A. intros Hin.
  destruct (via_log _ _ _ A) as (E&HE&F&_). unfold finish in Hin. cbn [x_events] in Hin.
  unfold rev' in Hin. rewrite <- rev_alt in Hin. apply in_rev in Hin.
  assert (Hs : In (EvProcess mid data true) (s_ev s)) by (destruct r; exact Hin).
  rewrite HE in Hs. apply in_app_or in Hs. destruct Hs as [Hs|Hs].
  - rewrite Forall_forall in F. exact (F _ Hs mid data eq_refl).
  - exfalso. revert Hs. unfold init_state. destruct (h_present (c_handler cfg)); cbn; intuition discriminate.
Qed.

Lemma take_n_app i2 : forall n inp acc sum acc' rest sum',
  take_n n inp acc sum = Some (acc', rest, sum') ->
  take_n n (inp ++ i2) acc sum = Some (acc', rest ++ i2, sum') /\ sfx rest inp.
Proof.
  induction n as [|k IH]; intros inp acc sum acc' rest sum' H; cbn [take_n] in H.
  - inversion H; subst. split; [reflexivity|apply sfx_refl].
  - destruct inp as [|x r]; [discriminate|]. apply IH in H. destruct H as [H1 H2].
    cbn [app take_n]. split; [exact H1|]. eapply sfx_trans; [exact H2|apply sfx_cons].
Qed.

(* the only place where the end of the input is not reported as a lost link: after EOT the
   missing checksum byte reads as 0 *)
Lemma read_frames_ext i2 : forall f1 f2 i1 buf sum cs, (length i1 < f1)%nat -> (length i1 + length i2 < f2)%nat ->
  (ends_eot i1 /\ forall d r, read_frames f1 i1 buf sum cs = FOk d r ->
     r = [] /\ match read_frames f2 (i1 ++ i2) buf sum cs with FOk d' _ => d' = d | FErr _ _ => True end) \/
  match read_frames f1 i1 buf sum cs with
  | FOk d r => read_frames f2 (i1 ++ i2) buf sum cs = FOk d (r ++ i2) /\ sfx r i1
  | FErr EOther r => exists r', read_frames f2 (i1 ++ i2) buf sum cs = FErr EOther r'
  | FErr EConnLost _ => True
  end.
Proof.
  induction f1 as [|f1 IH]; intros f2 i1 buf sum cs H1 H2; [lia|]. destruct f2 as [|f2]; [lia|].
  cbn [read_frames]. destruct i1 as [|c r]; [right; exact I|]. cbn [app].
  destruct (c =? CHRSTX).
  - destruct r as [|l r1].
    { right. destruct (take_n 256 [] buf sum) as [[[b' r2] s']|] eqn:E; [|exact I]. discriminate. }
    cbn [app]. set (len := if l =? 0 then 256%nat else N.to_nat l).
    destruct (take_n len r1 buf sum) as [[[b' r2] s']|] eqn:E; [|right; exact I].
    destruct (take_n_app i2 _ _ _ _ _ _ _ E) as [E' Hs]. rewrite E'.
    pose proof (sfx_length _ _ Hs) as Hl. cbn [length] in *.
    destruct (IH f2 r2 b' s' cs ltac:(lia) ltac:(lia)) as [[Hc Hd]|Hr].
    + left. split; [|exact Hd]. eapply ends_eot_sfx; [|exact Hc]. eapply sfx_trans; [exact Hs|]. exists [c; l]. reflexivity.
    + right. destruct (read_frames f1 r2 b' s' cs) as [d r3|[|] r3]; try exact Hr.
      destruct Hr as [Hr Hs3]. split; [exact Hr|]. eapply sfx_trans; [exact Hs3|].
      eapply sfx_trans; [exact Hs|]. exists [c; l]. reflexivity.
  - destruct (c =? CHREOT) eqn:Ec.
    + destruct r as [|k r1].
      { (* the checksum byte is missing: it reads as 0, and as whatever comes next on the longer input *)
        left. apply N.eqb_eq in Ec. subst c. split; [exists []; reflexivity|]. intros d r.
        destruct (negb ((sum + 0) mod 256 =? 0)) eqn:E0; [discriminate|].
        destruct (negb (cs =? Z.of_nat (length buf))%Z); [discriminate|]. intros H. injection H as <- <-.
        split; [reflexivity|]. destruct i2 as [|k r1]; cbn [app].
        - rewrite E0. reflexivity.
        - destruct (negb ((sum + k) mod 256 =? 0)); [exact I|reflexivity]. }
      right. cbn [app]. destruct (negb ((sum + k) mod 256 =? 0)); [eexists; reflexivity|].
      destruct (negb (cs =? Z.of_nat (length buf))%Z); [eexists; reflexivity|].
      split; [reflexivity|]. exists [c; k]. reflexivity.
    + right. eexists; reflexivity.
Qed.

Lemma read_compressed_eqo s p : res_eqo s (read_compressed s p).
Proof. apply res_ro_eqo, read_compressed_ro. Qed.

Lemma read_compressed_ext i2 s p : rel i2 s (read_compressed s p) (read_compressed (ext i2 s) p).
Proof.
  assert (L : forall s1, eqo s s1 -> @relx bytes i2 s (RFail EConnLost s1) (read_compressed (ext i2 s) p)).
  { intros s1 Q. cbn [relx]. eapply res_lost_grows; [|apply res_eqo_grows, read_compressed_eqo].
    apply grows_lost, grows_eqo. eapply eqo_trans; [apply eqo_sym, Q|apply eqo_ext]. }
  revert L. unfold read_compressed, rel. change (s_in (ext i2 s)) with (s_in s ++ i2).
  destruct (s_in s) as [|c r] eqn:Ein; intros L; [right; apply L, eqo_refl|]. cbn [app] in *.
  destruct (c =? CHRSOH).
  - destruct r as [|hl r1]; [right; apply L; reflexivity|]. cbn [app] in *.
    destruct (read_until CHRNUL r1) as [[title r2]|] eqn:E1; [|right; apply L; reflexivity].
    rewrite (read_until_app _ _ i2 _ _ E1) in *.
    destruct (read_until CHRNUL r2) as [[offs r3]|] eqn:E2; [|right; apply L; reflexivity].
    rewrite (read_until_app _ _ i2 _ _ E2) in *.
    assert (Fo : forall r3', @relx bytes i2 s (RFail EOther (set_in s r3)) (RFail EOther (set_in (ext i2 s) r3'))).
    { intros r3'. eexists; split; reflexivity. }
    assert (Hs3 : sfx r3 (c :: hl :: r1)).
    { eapply sfx_trans; [eapply read_until_sfx; exact E2|]. eapply sfx_trans; [eapply read_until_sfx; exact E1|].
      exists [c; hl]. reflexivity. }
    destruct (negb (N.to_nat hl =? length title + length offs + 2)%nat); [right; apply Fo|].
    set (digits := match offs with 45 :: d => d | 43 :: d => d | _ => offs end) in *.
    destruct digits as [|x xs]; [right; apply Fo|].
    destruct (num_of_digits (x :: xs) 0) as [v|]; [|right; apply Fo].
    destruct (9223372036854775807 <? v); [right; apply Fo|]. destruct (negb (v =? 0)); [right; apply Fo|].
    destruct (read_frames_ext i2 (S (length r3)) (S (length (r3 ++ i2))) r3 [] 0 (i_csize p)) as [[Hc _]|Hr];
      [lia|rewrite app_length; lia| |].
    + left. eapply ends_eot_sfx; eassumption.
    + right. destruct (read_frames (S (length r3)) r3 [] 0 (i_csize p)) as [d r4|[|] r4].
      * destruct Hr as [Hr Hs4]. rewrite Hr. split; [reflexivity|]. cbn [set_in s_in].
        rewrite Ein. eapply sfx_trans; eassumption.
      * apply L. reflexivity.
      * destruct Hr as [r' Hr]. rewrite Hr. eexists; split; reflexivity.
  - right. destruct (c =? 42); [|eexists; split; reflexivity].
    change (set_in (ext i2 s) (r ++ i2)) with (ext i2 (set_in s r)) in *.
    pose proof (next_line_extx true i2 (set_in s r)) as Hn. unfold relx in Hn.
    pose proof (next_line_eqo true (set_in s r)) as Q1.
    pose proof (next_line_eqo true (ext i2 (set_in s r))) as Q2.
    pose proof (next_line_nopanic true (ext i2 (set_in s r))) as Np.
    destruct (next_line true (set_in s r)) as [[l s']|[|] s'|].
    + destruct Hn as [Hn _]. rewrite Hn. eexists; split; [reflexivity|apply eqo_ext].
    + cbn [res_eqo] in Q1.
      destruct (next_line true (ext i2 (set_in s r))) as [[l2 s2]|e2 s2|]; [| |congruence];
        cbn [res_eqo] in Q2; eexists; (split; [reflexivity|]);
        (eapply eqo_trans; [apply eqo_sym; exact Q1|exact Q2]).
    + destruct Hn as (s2&Hn&He). rewrite Hn. exists s2. split; [reflexivity|exact He].
    + rewrite Hn. reflexivity.
Qed.

Definition rc_grows (s : sess) (r : rres) : Prop :=
  match r with RcOk s' => grows s s' | RcErr _ s' => grows s s' | _ => True end.
Definition rc_lost (s1 : sess) (r2 : rres) : Prop :=
  match r2 with RcOk s2 => lost s1 s2 | RcErr _ s2 => lost s1 s2 | RcPanic => True | RcUnknown => True end.

Definition rrel (i2 : bytes) (s : sess) (r1 r2 : rres) : Prop :=
  ends_eot (s_in s) \/
  match r1 with
  | RcOk s1 => r2 = RcOk (ext i2 s1) /\ sfx (s_in s1) (s_in s)
  | RcErr EOther s1 => exists s2, r2 = RcErr EOther s2 /\ eqo s1 s2
  | RcErr EConnLost s1 => rc_lost s1 r2
  | RcPanic => r2 = RcPanic
  | RcUnknown => r2 = RcUnknown
  end.

Lemma rrel_lift i2 s s1 r1 r2 : sfx (s_in s1) (s_in s) -> rrel i2 s1 r1 r2 -> rrel i2 s r1 r2.
Proof.
  intros Hs [H|H]; [left; eapply ends_eot_sfx; eassumption|right].
  destruct r1 as [s'|[|] s'| |]; try exact H.
  destruct H as [H1 H2]. split; [exact H1|]. eapply sfx_trans; eassumption.
Qed.

Lemma receive_accepted_grows : forall props s, rc_grows s (receive_accepted s props).
Proof.
  intros props s. pose proof (receive_accepted_via props s) as A.
  destruct (receive_accepted s props); cbn in *; try exact I; exact (via_grows _ _ _ A).
Qed.

Lemma rc_lost_grows s1 s2 r : lost s1 s2 -> rc_grows s2 r -> rc_lost s1 r.
Proof. intros H G. destruct r; cbn in *; try exact I; eapply lost_grows; eassumption. Qed.

Lemma receive_accepted_ext i2 : forall props s,
  rrel i2 s (receive_accepted s props) (receive_accepted (ext i2 s) props).
Proof.
  induction props as [|p r IH]; intros s; cbn [receive_accepted].
  { right. split; [reflexivity|apply sfx_refl]. }
  destruct (i_answer p); try apply IH.
  destruct (read_compressed_ext i2 s p) as [H|H]; [left; exact H|]. unfold relx in H.
  destruct (read_compressed s p) as [[cdata s1]|[|] s1|].
  - destruct H as [H Hs]. rewrite H.
    destruct (proposal_message cdata) as [mid data|[|]|].
    + change (s_h (ext i2 s1)) with (s_h s1).
      destruct (mem_bytes mid (h_fail (s_h s1))).
      * right. eexists; split; [reflexivity|]. reflexivity.
      * eapply rrel_lift; [|apply (IH (add_recv (ev s1 (EvProcess mid data (negb false))) (i_mid p)))]. exact Hs.
    + right. cbn. apply grows_lost. gr.
    + right. eexists; split; [reflexivity|apply eqo_ext].
    + right. reflexivity.
  - (* the link is lost inside a transfer *)
    right. destruct (read_compressed (ext i2 s) p) as [[cdata s2]|e s2|]; cbn [res_lost] in H; [|exact H|exact I].
    destruct (proposal_message cdata) as [mid data|e|]; [|exact H|exact I].
    destruct (mem_bytes mid (h_fail (s_h s2))); [cbn; eapply lost_grows; [exact H|gr]|].
    eapply rc_lost_grows; [|apply receive_accepted_grows]. eapply lost_grows; [exact H|gr].
  - destruct H as (s2&H&He). rewrite H. right. exists s2. split; [reflexivity|exact He].
  - rewrite H. right. reflexivity.
Qed.

(* t1: the loop from s; t2: the loop from [ext i2 s] *)
Definition trel (i2 : bytes) (s : sess) (t1 t2 : xres * sess) : Prop :=
  ends_eot (s_in s) \/
  match fst t1 with
  | XConnLost => fst t2 = XUnknown \/ lost (snd t1) (snd t2)
  | XOutOfFuel => True
  | XNil => fst t2 = XNil /\ snd t2 = ext i2 (snd t1)
  | _ => fst t2 = fst t1 /\ eqo (snd t1) (snd t2)
  end.

Lemma trel_lift i2 s s1 t1 t2 : sfx (s_in s1) (s_in s) -> trel i2 s1 t1 t2 -> trel i2 s t1 t2.
Proof. intros Hs [H|H]; [left; eapply ends_eot_sfx; eassumption|right; exact H]. Qed.

Lemma turn_ext i2 my s :
  ends_eot (s_in s) \/
  match turn my s with
  | inr s1 => turn my (ext i2 s) = inr (ext i2 s1) /\ sfx (s_in s1) (s_in s)
  | inl (XConnLost, s1) =>
      match turn my (ext i2 s) with inl (XUnknown, _) => True | inl (_, s2) => lost s1 s2 | inr s2 => lost s1 s2 end
  | inl (XNil, s1) => turn my (ext i2 s) = inl (XNil, ext i2 s1)
  | inl (r, s1) => exists s2, turn my (ext i2 s) = inl (r, s2) /\ eqo s1 s2
  end.
Proof.
  unfold turn. destruct my.
  - (* my turn *)
    right. pose proof (handle_outbound_extx i2 s) as H. unfold relx in H.
    pose proof (handle_outbound_nopanic (ext i2 s)) as Np.
    destruct (handle_outbound s) as [[q s1]|[|] s1|].
    + destruct H as [H Hs]. rewrite H. destruct q; [reflexivity|]. split; [reflexivity|exact Hs].
    + cbn [xerr]. destruct (handle_outbound (ext i2 s)) as [[q s2]|e s2|]; cbn [res_lost] in H; [| |congruence].
      * destruct q; exact H.
      * destruct e; exact H.
    + destruct H as (s2&H&He). rewrite H. exists s2. split; [reflexivity|exact He].
    + rewrite H. exists (ext i2 s). split; [reflexivity|apply eqo_ext].
  - (* the peer's turn *)
    change (s_in (ext i2 s)) with (s_in s ++ i2).
    assert (H : relx i2 s (inbound_loop (S (length (s_in s))) s [] [])
                          (inbound_loop (S (length (s_in s ++ i2))) (ext i2 s) [] [])).
    { apply inbound_loop_ext; unfold inlen; rewrite ?app_length; lia. }
    unfold relx in H.
    destruct (inbound_loop (S (length (s_in s))) s [] []) as [[[q props] s1]|[|] s1|].
    + destruct H as [H Hs]. rewrite H.
      pose proof (receive_accepted_ext i2 props s1) as Hr.
      apply (rrel_lift i2 s) in Hr; [|exact Hs]. destruct Hr as [Hr|Hr]; [left; exact Hr|right].
      pose proof (receive_accepted_nopanic props (ext i2 s1)) as Np.
      destruct (receive_accepted s1 props) as [s2|[|] s2| |].
      * destruct Hr as [Hr Hs2]. rewrite Hr. destruct q; [reflexivity|]. split; [reflexivity|exact Hs2].
      * (* the link is lost inside a transfer *)
        cbn [xerr]. destruct (receive_accepted (ext i2 s1) props) as [s3|e s3| |]; cbn [rc_lost] in Hr; [| |congruence|exact I].
        -- destruct q; exact Hr.
        -- destruct e; exact Hr.
      * destruct Hr as (s3&Hr&He). rewrite Hr. exists s3. split; [reflexivity|exact He].
      * rewrite Hr. exists (ext i2 s1). split; [reflexivity|apply eqo_ext].
      * rewrite Hr. exists (ext i2 s1). split; [reflexivity|apply eqo_ext].
    + (* the link is lost in the proposal loop *)
      right. cbn [xerr].
      pose proof (inbound_loop_nopanic (S (length (s_in s ++ i2))) (ext i2 s) [] []) as Np.
      destruct (inbound_loop _ (ext i2 s) [] []) as [[[q props] s2]|e s2|]; cbn [res_lost] in H;
        [|destruct e; exact H|congruence].
      pose proof (receive_accepted_grows props s2) as G.
      pose proof (receive_accepted_nopanic props s2) as Np2.
      destruct (receive_accepted s2 props) as [s3|e s3| |]; cbn [rc_grows] in G; [| |congruence|exact I].
      * destruct q; eapply lost_grows; eassumption.
      * destruct e; eapply lost_grows; eassumption.
    + right. destruct H as (s2&H&He). rewrite H. exists s2. split; [reflexivity|exact He].
    + right. rewrite H. exists (ext i2 s). split; [reflexivity|apply eqo_ext].
Qed.

Lemma loop_ext i2 : forall n (my : bool) s, (2 * inlen s + (if my then 1 else 0) < n)%nat ->
  trel i2 s (loop my s) (loop my (ext i2 s)).
Proof.
  induction n as [|n IH]; intros my s Hn; [lia|]. rewrite !loop_eq.
  pose proof (turn_inlen my s) as Hl.
  destruct (turn_ext i2 my s) as [H|H]; [left; exact H|].
  destruct (turn my s) as [[r s1]|s1].
  - right. cbn [fst snd]. destruct r.
    + rewrite H. split; reflexivity.
    + destruct (turn my (ext i2 s)) as [[r2 s2]|s2]; cbn [fst snd].
      * destruct r2; [right; exact H..|left; reflexivity].
      * right. eapply lost_grows; [exact H|apply loop_grows].
    + destruct H as (s2&->&He). split; [reflexivity|exact He].
    + destruct H as (s2&->&He). split; [reflexivity|exact He].
    + exact I.
    + destruct H as (s2&->&He). split; [reflexivity|exact He].
  - destruct H as [-> Hs]. eapply trel_lift; [exact Hs|]. specialize (Hl _ eq_refl).
    apply IH. destruct my; cbn [negb]; lia.
Qed.

Definition prefix {A} (a b : list A) : Prop := exists x, b = a ++ x.

(* the two outcomes agree on everything but the number of bytes consumed *)
Definition same_obs (o1 o2 : outcome) : Prop :=
  x_res o2 = x_res o1 /\ x_wire o2 = x_wire o1 /\ x_events o2 = x_events o1 /\
  x_sent o2 = x_sent o1 /\ x_recv o2 = x_recv o1.

(* o2 continues o1: everything o1 wrote and recorded comes first in o2, in the same order;
   only the EvBlockEnd with which o1 closed its failed turn may come later (or not at all) in o2 *)
Definition continues (o1 o2 : outcome) : Prop :=
  prefix (x_wire o1) (x_wire o2) /\
  (prefix (x_events o1) (x_events o2) \/
   exists e0, x_events o1 = e0 ++ [EvBlockEnd] /\ prefix e0 (x_events o2)) /\
  prefix (x_sent o1) (x_sent o2) /\ prefix (x_recv o1) (x_recv o2).

Lemma pre_rev' {A} (a b : list A) : pre a b -> prefix (rev' a) (rev' b).
Proof. intros [x ->]. exists (rev' x). rewrite !rev'_rev. apply rev_app_distr. Qed.

Lemma pre_concat_rev' (a b : list bytes) : pre a b -> prefix (concat (rev' a)) (concat (rev' b)).
Proof. intros H. apply pre_rev' in H. destruct H as [x ->]. exists (concat x). apply concat_app. Qed.

Definition fin_state (r : xres) (s : sess) : sess := match r with XOther => wr s echo | _ => s end.

Lemma finish_same n1 n2 r s1 s2 : eqo s1 s2 -> same_obs (finish n1 r s1) (finish n2 r s2).
Proof.
  intros H. assert (H' : eqo (fin_state r s1) (fin_state r s2)).
  { destruct r; try exact H. unfold eqo in *. cbn [fin_state].
    change (wr (set_in s1 []) echo = wr (set_in s2 []) echo). rewrite H. reflexivity. }
  unfold same_obs, finish. fold (fin_state r s1). fold (fin_state r s2). cbn [x_res x_wire x_events x_sent x_recv].
  rewrite (eqo_out _ _ H'), (eqo_ev _ _ H'), (eqo_sent _ _ H'), (eqo_recv _ _ H'). repeat split.
Qed.

Lemma finish_lost n1 n2 r2 s1 s2 : lost s1 s2 -> continues (finish n1 XConnLost s1) (finish n2 r2 s2).
Proof.
  intros H. assert (H' : lost s1 (fin_state r2 s2)).
  { eapply lost_grows; [exact H|]. destruct r2; cbn [fin_state]; gr. }
  unfold continues, finish. fold (fin_state r2 s2). cbn [x_res x_wire x_events x_sent x_recv].
  destruct H' as (A1&A2&A3&A4). split; [apply pre_concat_rev', A1|]. split; [|split; apply pre_rev'; assumption].
  destruct A2 as [A2|(e0&E&A2)]; [left; apply pre_rev', A2|right].
  exists (rev' e0). split; [|apply pre_rev', A2]. rewrite E, !rev'_rev. reflexivity.
Qed.

Lemma session_ext cfg i2 s1 : trel i2 s1 (session cfg s1) (session cfg (ext i2 s1)).
Proof.
  unfold session. destruct (h_present (c_handler cfg) && h_prepare_err (c_handler cfg)); [right; split; [reflexivity|apply eqo_ext]|].
  pose proof (handshake_extx i2 s1) as H. unfold relx in H. pose proof (handshake_nopanic (ext i2 s1)) as Np.
  destruct (handshake s1) as [s2|[|] s2|]; cbn [lift1] in H.
  - destruct (handshake (ext i2 s1)) as [s2'|e s2'|]; cbn [lift1] in H; try (destruct H; discriminate).
    destruct H as [H Hs]. injection H as ->. eapply trel_lift; [exact Hs|]. exact (loop_ext i2 _ _ s2 (Nat.lt_succ_diag_r _)).
  - right. cbn [xerr fst snd]. right.
    destruct (handshake (ext i2 s1)) as [s2'|e s2'|]; cbn [lift1 res_lost snd] in *; [|exact H|congruence].
    eapply lost_grows; [exact H|apply loop_grows].
  - right. destruct H as (s2'&H&He). destruct (handshake (ext i2 s1)) as [s3|e s3|]; cbn [lift1] in H; try discriminate.
    injection H as -> ->. split; [reflexivity|exact He].
  - right. destruct (handshake (ext i2 s1)) as [s3|e s3|]; cbn [lift1] in H; try discriminate. split; [reflexivity|apply eqo_ext].
Qed.

(* C02_cut.  A longer run that ends in XUnknown (the model's "date layout not modelled" verdict)
   forgets the turn in progress, hence its exclusion in the second clause. *)
Theorem exchange_cut cfg (I1 I2 : bytes) :
  ~ ends_eot I1 ->
  let o1 := exchange cfg I1 in
  let o2 := exchange cfg (I1 ++ I2) in
  (x_res o1 <> XConnLost -> same_obs o1 o2) /\
  (x_res o1 = XConnLost -> x_res o2 <> XUnknown -> continues o1 o2).
Proof.
  intros Hc. cbv zeta. rewrite !exchange_session, init_state_ext.
  destruct (session_ext cfg I2 (init_state cfg I1)) as [Ht|Ht]; [rewrite init_state_in in Ht; contradiction|].
  pose proof (session_via cfg (init_state cfg I1)) as (_&Hf&_).
  destruct (session cfg (init_state cfg I1)) as [r1 s3]. destruct (session cfg (ext I2 (init_state cfg I1))) as [r2 s3'].
  cbn [fst snd] in *. destruct r1; try contradiction.   (* XOutOfFuel: excluded by session_via *)
  - (* XNil *) destruct Ht as [-> ->]. split; [intros _; apply finish_same, eqo_ext|cbn; discriminate].
  - (* XConnLost *) split; [cbn; congruence|]. intros _ Hu. cbn [finish x_res] in Hu.
    destruct Ht as [Ht|Ht]; [contradiction|]. apply finish_lost. exact Ht.
  - (* XOther *) destruct Ht as [-> Ht]. split; [intros _; apply finish_same, Ht|cbn; discriminate].
  - (* XPanic *) destruct Ht as [-> Ht]. split; [intros _; apply finish_same, Ht|cbn; discriminate].
  - (* XUnknown *) destruct Ht as [-> Ht]. split; [intros _; apply finish_same, Ht|cbn; discriminate].
Qed.

(* the hypothesis ~ ends_eot I1 of exchange_cut cannot be dropped (cut_after_eot_counterexample).
   A receiver (master, empty outbox) is sent one proposal and the transfer of a message whose
   compressed form sums to 0 mod 256.  Cut right after the EOT of the transfer, the receiver
   takes the missing checksum byte for 0, hands the message to the handler and goes on to its
   own turn (it writes FF); had the next byte been 1, it would have refused the transfer.
   (With the genuine next byte, 0, both runs agree; a correct sender never produces the
   diverging continuation.) *)
Definition cx_msg : bytes :=       (* "Mid: ABC\r\nBody: 5\r\nDate: 2016/12/30 01:00\r\n\r\nhAR\r\n" *)
  [77;105;100;58;32;65;66;67;13;10;66;111;100;121;58;32;53;13;10;68;97;116;101;58;32;50;48;49;54;47;49;50;47;
   51;48;32;48;49;58;48;48;13;10;13;10;104;65;82;13;10].
Definition cx_cdata : bytes := Dec.compress true cx_msg.
Definition cx_side (master : bool) (outbox : list oprop) (policy : list (bytes * answer)) (fail : list bytes) : side_cfg :=
  {| c_master := master; c_motd := [];
     c_hs := {| hs_fw := [[76;65;49;66]]; hs_name := [119]; hs_version := [49]; hs_target := [88];
                hs_mycall := [76;65;49;66]; hs_locator := []; hs_master := master; hs_gzip := false; hs_cb := None |};
     c_handler := {| h_present := true; h_prepare_err := false; h_outbox := outbox; h_gone := [];
                     h_policy := policy; h_fail := fail |} |}.
Definition cx_prop : oprop :=
  {| o_mid := [65;66;67]; o_title := [116]; o_plain_title := [116]; o_size := 50; o_cdata := cx_cdata |}.
(* what the sending side (slave, one message) writes when it receives the receiver's handshake
   and the answer "FS +": handshake, proposal, F> line, the framed transfer ending in EOT 0 *)
Definition cx_stream : bytes :=
  x_wire (exchange (cx_side false [cx_prop] [] [])
                   (x_wire (exchange (cx_side true [] [] []) []) ++ [70;83;32;43;13])).
Definition cx_I1 : bytes := removelast cx_stream.

Lemma prefix_prefixb (a b : bytes) : prefix a b -> prefixb a b = true.
Proof. apply prefixb_iff. Qed.

Example cut_after_eot_counterexample :
  let cfg := cx_side true [] [] [] in
  let o1 := exchange cfg cx_I1 in
  let o2 := exchange cfg (cx_I1 ++ [1]) in
  ends_eot cx_I1 /\ x_res o1 = XConnLost /\ x_res o2 = XOther /\
  ~ prefix (x_wire o1) (x_wire o2) /\
  (exists d, In (EvProcess [65;66;67] d true) (x_events o1)) /\
  ~ (exists d, In (EvProcess [65;66;67] d true) (x_events o2)) /\
  same_obs o1 (exchange cfg (cx_I1 ++ [0])).
Proof.
  cbv zeta.
  (* the stream and the three runs are evaluated once each *)
  eassert (Ei : cx_I1 = _) by (vm_compute; reflexivity).
  eassert (E1 : exchange (cx_side true [] [] []) cx_I1 = _) by (rewrite Ei; vm_compute; reflexivity).
  eassert (E2 : exchange (cx_side true [] [] []) (cx_I1 ++ [1]) = _) by (rewrite Ei; vm_compute; reflexivity).
  eassert (E0 : exchange (cx_side true [] [] []) (cx_I1 ++ [0]) = _) by (rewrite Ei; vm_compute; reflexivity).
  split; [exists (removelast cx_I1); rewrite Ei; reflexivity|].
  rewrite E1, E2, E0. cbn [x_res x_wire x_events].
  split; [|split; [|split; [|split; [|split]]]].
  - reflexivity.
  - reflexivity.
  - intros H. apply prefix_prefixb in H. discriminate H.
  - eexists. do 2 right. left. reflexivity.
  - intros [d H]. repeat (destruct H as [H|H]; [discriminate|]). exact H.
  - repeat split.
Qed.

(* the events of a completely received block: one successful EvProcess per accepted proposal,
   in order, each for a payload that passed the frame checks (read_compressed) and
   decompressed and parsed (proposal_message) *)
Inductive block_processed : list iprop -> list event -> Prop :=
| bp_nil : block_processed [] []
| bp_skip p ps evs : i_answer p <> AAccept -> block_processed ps evs -> block_processed (p :: ps) evs
| bp_acc p ps evs mid data cdata :
    i_answer p = AAccept -> proposal_message cdata = MOk mid data -> Z.of_nat (length cdata) = i_csize p ->
    block_processed ps evs -> block_processed (p :: ps) (EvProcess mid data true :: evs).

Lemma take_n_length : forall n inp acc sum acc' rest sum',
  take_n n inp acc sum = Some (acc', rest, sum') -> length acc' = (n + length acc)%nat.
Proof.
  induction n as [|k IH]; intros inp acc sum acc' rest sum' H; cbn [take_n] in H.
  - inversion H; subst. reflexivity.
  - destruct inp as [|x r]; [discriminate|]. apply IH in H. cbn [length] in H. lia.
Qed.

Lemma read_compressed_ok_csize s p cdata s' :
  read_compressed s p = ROk (cdata, s') -> Z.of_nat (length cdata) = i_csize p.
Proof.
  intros H. destruct (read_compressed_ok _ _ _ _ H) as (hl&r1&title&r2&offs&r3&_&_&_&_&E&_).
  symmetry. exact (proj1 (read_frames_ok_facts _ _ _ _ _ _ _ E)).
Qed.

Lemma receive_accepted_silent : forall props s,
  match receive_accepted s props with
  | RcOk s' => s_out s' = s_out s /\ exists evs, s_ev s' = rev evs ++ s_ev s /\ block_processed props evs
  | RcErr _ s' => s_out s' = s_out s
  | RcPanic => True
  | RcUnknown => True
  end.
Proof.
  induction props as [|p r IH]; intros s; cbn [receive_accepted].
  { split; [reflexivity|]. exists []. split; [reflexivity|constructor]. }
  destruct (i_answer p) eqn:Ea.
  2,3: specialize (IH s); destruct (receive_accepted s r); try exact IH;
       destruct IH as (I1&evs&I2&I3); split; [exact I1|]; exists evs; split; [exact I2|];
       apply bp_skip; [congruence|exact I3].
  pose proof (read_compressed_eqo s p) as Hq. pose proof (read_compressed_ok_csize s p) as Hc.
  destruct (read_compressed s p) as [[cdata s1]|e s1|]; cbn [res_eqo] in Hq; [|symmetry; apply eqo_out, Hq|exact I].
  destruct (proposal_message cdata) as [mid data|e|] eqn:Em; [|symmetry; apply eqo_out, Hq|exact I].
  destruct (mem_bytes mid (h_fail (s_h s1))); [cbn [ev s_out]; symmetry; apply eqo_out, Hq|].
  specialize (IH (add_recv (ev s1 (EvProcess mid data (negb false))) (i_mid p))).
  destruct (receive_accepted _ r) as [s2|e s2| |]; try exact I.
  - destruct IH as (I1&evs&I2&I3). cbn [add_recv ev s_out s_ev negb] in *.
    split; [rewrite I1; symmetry; apply eqo_out, Hq|].
    exists (EvProcess mid data true :: evs). split.
    + rewrite I2. cbn [rev]. rewrite <- app_assoc. cbn [app]. rewrite (eqo_ev _ _ Hq). reflexivity.
    + eapply bp_acc; [exact Ea|exact Em|eapply Hc; reflexivity|exact I3].
  - cbn [add_recv ev s_out] in IH. rewrite IH. symmetry. apply eqo_out, Hq.
Qed.

(* everything my turn writes starts with a line that begins with 'F' (a proposal, FF or FQ) *)
Definition starts_with_F (w : list bytes) : Prop :=       (* w: the new writes, latest first *)
  exists w' r, w = w' ++ [70 :: r].

Lemma fold_wr_out {B} (f : B -> bytes) l : forall s,
  s_out (fold_left (fun acc x => wr acc (f x)) l s) = rev (map f l) ++ s_out s.
Proof.
  induction l as [|x l IH]; intros s; cbn [fold_left map rev]; [reflexivity|].
  rewrite IH. cbn [wr s_out]. rewrite <- app_assoc. reflexivity.
Qed.

Lemma handle_outbound_speaks s :
  match handle_outbound s with
  | ROk (_, s') => exists w, s_out s' = w ++ s_out s /\ starts_with_F w
  | RFail _ s' => exists w, s_out s' = w ++ s_out s /\ starts_with_F w
  | RPanic => True
  end.
Proof.
  pose proof (handle_outbound_grows s) as G. rewrite handle_outbound_eq in *.
  assert (E0 : s_out (snd (outbound s)) = s_out s) by (unfold outbound; destruct (h_present (s_h s)); reflexivity).
  destruct (outbound s) as [props s0]. cbn [snd] in E0.
  destruct props as [|p ps].
  { cbv zeta. exists [if s_remote_nomsgs s0 then [70; 81; 13] else [70; 70; 13]]. cbn [wr s_out]. rewrite E0.
    split; [reflexivity|].
    exists [], (if s_remote_nomsgs s0 then [81; 13] else [70; 13]). destruct (s_remote_nomsgs s0); reflexivity. }
  cbv zeta in *. set (block := firstn _ _) in *.
  assert (Hb : exists p' b', block = p' :: b') by (unfold block; change (N.to_nat MaxBlockSize) with 5%nat; cbn [firstn]; eauto).
  destruct Hb as (p'&b'&Hb).
  assert (H2 : exists w, s_out (ho_propose block s0) = w ++ s_out s /\ starts_with_F w).
  { unfold ho_propose. cbv zeta. cbn [wr s_out]. rewrite (fold_wr_out (fun l => l ++ [13])), E0.
    eexists. split; [rewrite app_comm_cons; reflexivity|]. rewrite Hb. cbn [map rev].
    eexists (_ :: _), _. unfold proposal_line. reflexivity. }
  destruct H2 as (w2&H2&F2).
  assert (Hg : forall s', grows (ho_propose block s0) s' -> exists w, s_out s' = w ++ s_out s /\ starts_with_F w).
  { intros s' ([x Hx]&_). rewrite Hx, H2. exists (x ++ w2). split; [apply app_assoc|].
    destruct F2 as (w'&r&->). exists (x ++ w'), r. apply app_assoc. }
  set (s2 := ho_propose block s0) in *.
  pose proof (read_reply_eqo (S (length (s_in s2))) s2) as Hr.
  destruct (read_reply _ s2) as [[reply s3]|e s3|]; cbn [res_eqo] in Hr; [|apply Hg, grows_eqo, Hr|exact I].
  pose proof (ho_transfer_grows block reply s3) as Gt.
  destruct (ho_transfer block reply s3) as [[q s4]|e s4|]; cbn [res_grows] in Gt; try exact I;
    apply Hg; (eapply grows_trans; [apply grows_eqo, Hr|exact Gt]).
Qed.

(* C02_receiver_half.  Consider the peer's turn from state s: the proposal loop ends in state s1
   with the answered block props (the FS line, if any, is the last thing written in s1).
   Whatever the rest of the session does, the writes that follow s1 are
   - none at all (link lost, or an error: Exchange then only sends its error report, which
     begins with '*', see finish_echo below), or
   - they begin with a line starting with 'F' -- and then every accepted proposal of the block
     was received completely, passed all checks and was stored successfully before that line. *)
Theorem receiver_half f s q props s1 :
  inbound_loop (S (length (s_in s))) s [] [] = ROk (q, props, s1) ->
  let t := turns (S f) false s in
  exists w, s_out (snd t) = w ++ s_out s1 /\
    (w = [] \/
     (starts_with_F w /\
      exists s2 evs, receive_accepted s1 props = RcOk s2 /\ s_out s2 = s_out s1 /\
                     s_ev s2 = rev evs ++ s_ev s1 /\ block_processed props evs /\
                     pre (s_ev s2) (s_ev (snd t)))).
Proof.
  intros E. cbv zeta. cbn [turns]. rewrite E.
  pose proof (receive_accepted_silent props s1) as H.
  destruct (receive_accepted s1 props) as [s2|e s2| |]; cbn [snd].
  - destruct H as (H1&evs&H2&H3). destruct q; [exists []; split; [exact H1|left; reflexivity]|].
    destruct f as [|f]; [exists []; split; [exact H1|left; reflexivity]|]. cbn [turns].
    pose proof (handle_outbound_speaks s2) as Hs. pose proof (handle_outbound_grows s2) as Hg.
    assert (K : forall s3 s', grows s2 s3 -> grows s3 s' ->
              (exists w, s_out s3 = w ++ s_out s2 /\ starts_with_F w) ->
              exists w, s_out s' = w ++ s_out s1 /\
                (w = [] \/ starts_with_F w /\
                   exists s2' evs', RcOk s2 = RcOk s2' /\ s_out s2' = s_out s1 /\
                     s_ev s2' = rev evs' ++ s_ev s1 /\ block_processed props evs' /\ pre (s_ev s2') (s_ev s'))).
    { intros s3 s' G3 G' (w&Hw&Fw). destruct G' as ([x Hx]&Ge&_).
      exists (x ++ w). split; [rewrite Hx, Hw, H1; apply app_assoc|]. right. split.
      - destruct Fw as (w'&r&->). exists (x ++ w'), r. apply app_assoc.
      - exists s2, evs. repeat split; try assumption. eapply pre_trans; [apply G3|exact Ge]. }
    destruct (handle_outbound s2) as [[q2 s3]|e s3|]; cbn [res_grows snd] in *.
    + destruct q2; [apply (K s3 s3); [exact Hg|gr|exact Hs]|].
      apply (K s3 _ Hg); [apply turns_grows|exact Hs].
    + apply (K s3 s3); [exact Hg|gr|exact Hs].
    + exists []. split; [exact H1|left; reflexivity].
  - exists []. split; [exact H|left; reflexivity].
  - exists []. split; [reflexivity|left; reflexivity].
  - exists []. split; [reflexivity|left; reflexivity].
Qed.

(* what Exchange adds after the loop: nothing, or the error report "*** ..." *)
Lemma finish_echo n r s :
  x_wire (finish n r s) = concat (rev' (s_out s)) \/
  (r = XOther /\ x_wire (finish n r s) = concat (rev' (s_out s)) ++ 42 :: tl echo).
Proof.
  unfold finish. destruct r; cbn [x_wire]; try (left; reflexivity).
  right. split; [reflexivity|]. cbn [wr s_out]. rewrite !rev'_rev. cbn [rev]. rewrite concat_app. cbn [concat].
  rewrite app_nil_r. reflexivity.
Qed.

Lemma set_in_self s : set_in s (s_in s) = s.
Proof. destruct s; reflexivity. Qed.
Lemma ext_set_in s i k : s_in s = i ++ k -> ext k (set_in s i) = s.
Proof. intros H. unfold ext. cbn [set_in s_in]. rewrite <- H. change (set_in s (s_in s) = s). apply set_in_self. Qed.
Lemma ext_inv s' s1 j k : s' = ext k s1 -> s_in s' = j ++ k -> s1 = set_in s' j.
Proof.
  intros -> H. cbn [ext set_in s_in] in H. apply app_inv_tail in H. subst j.
  change (s1 = set_in s1 (s_in s1)). symmetry. apply set_in_self.
Qed.

Lemma not_ends_eot_cr x : ~ ends_eot (x ++ [13]).
Proof.
  intros [p H]. apply (f_equal (@rev N)) in H. rewrite !rev_app_distr in H. cbn in H. discriminate.
Qed.

(* s' reports no message sent that s has not reported *)
Definition nm (s s' : sess) : Prop :=
  forall m, In (EvSetSent m false) (s_ev s') -> In (EvSetSent m false) (s_ev s).
Lemma nm_refl s : nm s s. Proof. intros m H; exact H. Qed.
Lemma nm_trans a b c : nm a b -> nm b c -> nm a c. Proof. intros H1 H2 m H. apply H1, H2, H. Qed.
Lemma nm_eqo a b : eqo a b -> nm a b. Proof. intros H m. rewrite (eqo_ev _ _ H). auto. Qed.
Lemma nm_ev a s e : (forall m, e <> EvSetSent m false) -> nm a s -> nm a (ev s e).
Proof. intros He H m [Hi|Hi]; [exfalso; eapply He; exact Hi|apply H, Hi]. Qed.

Definition res_nm {A} (s : sess) (r : res sess (A * sess)) : Prop :=
  match r with ROk (_, s') => nm s s' | RFail _ s' => nm s s' | RPanic => True end.
Lemma res_eqo_nm {A} s (r : res sess (A * sess)) : res_eqo s r -> res_nm s r.
Proof. destruct r as [[a s']|e s'|]; cbn; auto using nm_eqo. Qed.
Definition nomark (e : event) : Prop := forall m, e <> EvSetSent m false.

Lemma tame_nomark e : tame e -> nomark e.
Proof. intros H m ->. exact H. Qed.

Lemma via_nm s s' : via nomark s s' -> nm s s'.
Proof.
  intros A m H. destruct (via_log _ _ _ A) as (E&HE&F&_). rewrite HE in H. apply in_app_or in H. destruct H as [H|H]; [|exact H].
  rewrite Forall_forall in F. destruct (F _ H m eq_refl).
Qed.
Lemma via_tame_nm (P : event -> Prop) s s' : (forall e, P e -> tame e) -> via P s s' -> nm s s'.
Proof. intros H A. apply via_nm. eapply via_mono; [|exact A]. intros e K. apply tame_nomark, H, K. Qed.

Lemma outbound_nm s : nm s (snd (outbound s)).
Proof.
  apply (via_tame_nm sends _ _ sends_tame), (does_via _ _ _ _ (outbound_does s)). destruct (h_present (s_h s)); repeat constructor.
Qed.
Lemma mark_rej_nm sent : forall s, nm s (mark_rej sent s).
Proof. intros s. exact (via_tame_nm _ _ _ sends_tame (does_via _ _ _ _ (mark_rej_does sent s) (marks_true_sends sent))). Qed.

Lemma handle_outbound_fail_nm s e s' : handle_outbound s = RFail e s' -> nm s s'.
Proof. intros H. pose proof (handle_outbound_via s) as A. rewrite H in A. exact (via_tame_nm _ _ _ sends_tame A). Qed.

Lemma handshake_nm s : res_nm s (lift1 (handshake s)).
Proof.
  pose proof (handshake_quiet s) as A.
  destruct (handshake s); cbn in *; [| |exact I]; destruct A as (p&w&D); exact (via_nm _ _ (does_via _ _ _ _ D (Forall_nil _))).
Qed.

(* a completed transfer phase has peeked at a byte 'F' or ';' that is still unread *)
Lemma ho_transfer_ok_peek block reply s3 q s' :
  ho_transfer block reply s3 = ROk (q, s') ->
  exists c k', s_in s3 = c :: k' /\ s_in s' = c :: k' /\ (c = 70 \/ c = 59).
Proof.
  unfold ho_transfer. destruct (slice_from 3 reply) as [astr|]; [|discriminate].
  destruct (parse_answers _ astr _ []) as [ans|]; [|discriminate].
  pose proof (send_accepted_does block s3 ans []) as Hi.
  destruct (send_accepted s3 block ans []) as [[s4 sr]|e4 s4|]; [| discriminate|discriminate].
  destruct Hi as (w&E0&Hi&_). apply does_in in Hi. cbn [act e_rd app] in Hi.
  unfold ho_peek. cbv zeta.
  pose proof (mark_rej_in (rev' sr) s4) as E5.
  destruct (s_in (mark_rej (rev' sr) s4)) as [|b r] eqn:E; [discriminate|].
  destruct (negb ((b =? 70) || (b =? 59))) eqn:Eb.
  - destruct (next_line true _) as [[l sx]|e' sx|]; discriminate.
  - intros H; inversion H; subst. exists b, r. cbn [ev s_in]. rewrite mark_sent_in, E.
    split; [congruence|]. split; [reflexivity|].
    apply negb_false_iff, orb_true_iff in Eb. destruct Eb as [Eb|Eb]; apply N.eqb_eq in Eb; auto.
Qed.

Lemma handle_outbound_ok_cr s q s' mid :
  handle_outbound s = ROk (q, s') -> In (EvSetSent mid false) (s_ev s') -> ~ In (EvSetSent mid false) (s_ev s) ->
  exists p0 c k', s_in s = (p0 ++ [13]) ++ c :: k' /\ s_in s' = c :: k' /\ (c = 70 \/ c = 59).
Proof.
  rewrite handle_outbound_eq. pose proof (outbound_nm s) as N0. pose proof (eq_sym (does_in _ _ _ (outbound_does s)) : s_in (snd (outbound s)) = s_in s) as E0.
  destruct (outbound s) as [props s0]. cbn [snd] in *.
  destruct props as [|p ps].
  { cbv zeta. intros H Hi Hn; inversion H; subst. exfalso. apply Hn, N0, Hi. }
  cbv zeta. set (block := firstn _ _). pose proof (eq_sym (does_in _ _ _ (ho_propose_does block s0)) : s_in (ho_propose block s0) = s_in s0) as E2.
  destruct (read_reply _ _) as [[reply s3]|e3 s3|] eqn:Er; [|discriminate|discriminate].
  intros H _ _. apply read_reply_cr in Er. destruct Er as [p0 Er].
  apply ho_transfer_ok_peek in H. destruct H as (c&k'&H3&H'&Hc).
  exists p0, c, k'. rewrite <- E0, <- E2, Er, H3. auto.
Qed.

(* relx read backwards: the run on the longer input has passed the phase, so the shorter one passes it in the same way,
   or the link is lost there *)
Lemma relx_back {A} i2 s (r1 : res sess (A * sess)) a s2 :
  relx i2 s r1 (ROk (a, s2)) ->
  (exists s1, r1 = ROk (a, s1) /\ s2 = ext i2 s1) \/ (exists s1, r1 = RFail EConnLost s1 /\ lost s1 s2).
Proof.
  unfold relx. destruct r1 as [[a1 s1]|[|] s1|].
  - intros [H _]. injection H as -> ->. left. eauto.
  - intros H. right. eauto.
  - intros (sx&H&_). discriminate.
  - discriminate.
Qed.

(* the marking turn, cut: had the input ended just before the peeked byte, the turn would
   have failed with a lost link and marked nothing *)
Lemma handle_outbound_mark s q s' mid :
  handle_outbound s = ROk (q, s') -> In (EvSetSent mid false) (s_ev s') -> ~ In (EvSetSent mid false) (s_ev s) ->
  exists p0 c k', s_in s = (p0 ++ [13]) ++ c :: k' /\ (c = 70 \/ c = 59) /\
    exists s1, handle_outbound (set_in s (p0 ++ [13])) = RFail EConnLost s1 /\ nm s s1 /\ lost s1 s'.
Proof.
  intros H Hi Hn. destruct (handle_outbound_ok_cr _ _ _ _ H Hi Hn) as (p0&c&k'&E&E'&Hc).
  exists p0, c, k'. split; [exact E|]. split; [exact Hc|].
  pose proof (handle_outbound_extx (c :: k') (set_in s (p0 ++ [13]))) as R. rewrite (ext_set_in s _ _ E), H in R.
  destruct (relx_back _ _ _ _ _ R) as [(s1&Es&->)|(s1&Es&L)].
  - (* the cut turn cannot have gone on: it has nothing to peek at *)
    exfalso. destruct (handle_outbound_ok_cr _ _ _ _ Es Hi Hn) as (_&c'&k''&_&E2&_).
    cbn [ext set_in s_in] in E'. rewrite E2 in E'. change (c :: k') with ([] ++ c :: k') in E' at 2.
    apply app_inv_tail in E'. discriminate E'.
  - exists s1. split; [exact Es|]. split; [exact (handle_outbound_fail_nm _ _ _ Es)|exact L].
Qed.

Lemma event_eq_dec : forall a b : event, {a = b} + {a <> b}.
Proof.
  assert (Hb : forall a b : bytes, {a = b} + {a <> b}) by (apply list_eq_dec, N.eq_dec).
  decide equality; try apply Hb; try apply Bool.bool_dec; decide equality.
Qed.

Lemma lost_nomark s1 s' e : e <> EvBlockEnd -> lost s1 s' -> ~ In e (s_ev s') -> ~ In e (s_ev s1).
Proof.
  intros He (_&[[x Hx]|(e0&E&[x Hx])]&_) Hn Hi; apply Hn; rewrite Hx; apply in_or_app; right; [exact Hi|].
  rewrite E in Hi. destruct Hi as [Hi|Hi]; [congruence|exact Hi].
Qed.

Lemma turn_nm my s : match turn my s with inl (_, s') => nm s s' | inr s' => my = false -> nm s s' end.
Proof.
  pose proof (turn_via my s) as A.
  destruct (turn my s) as [[r s']|s']; [exact (via_tame_nm _ _ _ (fun e H => H) (proj2 (proj2 A)))|].
  intros ->. refine (via_tame_nm _ _ _ _ A). intros e [He|[X _]]; [exact He|discriminate X].
Qed.

Lemma turn_sfx my s s' : turn my s = inr s' -> sfx (s_in s') (s_in s).
Proof.
  intros H. pose proof (turn_via my s) as A. rewrite H in A. exact (via_in _ _ _ A).
Qed.

(* the turn, or the handshake, of the longer input read backwards: the shorter input passes it in the same way, or
   the link is lost there *)
Lemma turn_back k my s s' : ~ ends_eot (s_in s) -> turn my (ext k s) = inr s' ->
  (exists s1, turn my s = inr s1 /\ s' = ext k s1) \/ (exists s1, turn my s = inl (XConnLost, s1) /\ lost s1 s').
Proof.
  intros Hc H. destruct (turn_ext k my s) as [R|R]; [contradiction|]. rewrite H in R.
  destruct (turn my s) as [[r1 s1]|s1].
  - right. destruct r1; [discriminate R|exists s1; split; [reflexivity|exact R]|destruct R as (s2&R&_); discriminate R..].
  - left. destruct R as [R _]. injection R as ->. exists s1. split; reflexivity.
Qed.

Lemma hs_back i2 s s2 : handshake (ext i2 s) = ROk s2 ->
  (exists s1, handshake s = ROk s1 /\ s2 = ext i2 s1) \/ (exists s1, handshake s = RFail EConnLost s1 /\ lost s1 s2).
Proof.
  intros H. pose proof (handshake_extx i2 s) as R. rewrite H in R. apply relx_back in R.
  destruct (handshake s) as [s0|e s0|]; destruct R as [(s1&R&E)|(s1&R&L)]; try discriminate R.
  - injection R as <-. left. eauto.
  - injection R as -> <-. right. eauto.
Qed.

(* the loop that reports mid sent, cut just before the byte at which the marking turn peeked: the link is lost in
   that turn or in an earlier one, nothing is marked, and the whole run continues the cut one *)
Lemma turns_sent mid : forall n (my : bool) s, (2 * inlen s + (if my then 1 else 0) < n)%nat ->
  In (EvSetSent mid false) (s_ev (snd (loop my s))) -> ~ In (EvSetSent mid false) (s_ev s) ->
  exists i0 c i2, s_in s = (i0 ++ [13]) ++ c :: i2 /\ (c = 70 \/ c = 59) /\
    fst (loop my (set_in s (i0 ++ [13]))) = XConnLost /\
    ~ In (EvSetSent mid false) (s_ev (snd (loop my (set_in s (i0 ++ [13]))))) /\
    lost (snd (loop my (set_in s (i0 ++ [13])))) (snd (loop my s)).
Proof.
  assert (Hmk : EvSetSent mid false <> EvBlockEnd) by discriminate.
  induction n as [|n IH]; intros my s Hn Hin Hni; [lia|].
  rewrite loop_eq in Hin |- *. pose proof (turn_nm my s) as Nm.
  destruct (turn my s) as [[r s']|s'] eqn:Et.
  { cbn [snd] in Hin. apply Nm in Hin. contradiction. }
  destruct (in_dec event_eq_dec (EvSetSent mid false) (s_ev s')) as [Hm|Hm].
  - (* the mark was recorded in this turn, which is mine *)
    destruct my; [|exfalso; apply Hni, (Nm eq_refl), Hm].
    unfold turn in Et. destruct (handle_outbound s) as [[[|] sx]|e sx|] eqn:Eh; try discriminate. injection Et as ->.
    destruct (handle_outbound_mark _ _ _ _ Eh Hm Hni) as (p0&c&k'&E&Hc&s1&Es&N1&L).
    exists p0, c, k'. split; [exact E|]. split; [exact Hc|]. rewrite loop_eq. unfold turn. rewrite Es. cbn [xerr fst snd].
    split; [reflexivity|]. split; [intros X; apply Hni, N1, X|]. eapply lost_grows; [exact L|apply loop_grows].
  - (* it was recorded later: cut there, this turn is the same up to the input left *)
    pose proof (turn_inlen _ _ _ Et) as Hl.
    destruct (IH (negb my) s' ltac:(destruct my; cbn [negb]; lia) Hin Hm) as (i0'&c&i2&E'&Hc&IHs).
    destruct (turn_sfx _ _ _ Et) as [p Ep].
    assert (E : s_in s = ((p ++ i0') ++ [13]) ++ c :: i2) by (rewrite Ep, E', !app_assoc; reflexivity).
    exists (p ++ i0'), c, i2. split; [exact E|]. split; [exact Hc|]. rewrite (loop_eq my (set_in _ _)).
    rewrite <- (ext_set_in s _ _ E) in Et.
    destruct (turn_back (c :: i2) my (set_in s ((p ++ i0') ++ [13])) s' (not_ends_eot_cr _) Et) as [(s1&->&H1)|(s1&->&L)].
    + rewrite (ext_inv _ _ _ _ H1 E'). exact IHs.
    + cbn [fst snd]. split; [reflexivity|]. split; [eapply lost_nomark; eassumption|].
      eapply lost_grows; [exact L|apply loop_grows].
Qed.

(* the same for the exchange up to its report: the handshake reads first *)
Lemma session_sent cfg mid s :
  In (EvSetSent mid false) (s_ev (snd (session cfg s))) -> ~ In (EvSetSent mid false) (s_ev s) ->
  exists i0 c i2, s_in s = (i0 ++ [13]) ++ c :: i2 /\ (c = 70 \/ c = 59) /\
    fst (session cfg (set_in s (i0 ++ [13]))) = XConnLost /\
    ~ In (EvSetSent mid false) (s_ev (snd (session cfg (set_in s (i0 ++ [13]))))) /\
    lost (snd (session cfg (set_in s (i0 ++ [13])))) (snd (session cfg s)).
Proof.
  unfold session. destruct (h_present (c_handler cfg) && h_prepare_err (c_handler cfg)); [intros H Hn; contradiction|].
  pose proof (handshake_nm s) as Nh.
  destruct (handshake s) as [s2|e s2|] eqn:Eh; cbn [lift1 res_nm snd] in *; [|intros H Hn; exfalso; auto..].
  intros Hin Hni.
  destruct (turns_sent mid _ _ s2 (Nat.lt_succ_diag_r _) Hin (fun X => Hni (Nh _ X))) as (i0&c&i2&E2&Hc&T1&T2&T3).
  assert (Sf : sfx (s_in s2) (s_in s)).
  { pose proof (handshake_quiet s) as A. rewrite Eh in A. destruct A as (p&w&D). exists p. exact (does_in _ _ _ D). }
  destruct Sf as [p Ep].
  assert (E : s_in s = ((p ++ i0) ++ [13]) ++ c :: i2) by (rewrite Ep, E2, !app_assoc; reflexivity).
  exists (p ++ i0), c, i2. split; [exact E|]. split; [exact Hc|].
  rewrite <- (ext_set_in s _ _ E) in Eh. pose proof (handshake_nm (set_in s ((p ++ i0) ++ [13]))) as NhS.
  destruct (hs_back _ _ _ Eh) as [(s1&Hs&H1)|(s1&Hs&L)]; rewrite Hs in NhS |- *; cbn [lift1 res_nm] in NhS.
  - rewrite (ext_inv _ _ _ _ H1 E2). auto.
  - cbn [xerr fst snd]. split; [reflexivity|]. split; [intros X; exact (Hni (NhS _ X))|].
    eapply lost_grows; [exact L|apply loop_grows].
Qed.

Lemma finish_events n r s : x_events (finish n r s) = rev (s_ev s).
Proof. unfold finish. cbn [x_events]. rewrite rev'_rev. destruct r; reflexivity. Qed.

Lemma finish_res n r s : x_res (finish n r s) = r.
Proof. reflexivity. Qed.

(* C02_sender_half.  If a session reports the message mid sent, its input contains a byte c = 'F'
   or ';' -- the first byte of the peer's next command -- such that the same session cut just
   before c ends with a lost link and has NOT reported mid sent; what the cut session wrote is
   an initial part of what the full session wrote.  (By turns_sent the bytes before c end with
   the CR of the peer's FS answer.)  Not claimed: that the cut session has written the complete framed transfer
   of mid; that would need the converse of the f_ext lemmas (a run that leaves k unread behaves the
   same without k).  The theorem speaks of the one cut just before c; a run cut at an earlier position is
   related to that one by exchange_cut. *)
Theorem sent_only_after_next_command cfg (I : bytes) mid :
  In (EvSetSent mid false) (x_events (exchange cfg I)) ->
  exists I1 c I2, I = I1 ++ c :: I2 /\ (c = 70 \/ c = 59) /\
    x_res (exchange cfg I1) = XConnLost /\
    ~ In (EvSetSent mid false) (x_events (exchange cfg I1)) /\
    prefix (x_wire (exchange cfg I1)) (x_wire (exchange cfg I)).
Proof.
  rewrite (exchange_session cfg I). destruct (session cfg (init_state cfg I)) as [r s3] eqn:Es.
  rewrite finish_events, <- in_rev. intros Hin.
  destruct (session_sent cfg mid (init_state cfg I)) as (i0&c&i2&E&Hc&T1&T2&T3).
  { rewrite Es. exact Hin. }
  { unfold init_state. destruct (h_present (c_handler cfg)); cbn; intuition discriminate. }
  rewrite init_state_in in E. rewrite init_state_set_in, Es in *. cbn [snd] in T3.
  exists (i0 ++ [13]), c, i2. split; [exact E|]. split; [exact Hc|]. rewrite exchange_session.
  destruct (session cfg (init_state cfg (i0 ++ [13]))) as [r1 s1]. cbn [fst snd] in *. subst r1.
  split; [reflexivity|]. split; [rewrite finish_events, <- in_rev; exact T2|].
  apply (finish_lost (length (i0 ++ [13])) (length I) r) in T3. apply T3.
Qed.

(* two-party safety without a hypothesis on the outbox is false (Properties/C02.v, C02_first_statement_refuted):
   nothing ties the MID a proposal announces to the MID inside its compressed message *)
Definition two_party_safety_as_stated : Prop :=
  forall (a b : side_cfg) (in_a : bytes) (k : nat) (mid : bytes),
    let oa := exchange a in_a in
    In (EvSetSent mid false) (x_events oa) ->
    in_a = firstn (length in_a) (x_wire (exchange b (firstn k (x_wire oa)))) ->
    exists data, In (EvProcess mid data true) (x_events (exchange b (firstn k (x_wire oa)))).

(* the outbox entry announces MID "XYZ" but carries the message whose Mid header is "ABC":
   the sender reports XYZ sent, the receiver stores ABC *)
Definition cx_bad_prop : oprop :=
  {| o_mid := [88;89;90]; o_title := [116]; o_plain_title := [116]; o_size := 50; o_cdata := cx_cdata |}.

Example two_party_safety_as_stated_is_false : ~ two_party_safety_as_stated.
Proof.
  intros H.
  pose (a := cx_side false [cx_bad_prop] [] []). pose (b := cx_side true [] [] []).
  pose (in_a := x_wire (exchange b []) ++ [70;83;32;43;13; 70;70;13]).
  specialize (H a b in_a 1000%nat [88;89;90]). cbv zeta in H.
  (* each of the two runs is evaluated once *)
  eassert (Ea : exchange a in_a = _) by (vm_compute; reflexivity).
  eassert (Eb : exchange b (firstn 1000 (x_wire (exchange a in_a))) = _) by (rewrite Ea; vm_compute; reflexivity).
  rewrite Eb, Ea in H. cbn [x_events x_wire] in H.
  destruct H as [data H].
  - do 2 right. left. reflexivity.
  - vm_compute. reflexivity.
  - repeat (destruct H as [H|H]; [discriminate|]). exact H.
Qed.

(* that tie as a hypothesis on a's outbox (outbox_wf) and opposite roles do not suffice either
   (PairP.two_party_safety_corrected_is_false_motd, _mid); PairP.two_party_safety_intact has
   hypotheses that do *)
Definition outbox_wf (h : hstate) : Prop :=
  forall p, In p (h_outbox h) -> exists data, proposal_message (o_cdata p) = MOk (o_mid p) data.
Definition two_party_safety_corrected : Prop :=
  forall (a b : side_cfg) (in_a : bytes) (k : nat) (mid : bytes),
    c_master a = negb (c_master b) -> outbox_wf (c_handler a) ->
    let oa := exchange a in_a in
    In (EvSetSent mid false) (x_events oa) ->
    in_a = firstn (length in_a) (x_wire (exchange b (firstn k (x_wire oa)))) ->
    exists data, In (EvProcess mid data true) (x_events (exchange b (firstn k (x_wire oa)))).

Print Assumptions exchange_cut.
Print Assumptions cut_after_eot_counterexample.
Print Assumptions receiver_half.
Print Assumptions receive_accepted_silent.
Print Assumptions turns_sent.
Print Assumptions sent_only_after_next_command.
Print Assumptions two_party_safety_as_stated_is_false.
