(* B2F/PairDefs.v -- shared definitions for the two-party development (B2F/PairLines.v,
   B2F/PairXfer.v, B2F/PairP.v): the bytes a side has written, syntactic well-formedness of a
   prepared proposal, the proposal a receiver reconstructs from a sender's proposal line, and the
   byte strings the sender's phases put on the wire.  wire, init_state and proposal_bytes also serve the
   proofs about one side (B2F/SideP.v, B2F/CutP.v).  Definitions only. *)
From Coq Require Import List NArith ZArith Bool.
From Verif Require Import Base.Bytes gen.Tables Msg.Message B2F.Secure B2F.Side.
Import ListNotations.
Open Scope N_scope.

(* everything written so far, in order *)
Definition wire (s : sess) : bytes := concat (rev (s_out s)).

(* limits on the fields of a prepared proposal: the MID contains neither CR nor space (it is one
   field of a space separated line), the compressed message has at least the 6 byte header the
   writer insists on, and its length fits Go's int.  (Nothing is asked of the title: a title
   with a NUL among the 80 bytes sent makes the receiver refuse the transfer.) *)
Definition mid_ok (m : bytes) : Prop := ~ In 13 m /\ ~ In 32 m.
Definition prop_syn (p : oprop) : Prop :=
  mid_ok (o_mid p) /\
  (6 <= length (o_cdata p))%nat /\ (Z.of_nat (length (o_cdata p)) <= 9223372036854775807)%Z.

(* what parse_proposal makes of proposal_line p, with answer a *)
Definition iprop_of (p : oprop) (a : answer) : iprop :=
  {| i_code := Wl2kProposal; i_mid := o_mid p; i_size := atoi_ignore_err (dec_of_N (o_size p));
     i_csize := Z.of_nat (length (o_cdata p)); i_answer := a |}.
Definition zip_props (block : list oprop) (answers : list answer) : list iprop :=
  map (fun pa => iprop_of (fst pa) (snd pa)) (combine block answers).

(* the proposal block on the wire: one line per proposal, then the checksum line *)
Definition proposal_bytes (block : list oprop) : bytes :=
  let lines := map proposal_line block in
  concat (map (fun l => l ++ [13]) lines) ++ [70; 62; 32] ++ fmt_02X (block_checksum lines) ++ [13].

(* the answer line on the wire *)
Definition fs_line (answers : list answer) : bytes := [70; 83; 32] ++ map answer_byte answers ++ [13].

(* one framed transfer at offset 0 *)
Definition xfer_bytes (p : oprop) : bytes :=
  let title := firstn 80 (o_title p) in
  let d := o_cdata p in
  [CHRSOH; N.of_nat (length title + 3)] ++ title ++ [CHRNUL; 48; CHRNUL] ++
  data_chunks (S (length d)) d ++ [CHREOT; (256 - sumN d mod 256) mod 256].

(* the transfers of a block: one per accepted proposal, in order *)
Fixpoint xfers (block : list oprop) (answers : list answer) : bytes :=
  match block, answers with
  | p :: ps, a :: r => (match a with AAccept => xfer_bytes p | _ => [] end) ++ xfers ps r
  | _, _ => []
  end.

(* the (MID, rejected) list send_accepted accumulates, in order *)
Fixpoint sent_of (block : list oprop) (answers : list answer) : list (bytes * bool) :=
  match block, answers with
  | p :: ps, a :: r =>
      (match a with AAccept => [(o_mid p, false)] | AReject => [(o_mid p, true)] | ADefer => [] end)
      ++ sent_of ps r
  | _, _ => []
  end.

(* the state in which Exchange starts the handshake *)
Definition init_state (cfg : side_cfg) (input : bytes) : sess :=
  let s0 := {| s_in := input; s_out := []; s_ev := []; s_h := c_handler cfg; s_master := c_master cfg;
               s_remote_nomsgs := false; s_sent := []; s_recv := []; s_cfg := c_hs cfg; s_motd := c_motd cfg |} in
  if h_present (c_handler cfg) then ev s0 EvPrepare else s0.


(* COMPATIBLE HANDSHAKES.  m is the master, s the slave.  Fed the slave's greeting S followed by
   the first byte 'F' of a command, the master's handshake succeeds, has written M and stops in
   front of that byte; fed M, the slave's handshake succeeds, has read all of it and has written S.
   (Decidable by computation for given configurations, see hs_compat_cx.) *)
Definition hs_compat (m s : side_cfg) : Prop :=
  exists M S sm ss,
    handshake (init_state m (S ++ [70])) = ROk sm /\ s_in sm = [70] /\ wire sm = M /\
    handshake (init_state s M) = ROk ss /\ s_in ss = [] /\ wire ss = S.

