(* B2F/ConvergeP.v -- C02, convergence: a faulty session (cut after any number of bytes in either direction,
   or with a failing store) followed by a complete session of the mailboxes it leaves (next_cfg).  Nothing is
   assumed about the first session to get the second: the next mailboxes of two sound sides are always a ready
   pair, so DeliverP.complete_exchange_delivers applies, and `resumed` reads off what it does with the entries
   of the ORIGINAL outboxes.  The cut enters only through PairP.two_party_safety_intact (sent only if
   received), used in both directions.  For the files that follow: `leaves` (next_cfg up to the storage faults
   of the session to come) and sound_pair (what every session leaves intact).  At the end, closed runs: cv_run,
   a cut session and the complete one after it, evaluated through base_run / cut_on / full_run so that no
   session is evaluated twice. *)
From Coq Require Import List NArith ZArith Bool Lia ZifyN ZifyNat ZifyBool Sorting.Permutation.
From Verif Require Import Base.Bytes Base.BytesP gen.Tables Lzhuf.Dec Msg.Message B2F.Secure B2F.Side B2F.SideP
  B2F.TermP B2F.CodecP B2F.CutP B2F.PairDefs B2F.PairLines B2F.PairXfer B2F.PairHs B2F.PairP B2F.PairIter B2F.DeliverP.
Import ListNotations.
Open Scope N_scope.

Definition sent_ev (m : bytes) (e : event) : bool :=
  match e with EvSetSent m' _ => beq_bytes m' m | _ => false end.
Definition stored_ev (m : bytes) (e : event) : bool :=
  match e with EvProcess m' _ true => beq_bytes m' m | _ => false end.
Definition sent_in (E : list event) (m : bytes) : bool := existsb (sent_ev m) E.
Definition stored_in (E : list event) (m : bytes) : bool := existsb (stored_ev m) E.
Definition stored_mids (E : list event) : list bytes :=
  flat_map (fun e => match e with EvProcess m _ true => [m] | _ => [] end) E.

(* the mailbox after a session with outcome o, as the directory mailbox behaves: an entry is removed from the
   outbox when SetSent was called for its MID (either flag), SetDeferred keeps it there; every MID of a successful
   ProcessInbound is answered "reject" from now on; the marks of the session (h_gone) and the storage fault
   (h_fail) are gone.  In /repo/mailbox/syncdir.go: SetSent renames out/<mid> to sent/ whatever the flag;
   SetDeferred only writes a map in memory, which Prepare makes anew; GetInboundAnswer rejects iff in/<mid>
   exists, where ProcessInbound wrote it (so this assumes that nothing takes the file out of in/ again) *)
Definition next_handler (h : hstate) (o : outcome) : hstate :=
  {| h_present := h_present h; h_prepare_err := h_prepare_err h;
     h_outbox := filter (fun p => negb (sent_in (x_events o) (o_mid p))) (h_outbox h);
     h_gone := [];
     h_policy := map (fun m => (m, AReject)) (stored_mids (x_events o)) ++ h_policy h;
     h_fail := [] |}.
Definition next_cfg (c : side_cfg) (o : outcome) : side_cfg :=
  {| c_master := c_master c; c_motd := c_motd c; c_hs := c_hs c; c_handler := next_handler (c_handler c) o |}.

Definition pol_go (mid : bytes) : list (bytes * answer) -> answer :=
  fix go (l : list (bytes * answer)) : answer :=
    match l with
    | [] => AAccept
    | (m, a) :: r => if beq_bytes m mid then a else go r
    end.
Lemma policy_of_go h mid : policy_of h mid = pol_go mid (h_policy h).
Proof. reflexivity. Qed.

Lemma stored_in_mids E m : stored_in E m = mem_bytes m (stored_mids E).
Proof.
  unfold stored_in, stored_mids. induction E as [|e E IH]; [reflexivity|].
  cbn [existsb flat_map]. unfold mem_bytes in *. rewrite existsb_app, <- IH. f_equal.
  destruct e as [| | | | |m' d [|]|]; try reflexivity.
  cbn [stored_ev existsb]. rewrite orb_false_r. apply beq_bytes_sym.
Qed.

Lemma pol_go_rejects mid L l :
  pol_go mid (map (fun m => (m, AReject)) L ++ l) = if mem_bytes mid L then AReject else pol_go mid l.
Proof.
  induction L as [|m L IH]; [reflexivity|]. cbn [map app pol_go mem_bytes existsb].
  fold (pol_go mid). fold (mem_bytes mid L). rewrite (beq_bytes_sym mid m).
  destruct (beq_bytes m mid); [reflexivity|exact IH].
Qed.

Lemma policy_of_next h o m :
  policy_of (next_handler h o) m = if stored_in (x_events o) m then AReject else policy_of h m.
Proof.
  rewrite !policy_of_go, stored_in_mids. unfold next_handler. cbn [h_policy]. apply pol_go_rejects.
Qed.

Lemma In_next_outbox h o p :
  In p (h_outbox (next_handler h o)) <-> In p (h_outbox h) /\ sent_in (x_events o) (o_mid p) = false.
Proof. unfold next_handler. cbn [h_outbox]. rewrite filter_In, negb_true_iff. reflexivity. Qed.

Lemma sent_in_true E m : sent_in E m = true <-> exists r, In (EvSetSent m r) E.
Proof.
  unfold sent_in. rewrite existsb_exists. split.
  - intros (e&He&Hs). destruct e as [| |m' r| | | |]; try discriminate. cbn [sent_ev] in Hs.
    apply beq_bytes_true in Hs. subst m'. exists r. exact He.
  - intros (r&Hr). exists (EvSetSent m r). split; [exact Hr|]. cbn [sent_ev]. apply beq_bytes_refl.
Qed.
Lemma stored_in_true E m : stored_in E m = true <-> exists d, In (EvProcess m d true) E.
Proof.
  unfold stored_in. rewrite existsb_exists. split.
  - intros (e&He&Hs). destruct e as [| | | | |m' d [|]|]; try discriminate. cbn [stored_ev] in Hs.
    apply beq_bytes_true in Hs. subst m'. exists d. exact He.
  - intros (d&Hd). exists (EvProcess m d true). split; [exact Hd|]. cbn [stored_ev]. apply beq_bytes_refl.
Qed.

Lemma existsb_filter_imp {T} (f g : T -> bool) l : (forall e, g e = true -> f e = true) ->
  existsb g (filter f l) = existsb g l.
Proof.
  intros H. induction l as [|e l IH]; [reflexivity|]. cbn [existsb filter].
  destruct (f e) eqn:Ef; cbn [existsb]; rewrite IH; [reflexivity|].
  destruct (g e) eqn:Eg; [rewrite (H e Eg) in Ef; discriminate|reflexivity].
Qed.
Lemma cnt_imp (f g : event -> bool) l : (forall e, g e = true -> f e = true) -> (cnt g l <= cnt f l)%nat.
Proof.
  intros H. induction l as [|e l IH]; [apply Nat.le_refl|]. rewrite !cnt_cons.
  destruct (g e) eqn:Eg; [rewrite (H e Eg)|destruct (f e)]; lia.
Qed.
Lemma existsb_filter {T} (f : T -> bool) l : existsb f l = match filter f l with [] => false | _ => true end.
Proof. induction l as [|a l IH]; [reflexivity|]. cbn [existsb filter]. destruct (f a); [reflexivity|exact IH]. Qed.

Lemma sent_ev_own m e : sent_ev m e = true -> own m e = true.
Proof. destruct e; try discriminate. intros H; exact H. Qed.
Lemma stored_ev_proc m e : stored_ev m e = true -> proc m e = true.
Proof. destruct e as [| | | | |m' d [|]|]; try discriminate. intros H; exact H. Qed.

Lemma sent_in_own E m : sent_in E m = sent_in (filter (own m) E) m.
Proof. symmetry. apply existsb_filter_imp, sent_ev_own. Qed.
Lemma stored_in_proc E m : stored_in E m = stored_in (filter (proc m) E) m.
Proof. symmetry. apply existsb_filter_imp, stored_ev_proc. Qed.

(* what a side needs by itself to take part in a delivering session: side_ready without the conditions on
   its own h_gone and the peer's h_fail *)
Definition side_sound (x : side_cfg) : Prop :=
  h_present (c_handler x) = true /\ h_prepare_err (c_handler x) = false /\
  Forall prop_live (h_outbox (c_handler x)) /\ Forall prop_wf (h_outbox (c_handler x)) /\
  NoDup (map o_mid (h_outbox (c_handler x))).

Lemma side_sound_syn x : side_sound x -> Forall prop_syn (h_outbox (c_handler x)).
Proof.
  intros (_&_&H&_). apply Forall_forall. intros p Hp. apply (proj1 (Forall_forall _ _) H) in Hp. apply Hp.
Qed.

Lemma side_sound_wf x : side_sound x -> Forall prop_wf (h_outbox (c_handler x)).
Proof. intros (_&_&_&H&_). exact H. Qed.
Lemma side_sound_nodup x : side_sound x -> NoDup (map o_mid (h_outbox (c_handler x))).
Proof. intros (_&_&_&_&H). exact H. Qed.

Lemma Forall_filter {T} (P : T -> Prop) f l : Forall P l -> Forall P (filter f l).
Proof.
  intros H. apply Forall_forall. intros x Hx. apply filter_In in Hx. apply (proj1 (Forall_forall _ _) H), Hx.
Qed.

(* the handshake does not look at the handler: it commutes with set_h *)
Definition rmap {A} (f : sess -> sess) (r : res sess (A * sess)) : res sess (A * sess) :=
  match r with ROk (a, s) => ROk (a, f s) | RFail e s => RFail e (f s) | RPanic => RPanic end.
Definition rmap1 (f : sess -> sess) (r : res sess sess) : res sess sess :=
  match r with ROk s => ROk (f s) | RFail e s => RFail e (f s) | RPanic => RPanic end.

Lemma next_line_set_h pe s h : next_line pe (set_h s h) = rmap (fun t => set_h t h) (next_line pe s).
Proof.
  unfold next_line. cbn [set_h s_in]. destruct (read_until 13 (s_in s)) as [[raw rest]|]; [|reflexivity].
  destruct (pe && err_line (clean_string raw)); reflexivity.
Qed.

Lemma read_handshake_set_h h : forall f s d,
  read_handshake f (set_h s h) d = rmap (fun t => set_h t h) (read_handshake f s d).
Proof.
  induction f as [|f IH]; intros s d; [reflexivity|]. rewrite !read_handshake_eq, next_line_set_h.
  cbn [set_h s_in s_master]. destruct (s_in s) as [|b r]; [reflexivity|].
  destruct ((b =? 70) && s_master s); [reflexivity|].
  destruct (next_line false s) as [[line s1]|e s1|]; cbn [rmap]; try reflexivity.
  destruct (rh_line d line); [apply IH|reflexivity|reflexivity].
Qed.

Lemma fold_wr_set_h {B} (g : B -> bytes) h l : forall s,
  fold_left (fun acc x => wr acc (g x)) l (set_h s h) = set_h (fold_left (fun acc x => wr acc (g x)) l s) h.
Proof. induction l as [|x l IH]; intros s; cbn [fold_left]; [reflexivity|]. apply (IH (wr s (g x))). Qed.

Lemma handshake_set_h s h : handshake (set_h s h) = rmap1 (fun t => set_h t h) (handshake s).
Proof.
  assert (G : greeted (set_h s h) = set_h (greeted s) h).
  { unfold greeted. change (s_master (set_h s h)) with (s_master s). destruct (s_master s); [|reflexivity].
    change (s_motd (set_h s h)) with (s_motd s). rewrite (fold_wr_set_h (fun l => l ++ [13])). reflexivity. }
  rewrite !handshake_eq, G, read_handshake_set_h.
  change (s_master (set_h s h)) with (s_master s). change (s_cfg (set_h s h)) with (s_cfg s). change (s_in (set_h s h)) with (s_in s).
  destruct (read_handshake _ (greeted s) d0) as [[d s3]|e s3|]; cbn [rmap]; try reflexivity.
  destruct (hs_good d); [|reflexivity]. destruct (s_master s); [reflexivity|].
  destruct (send_handshake (s_cfg s) (hd_challenge d)); reflexivity.
Qed.

Definition same_station (c c' : side_cfg) : Prop :=
  c_master c' = c_master c /\ c_motd c' = c_motd c /\ c_hs c' = c_hs c /\
  h_present (c_handler c') = h_present (c_handler c).

Lemma init_state_station c c' i : same_station c c' -> init_state c' i = set_h (init_state c i) (c_handler c').
Proof.
  intros (H1&H2&H3&H4). unfold init_state. rewrite H1, H2, H3, H4. destruct (h_present (c_handler c)); reflexivity.
Qed.

Lemma hs_compat_station m s m' s' : same_station m m' -> same_station s s' -> hs_compat m s -> hs_compat m' s'.
Proof.
  intros Km Ks (M&S&sm&ss&Hm1&Hm2&Hm3&Hs1&Hs2&Hs3).
  exists M, S, (set_h sm (c_handler m')), (set_h ss (c_handler s')).
  rewrite (init_state_station m m' _ Km), (init_state_station s s' _ Ks), !handshake_set_h, Hm1, Hs1.
  repeat split; assumption.
Qed.

Lemma hs_compat_next m s om os : hs_compat m s -> hs_compat (next_cfg m om) (next_cfg s os).
Proof. apply hs_compat_station; repeat split. Qed.

(* c' is the mailbox that a session with outcome o leaves of c (next_cfg c o), with whatever storage faults
   the session to come will meet *)
Definition leaves (c : side_cfg) (o : outcome) (c' : side_cfg) : Prop :=
  same_station c c' /\ h_prepare_err (c_handler c') = h_prepare_err (c_handler c) /\
  h_outbox (c_handler c') = h_outbox (next_handler (c_handler c) o) /\
  h_policy (c_handler c') = h_policy (next_handler (c_handler c) o) /\
  h_gone (c_handler c') = [].

Lemma leaves_next c o : leaves c o (next_cfg c o).
Proof. repeat split. Qed.
Lemma leaves_outbox c o c' p : leaves c o c' ->
  In p (h_outbox (c_handler c')) <-> In p (h_outbox (c_handler c)) /\ sent_in (x_events o) (o_mid p) = false.
Proof. intros (_&_&H&_). rewrite H. apply In_next_outbox. Qed.
Lemma leaves_policy c o c' m : leaves c o c' ->
  policy_of (c_handler c') m = if stored_in (x_events o) m then AReject else policy_of (c_handler c) m.
Proof. intros (_&_&_&H&_). rewrite policy_of_go, H. apply policy_of_next. Qed.
Lemma leaves_sound c o c' : leaves c o c' -> side_sound c -> side_sound c'.
Proof.
  intros ((_&_&_&E1)&E2&E3&_) (H1&H2&H3&H4&H5). unfold side_sound. rewrite E1, E2, E3. cbn [next_handler h_outbox].
  split; [exact H1|]. split; [exact H2|]. split; [apply Forall_filter, H3|]. split; [apply Forall_filter, H4|].
  apply NoDup_map_filter, H5.
Qed.
Lemma side_sound_next x ox : side_sound x -> side_sound (next_cfg x ox).
Proof. apply (leaves_sound x ox), leaves_next. Qed.

(* a sound side whose marks are gone is ready for a peer whose store does not fail for its entries: the
   marks of a session (h_gone) do not outlive it, and neither does the storage fault (h_fail) under next_cfg *)
Lemma ready_of_sound x y : side_sound x -> h_gone (c_handler x) = [] ->
  (forall p, In p (h_outbox (c_handler x)) -> ~ In (o_mid p) (h_fail (c_handler y))) -> side_ready x y.
Proof.
  intros (H1&H2&H3&H4&H5) Hg Hf. split; [exact H2|]. split; [|intros p _; rewrite Hg; intros []].
  split; [exact H1|]. split; [exact H3|]. split; [exact H4|]. split; [exact H5|].
  intros p Hp. apply mem_bytes_notin, Hf, Hp.
Qed.
Lemma side_ready_next x y ox oy : side_sound x -> side_ready (next_cfg x ox) (next_cfg y oy).
Proof. intros Hs. apply ready_of_sound; [apply side_sound_next, Hs|reflexivity|intros p _ []]. Qed.

(* each side has received an initial part of what the other side wrote (`closed` is the case in which both
   have received everything).  A storage error needs no case of its own: h_fail is unrestricted
   (converge_after_storage_error). *)
Definition cut_session (a b : side_cfg) (in_a in_b : bytes) : Prop :=
  prefix in_a (x_wire (exchange b in_b)) /\ prefix in_b (x_wire (exchange a in_a)).

Lemma cut_session_sym a b in_a in_b : cut_session a b in_a in_b -> cut_session b a in_b in_a.
Proof. intros [H1 H2]. split; assumption. Qed.

Lemma closed_cut_session a b in_a in_b : closed a b in_a in_b -> cut_session a b in_a in_b.
Proof. intros [H1 H2]. split; [rewrite H2|rewrite H1]; apply prefix_refl. Qed.

Lemma firstn_of_prefix {A} (x y : list A) : prefix x y -> x = firstn (length x) y.
Proof. intros [z ->]. rewrite firstn_app, Nat.sub_diag, firstn_all. cbn [firstn]. rewrite app_nil_r. reflexivity. Qed.

(* the hypothesis shape of PairP.two_party_safety is a cut session *)
Lemma safety_shape_cut_session a b in_a k :
  in_a = firstn (length in_a) (x_wire (exchange b (firstn k (x_wire (exchange a in_a))))) ->
  cut_session a b in_a (firstn k (x_wire (exchange a in_a))).
Proof. intros H. split; [rewrite H at 1|]; apply firstn_prefix. Qed.

(* and conversely, with the cut at the length of what b received *)
Lemma cut_session_safety_shape a b in_a in_b : cut_session a b in_a in_b ->
  in_b = firstn (length in_b) (x_wire (exchange a in_a)) /\
  in_a = firstn (length in_a) (x_wire (exchange b (firstn (length in_b) (x_wire (exchange a in_a))))).
Proof.
  intros [H1 H2]. pose proof (firstn_of_prefix _ _ H2) as E2. split; [exact E2|].
  rewrite <- E2. apply firstn_of_prefix, H1.
Qed.

(* SENT ONLY IF RECEIVED, for the owner x of a message and its peer y (PairP.two_party_safety_intact
   in both directions): the peer has stored the entry's own message *)
Theorem sent_only_if_received (x y : side_cfg) (in_x in_y : bytes) :
  c_master x = negb (c_master y) ->
  hs_compat (if c_master x then x else y) (if c_master x then y else x) ->
  Forall prop_syn (h_outbox (c_handler x)) -> Forall prop_syn (h_outbox (c_handler y)) ->
  Forall prop_wf (h_outbox (c_handler x)) -> NoDup (map o_mid (h_outbox (c_handler x))) ->
  cut_session x y in_x in_y ->
  forall p, In p (h_outbox (c_handler x)) ->
    In (EvSetSent (o_mid p) false) (x_events (exchange x in_x)) ->
    In (EvProcess (o_mid p) (pm_data p) true) (x_events (exchange y in_y)).
Proof.
  intros Hrole Hhs Sx Sy Wx Nx Hcut p Hp Hm.
  destruct (cut_session_safety_shape _ _ _ _ Hcut) as [E1 E2].
  assert (Wf : outbox_wf (c_handler x)).
  { intros q Hq. apply prop_wf_iff. apply (proj1 (Forall_forall _ _) Wx), Hq. }
  destruct (two_party_safety_intact x y in_x (length in_y) (o_mid p) Hrole Hhs Sx Sy Wf Hm E2) as (q&data&Hq&Hmid&Hpm&Hev).
  rewrite <- E1 in Hev.
  assert (q = p) by (eapply NoDup_map_inj; eassumption). subst q.
  unfold pm_data. rewrite Hpm. exact Hev.
Qed.

(* What a delivering session of the two next mailboxes does with an entry p of the ORIGINAL outbox
   of x, by what the logs E1x (owner) and E1y (peer) of the first session say about its MID.
   Nothing is assumed about the first session: E1x and E1y are the logs of arbitrary outcomes. *)
Definition resumed (x y : side_cfg) (ox oy ox' oy' : outcome) (p : oprop) : Prop :=
  let mid := o_mid p in
  let own2 := filter (own mid) (x_events ox') in let proc2 := filter (proc mid) (x_events oy') in
  if sent_in (x_events ox) mid then
    (* reported in the first session: the entry has left the outbox, nothing more happens *)
    own2 = [] /\ proc2 = []
  else if stored_in (x_events oy) mid then
    (* stored by the peer but not reported: the peer answers "reject" (it has the message), the
       owner records it sent, no second transfer *)
    own2 = [EvSetSent mid true] /\ proc2 = []
  else
    (* untouched: the session does what a complete session does *)
    match policy_of (c_handler y) mid with
    | AAccept => own2 = [EvSetSent mid false] /\ proc2 = [EvProcess mid (pm_data p) true]
    | AReject => own2 = [EvSetSent mid true] /\ proc2 = []
    | ADefer => own2 = [EvSetDeferred mid] /\ proc2 = [] /\
                In p (h_outbox (c_handler (next_cfg (next_cfg x ox) ox')))
    end.

Lemma resumed_sent x y ox oy ox' oy' p : sent_in (x_events ox) (o_mid p) = true -> resumed x y ox oy ox' oy' p ->
  filter (own (o_mid p)) (x_events ox') = [] /\ filter (proc (o_mid p)) (x_events oy') = [].
Proof. intros E H. unfold resumed in H. rewrite E in H. exact H. Qed.
Lemma resumed_stored x y ox oy ox' oy' p :
  sent_in (x_events ox) (o_mid p) = false -> stored_in (x_events oy) (o_mid p) = true -> resumed x y ox oy ox' oy' p ->
  filter (own (o_mid p)) (x_events ox') = [EvSetSent (o_mid p) true] /\ filter (proc (o_mid p)) (x_events oy') = [].
Proof. intros E1 E2 H. unfold resumed in H. rewrite E1, E2 in H. exact H. Qed.
Lemma resumed_fresh x y ox oy ox' oy' p :
  sent_in (x_events ox) (o_mid p) = false -> stored_in (x_events oy) (o_mid p) = false -> resumed x y ox oy ox' oy' p ->
  match policy_of (c_handler y) (o_mid p) with
  | AAccept => filter (own (o_mid p)) (x_events ox') = [EvSetSent (o_mid p) false] /\
               filter (proc (o_mid p)) (x_events oy') = [EvProcess (o_mid p) (pm_data p) true]
  | AReject => filter (own (o_mid p)) (x_events ox') = [EvSetSent (o_mid p) true] /\ filter (proc (o_mid p)) (x_events oy') = []
  | ADefer => filter (own (o_mid p)) (x_events ox') = [EvSetDeferred (o_mid p)] /\ filter (proc (o_mid p)) (x_events oy') = [] /\
              In p (h_outbox (c_handler (next_cfg (next_cfg x ox) ox')))
  end.
Proof. intros E1 E2 H. unfold resumed in H. rewrite E1, E2 in H. exact H. Qed.

Lemma resumed_of_delivered x y ox oy ox' oy' :
  NoDup (map o_mid (h_outbox (c_handler x))) ->
  delivered (c_handler (next_cfg x ox)) (c_handler (next_cfg y oy)) ox' oy' ->
  forall p, In p (h_outbox (c_handler x)) -> resumed x y ox oy ox' oy' p.
Proof.
  intros Nd [HD HA] p Hp. unfold resumed. cbv zeta. cbn [next_cfg c_handler] in HD, HA |- *.
  destruct (sent_in (x_events ox) (o_mid p)) eqn:Es.
  - apply HA. intros Hin. apply in_map_iff in Hin. destruct Hin as (q&Eq&Hq).
    apply In_next_outbox in Hq. destruct Hq as [_ Hq]. rewrite Eq, Es in Hq. discriminate.
  - assert (Hp' : In p (h_outbox (next_handler (c_handler x) ox))) by (apply In_next_outbox; split; assumption).
    specialize (HD p Hp'). rewrite policy_of_next in HD.
    destruct (stored_in (x_events oy) (o_mid p)); [exact HD|].
    destruct (policy_of (c_handler y) (o_mid p)).
    + destruct HD as (H1&H2&_). split; assumption.
    + exact HD.
    + destruct HD as [H1 H2]. split; [exact H1|]. split; [exact H2|].
      apply In_next_outbox. split; [exact Hp'|]. rewrite sent_in_own, H1. reflexivity.
Qed.

(* C02_next_session.  ox, oy are ANY outcomes, so this applies to the mailboxes left by any sequence of
   sessions. *)
Theorem next_session_resumes (x y : side_cfg) (ox oy : outcome) :
  c_master x = negb (c_master y) ->
  hs_compat (if c_master x then x else y) (if c_master x then y else x) ->
  side_sound x -> side_sound y ->
  let x' := next_cfg x ox in let y' := next_cfg y oy in
  (exists in_x' in_y', closed x' y' in_x' in_y') /\
  (forall in_x' in_y', closed x' y' in_x' in_y' ->
     let ox' := exchange x' in_x' in let oy' := exchange y' in_y' in
     x_res ox' = XNil /\ x_res oy' = XNil /\
     (forall p, In p (h_outbox (c_handler x)) -> resumed x y ox oy ox' oy' p) /\
     (forall p, In p (h_outbox (c_handler y)) -> resumed y x oy ox oy' ox' p)).
Proof.
  intros Hrole Hhs Sx Sy x' y'.
  assert (Hhs' : hs_compat (if c_master x' then x' else y') (if c_master x' then y' else x')).
  { unfold x', y'. cbn [next_cfg c_master]. destruct (c_master x); apply hs_compat_next, Hhs. }
  destruct (complete_exchange_delivers x' y' Hrole Hhs' (side_ready_next x y ox oy Sx) (side_ready_next y x oy ox Sy))
    as [Hex Hall].
  split; [exact Hex|]. intros ix iy Hc. cbv zeta. destruct (Hall ix iy Hc) as (R1&R2&D1&D2).
  split; [exact R1|]. split; [exact R2|]. split.
  - apply resumed_of_delivered; [apply side_sound_nodup, Sx|exact D1].
  - apply resumed_of_delivered; [apply side_sound_nodup, Sy|exact D2].
Qed.

(* what the two sessions together do with the entry p of the outbox of x (peer y):
   sent only if received in the first session, and resumed by the second *)
Definition conv_entry (x y : side_cfg) (ox oy ox' oy' : outcome) (p : oprop) : Prop :=
  (In (EvSetSent (o_mid p) false) (x_events ox) -> In (EvProcess (o_mid p) (pm_data p) true) (x_events oy)) /\
  resumed x y ox oy ox' oy' p.

Lemma roles_swap (x y : side_cfg) :
  c_master x = negb (c_master y) ->
  hs_compat (if c_master x then x else y) (if c_master x then y else x) ->
  c_master y = negb (c_master x) /\ hs_compat (if c_master y then y else x) (if c_master y then x else y).
Proof.
  intros Hrole Hhs. split; [rewrite Hrole; destruct (c_master y); reflexivity|].
  rewrite Hrole in Hhs. destruct (c_master y); exact Hhs.
Qed.

(* two library sides that can hold a session with each other, whatever is in their mailboxes; what a
   session leaves of them is such a pair again *)
Definition sound_pair (x y : side_cfg) : Prop :=
  c_master x = negb (c_master y) /\ hs_compat (if c_master x then x else y) (if c_master x then y else x) /\
  side_sound x /\ side_sound y.

Lemma sound_pair_sym x y : sound_pair x y -> sound_pair y x.
Proof. intros (H1&H2&H3&H4). destruct (roles_swap x y H1 H2) as [K1 K2]. exact (conj K1 (conj K2 (conj H4 H3))). Qed.

Lemma sound_pair_leaves x y ox oy x1 y1 : sound_pair x y -> leaves x ox x1 -> leaves y oy y1 -> sound_pair x1 y1.
Proof.
  intros (H1&H2&H3&H4) Lx Ly. pose proof (proj1 Lx) as Kx. pose proof (proj1 Ly) as Ky.
  unfold sound_pair. rewrite (proj1 Kx), (proj1 Ky). split; [exact H1|].
  split; [|split; eapply leaves_sound; eassumption].
  destruct (c_master x); [exact (hs_compat_station _ _ _ _ Kx Ky H2)|exact (hs_compat_station _ _ _ _ Ky Kx H2)].
Qed.

(* C02_convergence for any cut_session: x and y are interchangeable *)
Theorem convergence_cut_session (x y : side_cfg) (in_x in_y in_x' in_y' : bytes) :
  c_master x = negb (c_master y) ->
  hs_compat (if c_master x then x else y) (if c_master x then y else x) ->
  side_sound x -> side_sound y ->
  cut_session x y in_x in_y ->
  let ox := exchange x in_x in let oy := exchange y in_y in
  let x' := next_cfg x ox in let y' := next_cfg y oy in
  closed x' y' in_x' in_y' ->
  let ox' := exchange x' in_x' in let oy' := exchange y' in_y' in
  x_res ox' = XNil /\ x_res oy' = XNil /\
  (forall p, In p (h_outbox (c_handler x)) -> conv_entry x y ox oy ox' oy' p) /\
  (forall p, In p (h_outbox (c_handler y)) -> conv_entry y x oy ox oy' ox' p).
Proof.
  intros Hrole Hhs Sx Sy Hcut ox oy x' y' Hc ox' oy'.
  destruct (next_session_resumes x y ox oy Hrole Hhs Sx Sy) as [_ Hall].
  destruct (Hall in_x' in_y' Hc) as (R1&R2&D1&D2).
  split; [exact R1|]. split; [exact R2|].
  destruct (roles_swap x y Hrole Hhs) as [Hrole' Hhs'].
  split; intros p Hp; (split; [|auto]).
  - apply (sent_only_if_received x y in_x in_y); try assumption;
      [apply side_sound_syn, Sx|apply side_sound_syn, Sy|apply side_sound_wf, Sx|apply side_sound_nodup, Sx].
  - apply (sent_only_if_received y x in_y in_x); try assumption;
      [apply side_sound_syn, Sy|apply side_sound_syn, Sx|apply side_sound_wf, Sy|apply side_sound_nodup, Sy|apply cut_session_sym, Hcut].
Qed.

(* C02_convergence, in the hypothesis shape of PairP.two_party_safety: a receives in_a, b the first k bytes
   a wrote *)
Theorem convergence (a b : side_cfg) (in_a : bytes) (k : nat) (in_a' in_b' : bytes) :
  c_master a = negb (c_master b) ->
  hs_compat (if c_master a then a else b) (if c_master a then b else a) ->
  side_sound a -> side_sound b ->
  let oa := exchange a in_a in let ob := exchange b (firstn k (x_wire oa)) in
  in_a = firstn (length in_a) (x_wire ob) ->
  let a' := next_cfg a oa in let b' := next_cfg b ob in
  closed a' b' in_a' in_b' ->
  let oa' := exchange a' in_a' in let ob' := exchange b' in_b' in
  x_res oa' = XNil /\ x_res ob' = XNil /\
  (forall p, In p (h_outbox (c_handler a)) -> conv_entry a b oa ob oa' ob' p) /\
  (forall p, In p (h_outbox (c_handler b)) -> conv_entry b a ob oa ob' oa' p).
Proof.
  intros Hrole Hhs Sa Sb oa ob Hin a' b' Hc.
  exact (convergence_cut_session a b in_a (firstn k (x_wire oa)) in_a' in_b' Hrole Hhs Sa Sb
           (safety_shape_cut_session a b in_a k Hin) Hc).
Qed.

(* conv_entry read off in the words of the property *)
Section Entry.
Variables (x y : side_cfg) (ox oy ox' oy' : outcome) (p : oprop).
Hypothesis HC : conv_entry x y ox oy ox' oy' p.
Let mid := o_mid p.

(* REPORTED SENT exactly once in the second session when it was not reported in the first, never
   in the second when it was (unless the peer defers it) *)
Lemma conv_reported : policy_of (c_handler y) mid <> ADefer ->
  sent_in (x_events ox ++ x_events ox') mid = true /\
  (sent_in (x_events ox) mid = true -> filter (own mid) (x_events ox') = []) /\
  (sent_in (x_events ox) mid = false -> exists r, filter (own mid) (x_events ox') = [EvSetSent mid r]).
Proof.
  intros Hnd. destruct HC as [_ HR].
  unfold sent_in at 1. rewrite existsb_app. fold (sent_in (x_events ox) mid) (sent_in (x_events ox') mid).
  destruct (sent_in (x_events ox) mid) eqn:Es.
  - destruct (resumed_sent _ _ _ _ _ _ _ Es HR) as [H1 _]. split; [reflexivity|]. split; [intros _; exact H1|discriminate].
  - assert (K : exists r, filter (own mid) (x_events ox') = [EvSetSent mid r]).
    { destruct (stored_in (x_events oy) mid) eqn:Et; [exists true; apply (resumed_stored _ _ _ _ _ _ _ Es Et HR)|].
      pose proof (resumed_fresh _ _ _ _ _ _ _ Es Et HR) as HF. fold mid in HF.
      destruct (policy_of (c_handler y) mid); [exists false; apply HF|exists true; apply HF|congruence]. }
    destruct K as [r K]. split; [|split; [discriminate|intros _; exists r; exact K]].
    rewrite (sent_in_own (x_events ox') mid), K. cbn. rewrite beq_bytes_refl. reflexivity.
Qed.

(* a rejected message is reported sent and the second session does not transfer it *)
Lemma conv_rejected : policy_of (c_handler y) mid = AReject ->
  sent_in (x_events ox ++ x_events ox') mid = true /\ filter (proc mid) (x_events oy') = [].
Proof.
  intros Hr. split; [apply conv_reported; congruence|].
  destruct HC as [_ HR].
  destruct (sent_in (x_events ox) mid) eqn:Es; [apply (resumed_sent _ _ _ _ _ _ _ Es HR)|].
  destruct (stored_in (x_events oy) mid) eqn:Et; [apply (resumed_stored _ _ _ _ _ _ _ Es Et HR)|].
  pose proof (resumed_fresh _ _ _ _ _ _ _ Es Et HR) as HF. fold mid in HF. rewrite Hr in HF. apply HF.
Qed.

(* a deferred message that the first session did not touch is deferred again and stays in the outbox *)
Lemma conv_deferred : policy_of (c_handler y) mid = ADefer ->
  sent_in (x_events ox) mid = false -> stored_in (x_events oy) mid = false ->
  filter (own mid) (x_events ox') = [EvSetDeferred mid] /\ filter (proc mid) (x_events oy') = [] /\
  In p (h_outbox (c_handler (next_cfg (next_cfg x ox) ox'))).
Proof.
  intros Hd Hs Ht. destruct HC as [_ HR]. pose proof (resumed_fresh _ _ _ _ _ _ _ Hs Ht HR) as HF. fold mid in HF.
  rewrite Hd in HF. exact HF.
Qed.

(* the first session was a session of two library sides that speak to each other only: what the peer
   stored under the MID of an entry of x is that entry's message, and the owner records "rejected"
   only for MIDs the peer's policy rejects.  (True of every closed session of a ready pair:
   genuine_of_delivered; and of every cut session of two library sides: ConvergeCutP.genuine_cut_session.) *)
Definition genuine_session : Prop :=
  (forall d, In (EvProcess mid d true) (x_events oy) -> d = pm_data p) /\
  (In (EvSetSent mid true) (x_events ox) -> policy_of (c_handler y) mid = AReject).

(* DELIVERED: the peer's handler has been given the entry's own message, completely, in one of the
   two sessions *)
Lemma conv_delivered : genuine_session -> policy_of (c_handler y) mid = AAccept ->
  In (EvProcess mid (pm_data p) true) (x_events oy ++ x_events oy').
Proof.
  intros [GA GB] Ha. destruct HC as [HS HR]. fold mid in HS.
  apply in_or_app.
  destruct (sent_in (x_events ox) mid) eqn:Es.
  { apply sent_in_true in Es. destruct Es as [[|] Hr]; [rewrite (GB Hr) in Ha; discriminate|left; apply HS, Hr]. }
  destruct (stored_in (x_events oy) mid) eqn:Et.
  { apply stored_in_true in Et. destruct Et as [d Hd]. left. rewrite <- (GA d Hd). exact Hd. }
  pose proof (resumed_fresh _ _ _ _ _ _ _ Es Et HR) as HF. fold mid in HF. rewrite Ha in HF. destruct HF as [_ H2]. right.
  assert (K : In (EvProcess mid (pm_data p) true) (filter (proc mid) (x_events oy'))) by (rewrite H2; left; reflexivity).
  apply filter_In in K. apply K.
Qed.
(* without that hypothesis: the entry's own message has been handed over, except possibly in the two
   situations the hypothesis is about *)
Lemma conv_delivered_cases : policy_of (c_handler y) mid = AAccept ->
  In (EvProcess mid (pm_data p) true) (x_events oy ++ x_events oy') \/
  In (EvSetSent mid true) (x_events ox) \/
  (sent_in (x_events ox) mid = false /\ stored_in (x_events oy) mid = true /\
   filter (own mid) (x_events ox') = [EvSetSent mid true]).
Proof.
  intros Ha. destruct HC as [HS HR]. fold mid in HS.
  destruct (sent_in (x_events ox) mid) eqn:Es.
  { apply sent_in_true in Es. destruct Es as [[|] Hr]; [right; left; exact Hr|left; apply in_or_app; left; apply HS, Hr]. }
  destruct (stored_in (x_events oy) mid) eqn:Et.
  { right. right. split; [reflexivity|]. split; [reflexivity|apply (resumed_stored _ _ _ _ _ _ _ Es Et HR)]. }
  pose proof (resumed_fresh _ _ _ _ _ _ _ Es Et HR) as HF. fold mid in HF. rewrite Ha in HF. destruct HF as [_ H2].
  left. apply in_or_app. right.
  assert (K : In (EvProcess mid (pm_data p) true) (filter (proc mid) (x_events oy'))) by (rewrite H2; left; reflexivity).
  apply filter_In in K. apply K.
Qed.
End Entry.

Lemma genuine_of_delivered (x y : side_cfg) (ox oy : outcome) (p : oprop) :
  delivered (c_handler x) (c_handler y) ox oy -> In p (h_outbox (c_handler x)) -> genuine_session y ox oy p.
Proof.
  intros [HD _] Hp. specialize (HD p Hp). split.
  - intros d Hd.
    assert (K : In (EvProcess (o_mid p) d true) (filter (proc (o_mid p)) (x_events oy)))
      by (apply filter_In; split; [exact Hd|cbn; apply beq_bytes_refl]).
    destruct (policy_of (c_handler y) (o_mid p)); [destruct HD as (_&H2&_)|destruct HD as [_ H2]|destruct HD as [_ H2]];
      rewrite H2 in K; try (destruct K; fail).
    destruct K as [K|[]]. injection K as <-. reflexivity.
  - intros Hr.
    assert (K : In (EvSetSent (o_mid p) true) (filter (own (o_mid p)) (x_events ox)))
      by (apply filter_In; split; [exact Hr|cbn; apply beq_bytes_refl]).
    destruct (policy_of (c_handler y) (o_mid p)); [destruct HD as [H1 _]|reflexivity|destruct HD as [H1 _]];
      rewrite H1 in K; destruct K as [K|[]]; discriminate.
Qed.

Definition sound_check (x : side_cfg) : bool :=
  h_present (c_handler x) && negb (h_prepare_err (c_handler x)) &&
  forallb prop_check (h_outbox (c_handler x)) && nodupb (map o_mid (h_outbox (c_handler x))).
Lemma side_check_sound_check x y : side_check x y = true -> sound_check x = true.
Proof. unfold side_check. intros H. apply andb_true_iff in H. exact (proj1 H). Qed.
Lemma sound_check_sound x : sound_check x = true -> side_sound x.
Proof.
  unfold sound_check. rewrite !andb_true_iff, negb_true_iff. intros [[[H1 H2] H3] H4].
  rewrite forallb_forall in H3.
  split; [exact H1|]. split; [exact H2|]. split; [|split].
  - apply Forall_forall. intros p Hp. apply prop_check_sound, H3, Hp.
  - apply Forall_forall. intros p Hp. apply prop_check_sound, H3, Hp.
  - apply nodupb_sound, H4.
Qed.

(* cv_: the closed runs of convergence.  The complete input of a (DeliverP.iter_in from the empty input; 10
   rounds: any number from the stable round on gives the same, cv_in_stable; the pairs below need 3 or 6) *)
Definition cv_in (a b : side_cfg) : bytes := cx_in 10 a b.
(* a first session in which b receives only the first k bytes a wrote and a only the first j bytes b
   wrote, followed by the complete session of the two next mailboxes: the four logs *)
Definition cv_run (a b : side_cfg) (k j : nat) :=
  let ib0 := x_wire (exchange a (cv_in a b)) in
  let in_a := firstn j (x_wire (exchange b (firstn k ib0))) in
  let oa := exchange a in_a in let ob := exchange b (firstn k (x_wire oa)) in
  let a' := next_cfg a oa in let b' := next_cfg b ob in
  let in_a' := cv_in a' b' in let in_b' := x_wire (exchange a' in_a') in
  let oa' := exchange a' in_a' in let ob' := exchange b' in_b' in
  ((* the hypotheses of `convergence` *)
   (beq_bytes in_a (firstn (length in_a) (x_wire ob)),
    beq_bytes (x_wire oa') in_b' && beq_bytes (x_wire ob') in_a',
    (k <? length ib0)%nat),
   (x_res oa, map strip (x_events oa)), (x_res ob, map strip (x_events ob)),
   (x_res oa', map strip (x_events oa')), (x_res ob', map strip (x_events ob'))).

(* Evaluating a session is dear, most of all inside the kernel, so every session below is evaluated
   once.  Three things are kept out of the evaluation.  The rounds of cv_in that follow the first round
   which leaves the input unchanged cost as much as the others and add nothing (DeliverP.iter_in_stop):
   the runs below take the number m of rounds to make and check that one more changes nothing.
   Dec.compress, which the instances apply to every message: DeliverP.dx_a_lit, dx_b_lit and cv_a2v are
   the instances with the compressed messages evaluated.  And the rounds themselves where a pair has
   been run before: a first session starts from the base_run of its pair, which is evaluated once for
   all the cuts of that pair (cut_run_on; DeliverP has the one of dx_a and dx_b). *)
Lemma cv_in_stable a b m :
  (m <=? 10)%nat && beq_bytes (x_wire (exchange b (x_wire (exchange a (iter_in m a b []))))) (iter_in m a b []) = true ->
  cv_in a b = iter_in m a b [].
Proof.
  intros H. apply andb_true_iff in H. destruct H as [Hm H]. unfold cv_in, cx_in.
  apply iter_in_stop; [apply Nat.leb_le, Hm|apply beq_bytes_true, H].
Qed.

(* the input of a after m rounds of the iteration, and the complete session on it *)
Definition base_run (a b : side_cfg) (m : nat) : bytes * outcome * outcome :=
  let ia := iter_in m a b [] in let oa := exchange a ia in (ia, oa, exchange b (x_wire oa)).

(* the first session of cv_run from s = base_run a b m: the outcomes, and before them whether the input of s
   is stable (c: no more than 10 rounds led to it) and the three tests (the input of a is what b wrote; k
   cuts; b received what a wrote now).  b runs on the first k bytes a wrote in s, a on what b wrote then.  Two
   runs of b are not evaluated again: the one of s when k cuts nothing off, and the first one when a has
   written the same k bytes again (the third test). *)
Definition cut_on (a b : side_cfg) (k j : nat) (c : bool) (s : bytes * outcome * outcome) :
  bool * (bool * bool * bool) * outcome * outcome :=
  let '(ia, oa0, ob0) := s in let ib0 := x_wire oa0 in
  let ob1 := if (k <? length ib0)%nat then exchange b (firstn k ib0) else ob0 in
  let in_a := firstn j (x_wire ob1) in let oa := exchange a in_a in
  let same := beq_bytes (firstn k ib0) (firstn k (x_wire oa)) in
  let ob := if same then ob1 else exchange b (firstn k (x_wire oa)) in
  (c && beq_bytes (x_wire ob0) ia,
   (beq_bytes in_a (firstn (length in_a) (x_wire ob)), (k <? length ib0)%nat, same),
   oa, ob).
Definition cut_run (a b : side_cfg) (k j m : nat) : bool * (bool * bool * bool) * outcome * outcome :=
  cut_on a b k j (m <=? 10)%nat (base_run a b m).
(* the complete session *)
Definition full_run (a b : side_cfg) (m : nat) : bool * outcome * outcome :=
  let '(ia, oa, ob) := base_run a b m in ((m <=? 10)%nat && beq_bytes (x_wire ob) ia, oa, ob).

(* for a pair whose base_run is known already *)
Lemma cut_run_on a b k j m s : base_run a b m = s -> cut_run a b k j m = cut_on a b k j (m <=? 10)%nat s.
Proof. intros <-. reflexivity. Qed.

Lemma cut_on_spec a b k j ia oa0 ob0 h oa ob :
  exchange b (x_wire oa0) = ob0 -> cut_on a b k j true (ia, oa0, ob0) = (true, h, oa, ob) ->
  let ib0 := x_wire oa0 in let in_a := firstn j (x_wire (exchange b (firstn k ib0))) in
  x_wire ob0 = ia /\ exchange a in_a = oa /\ exchange b (firstn k (x_wire oa)) = ob /\
  h = (beq_bytes in_a (firstn (length in_a) (x_wire ob)), (k <? length ib0)%nat,
       beq_bytes (firstn k ib0) (firstn k (x_wire oa))).
Proof.
  intros E0. unfold cut_on. cbv beta iota zeta.
  assert (E1 : (if (k <? length (x_wire oa0))%nat then exchange b (firstn k (x_wire oa0)) else ob0) =
               exchange b (firstn k (x_wire oa0))).
  { destruct (k <? length (x_wire oa0))%nat eqn:Ek; [reflexivity|].
    apply Nat.ltb_ge in Ek. rewrite (firstn_all2 _ Ek). symmetry. exact E0. }
  rewrite E1. intros H. injection H as Hc Hh Ha Hb. apply beq_bytes_true in Hc.
  split; [exact Hc|]. split; [exact Ha|]. rewrite Ha in Hh, Hb. split; [|subst h ob; reflexivity].
  destruct (beq_bytes _ (firstn k (x_wire oa))) eqn:E; [|exact Hb].
  apply beq_bytes_true in E. rewrite <- E. exact Hb.
Qed.

Lemma cut_run_spec a b k j m h oa ob : cut_run a b k j m = (true, h, oa, ob) ->
  let ib0 := x_wire (exchange a (cv_in a b)) in let in_a := firstn j (x_wire (exchange b (firstn k ib0))) in
  exchange a in_a = oa /\ exchange b (firstn k (x_wire oa)) = ob /\
  h = (beq_bytes in_a (firstn (length in_a) (x_wire ob)), (k <? length ib0)%nat,
       beq_bytes (firstn k ib0) (firstn k (x_wire oa))).
Proof.
  unfold cut_run, base_run. cbv zeta. destruct (m <=? 10)%nat eqn:Hm; [|discriminate]. intros H.
  apply cut_on_spec in H; [|reflexivity]. cbv zeta in H. destruct H as [Hc H].
  assert (Hs : cv_in a b = iter_in m a b []).
  { apply cv_in_stable. rewrite Hm, Hc. apply beq_bytes_refl. }
  rewrite Hs. exact H.
Qed.

Lemma full_run_spec a b m oa ob : full_run a b m = (true, oa, ob) ->
  exchange a (cv_in a b) = oa /\ exchange b (x_wire oa) = ob /\ x_wire ob = cv_in a b.
Proof.
  unfold full_run, base_run. cbv zeta. intros H. injection H as Hc Ha Hb. rewrite (cv_in_stable a b m Hc).
  apply andb_true_iff in Hc. destruct Hc as [_ Hc]. apply beq_bytes_true in Hc. subst oa ob.
  split; [reflexivity|]. split; [reflexivity|exact Hc].
Qed.

(* cv_run from the two runs: m, m' rounds for the two pairs *)
Definition cv_run_m (a b : side_cfg) (k j m m' : nat) :=
  let '(c, h, oa, ob) := cut_run a b k j m in
  let '(c', oa', ob') := full_run (next_cfg a oa) (next_cfg b ob) m' in
  (c && c',
   ((fst (fst h), c', snd (fst h)),
    (x_res oa, map strip (x_events oa)), (x_res ob, map strip (x_events ob)),
    (x_res oa', map strip (x_events oa')), (x_res ob', map strip (x_events ob')))).

Lemma cv_run_m_spec a b k j m m' r : cv_run_m a b k j m m' = (true, r) -> cv_run a b k j = r.
Proof.
  unfold cv_run_m. destruct (cut_run a b k j m) as [[[c h] oa] ob] eqn:E1.
  destruct (full_run (next_cfg a oa) (next_cfg b ob) m') as [[c' oa'] ob'] eqn:E2.
  intros H. injection H as Hc Hr. apply andb_true_iff in Hc. destruct Hc as [-> ->].
  apply cut_run_spec in E1. cbv zeta in E1. destruct E1 as (A1&A2&A3).
  apply full_run_spec in E2. destruct E2 as (B1&B2&B3).
  subst r h. unfold cv_run. cbv zeta. cbn [fst snd]. rewrite A1, A2, B1, B2, B3, !beq_bytes_refl. reflexivity.
Qed.

Lemma dx_base : base_run dx_a_lit dx_b_lit 6 = (dx_in6, dx_oa6, dx_ob6).
Proof. unfold base_run. cbv zeta. rewrite dx_in6_eq, dx_oa6_eq, dx_ob6_eq. reflexivity. Qed.

Example dx_hypotheses :
  c_master dx_a = negb (c_master dx_b) /\ hs_check dx_a dx_b = true /\
  sound_check dx_a = true /\ sound_check dx_b = true.
Proof.
  rewrite dx_a_eq, dx_b_eq. destruct dx_checks as (H1&H2&H3). split; [reflexivity|]. split; [exact H1|].
  split; [exact (side_check_sound_check _ _ H2)|exact (side_check_sound_check _ _ H3)].
Qed.

(* DeliverP.dx_a (master; A1..A6) and dx_b (slave; B1, B2; rejects A2, defers A4), the link from a to b fails
   inside the transfer of A6 (second block, 400 of 426 bytes): the second session defers A4 again and delivers
   A6 -- and nothing else *)
Example converge_cut_in_transfer :
  cv_run dx_a dx_b 400 1000 =
  ((true, true, true),
   (XConnLost,
    [EvPrepare; EvAnswer [66;49] AAccept; EvAnswer [66;50] AAccept; EvProcess [66;49] [] true; EvProcess [66;50] [] true;
     EvGetOutbound; EvSetDeferred [65;52]; EvSetSent [65;50] true; EvSetSent [65;49] false; EvSetSent [65;51] false;
     EvSetSent [65;53] false; EvBlockEnd; EvGetOutbound; EvBlockEnd]),
   (XConnLost,
    [EvPrepare; EvGetOutbound; EvSetSent [66;49] false; EvSetSent [66;50] false; EvBlockEnd;
     EvAnswer [65;49] AAccept; EvAnswer [65;50] AReject; EvAnswer [65;51] AAccept; EvAnswer [65;52] ADefer;
     EvAnswer [65;53] AAccept; EvProcess [65;49] [] true; EvProcess [65;51] [] true; EvProcess [65;53] [] true;
     EvGetOutbound; EvAnswer [65;54] AAccept]),
   (XNil, [EvPrepare; EvGetOutbound; EvSetDeferred [65;52]; EvSetSent [65;54] false; EvBlockEnd; EvGetOutbound]),
   (XNil, [EvPrepare; EvGetOutbound; EvAnswer [65;52] ADefer; EvAnswer [65;54] AAccept; EvProcess [65;54] [] true;
           EvGetOutbound])).
Proof.
  apply (cv_run_m_spec _ _ _ _ 6 3). rewrite dx_a_eq, dx_b_eq. unfold cv_run_m.
  rewrite (cut_run_on dx_a_lit dx_b_lit 400 1000 6 _ dx_base).
  vm_compute. reflexivity.
Qed.

(* a slave with A1, A2 against a master with an empty outbox (cv2_: what is evaluated of this pair) *)
Definition cv_a2 : side_cfg := cx_side false (map dx_prop [[65;49];[65;50]]) [] [].
Definition cv_b0 (fail : list bytes) : side_cfg := cx_side true [] [] fail.

Definition cv_a2v : side_cfg := Eval vm_compute in cv_a2.
Lemma cv_a2_eq : cv_a2 = cv_a2v.
Proof.
  change cv_a2 with (cx_side false (firstn 2 (h_outbox (c_handler dx_a))) [] []).
  rewrite dx_a_eq. vm_compute. reflexivity.
Qed.

(* the complete session of cv_a2 and cv_b0 [] *)
Definition cv2_base := Eval vm_compute in base_run cv_a2v (cv_b0 []) 3.
Lemma cv2_base_eq : base_run cv_a2v (cv_b0 []) 3 = cv2_base.
Proof. vm_compute. reflexivity. Qed.

(* the first session of converge_cut_in_second_transfer and of ConvergeManyP.cv3_s1, evaluated once *)
Definition cv2_cut := Eval vm_compute in cut_run cv_a2 (cv_b0 []) 180 1000 3.
Lemma cv2_cut_eq : cut_run cv_a2 (cv_b0 []) 180 1000 3 = cv2_cut.
Proof. rewrite cv_a2_eq. rewrite (cut_run_on cv_a2v (cv_b0 []) 180 1000 3 cv2_base cv2_base_eq). vm_compute. reflexivity. Qed.

Example cv2_hypotheses fail :
  c_master cv_a2 = negb (c_master (cv_b0 fail)) /\ hs_check (cv_b0 fail) cv_a2 = true /\
  sound_check cv_a2 = true /\ sound_check (cv_b0 fail) = true.
Proof. rewrite cv_a2_eq. vm_compute. repeat split. Qed.

(* b receives everything up to and including the checksum byte behind the last EOT (210 of 213 bytes), stores
   both messages, the link towards a fails before b's next command (45 of 48 bytes), a reports nothing: in the
   second session b' rejects both proposals, a' records both as sent, there is no second transfer *)
Example converge_cut_before_next_command :
  cv_run cv_a2 (cv_b0 []) 210 45 =
  ((true, true, true),
   (XConnLost, [EvPrepare; EvGetOutbound; EvBlockEnd]),
   (XConnLost, [EvPrepare; EvAnswer [65;49] AAccept; EvAnswer [65;50] AAccept; EvProcess [65;49] [] true;
                EvProcess [65;50] [] true; EvGetOutbound]),
   (XNil, [EvPrepare; EvGetOutbound; EvSetSent [65;49] true; EvSetSent [65;50] true; EvBlockEnd; EvGetOutbound]),
   (XNil, [EvPrepare; EvAnswer [65;49] AReject; EvAnswer [65;50] AReject; EvGetOutbound])).
Proof.
  apply (cv_run_m_spec _ _ _ _ 3 2). rewrite cv_a2_eq. unfold cv_run_m.
  rewrite (cut_run_on cv_a2v (cv_b0 []) 210 45 3 cv2_base cv2_base_eq). vm_compute. reflexivity.
Qed.

(* the link fails inside the transfer of A2 (180 of 213 bytes): A1 is stored but not reported (reports come
   after the block); the second session reports A1 (rejected: b' has it) and delivers A2 *)
Example converge_cut_in_second_transfer :
  cv_run cv_a2 (cv_b0 []) 180 1000 =
  ((true, true, true),
   (XConnLost, [EvPrepare; EvGetOutbound; EvBlockEnd]),
   (XConnLost, [EvPrepare; EvAnswer [65;49] AAccept; EvAnswer [65;50] AAccept; EvProcess [65;49] [] true]),
   (XNil, [EvPrepare; EvGetOutbound; EvSetSent [65;49] true; EvSetSent [65;50] false; EvBlockEnd; EvGetOutbound]),
   (XNil, [EvPrepare; EvAnswer [65;49] AReject; EvAnswer [65;50] AAccept; EvProcess [65;50] [] true; EvGetOutbound])).
Proof. apply (cv_run_m_spec _ _ _ _ 3 3). unfold cv_run_m. rewrite cv2_cut_eq, cv_a2_eq. vm_compute. reflexivity. Qed.

(* no link failure, but b's store fails for A2 (h_fail): both sides end with an error, A1 is stored and not
   reported; the second session reports A1 (rejected) and delivers A2 *)
Example converge_after_storage_error :
  cv_run cv_a2 (cv_b0 [[65;50]]) 1000 1000 =
  ((true, true, false),
   (XOther, [EvPrepare; EvGetOutbound; EvBlockEnd]),
   (XOther, [EvPrepare; EvAnswer [65;49] AAccept; EvAnswer [65;50] AAccept; EvProcess [65;49] [] true;
             EvProcess [65;50] [] false]),
   (XNil, [EvPrepare; EvGetOutbound; EvSetSent [65;49] true; EvSetSent [65;50] false; EvBlockEnd; EvGetOutbound]),
   (XNil, [EvPrepare; EvAnswer [65;49] AReject; EvAnswer [65;50] AAccept; EvProcess [65;50] [] true; EvGetOutbound])).
Proof. apply (cv_run_m_spec _ _ _ _ 3 3). rewrite cv_a2_eq. vm_compute. reflexivity. Qed.

(* `convergence` for the pair dx_a, dx_b: every received string, every cut, every complete second session *)
Example convergence_dx (in_a : bytes) (k : nat) (in_a' in_b' : bytes) :
  let oa := exchange dx_a in_a in let ob := exchange dx_b (firstn k (x_wire oa)) in
  in_a = firstn (length in_a) (x_wire ob) ->
  let a' := next_cfg dx_a oa in let b' := next_cfg dx_b ob in
  closed a' b' in_a' in_b' ->
  let oa' := exchange a' in_a' in let ob' := exchange b' in_b' in
  x_res oa' = XNil /\ x_res ob' = XNil /\
  (forall p, In p (h_outbox (c_handler dx_a)) -> conv_entry dx_a dx_b oa ob oa' ob' p) /\
  (forall p, In p (h_outbox (c_handler dx_b)) -> conv_entry dx_b dx_a ob oa ob' oa' p).
Proof.
  destruct dx_hypotheses as (H1&H2&H3&H4).
  apply convergence; [exact H1|apply hs_check_sound; exact H2|apply sound_check_sound; exact H3|apply sound_check_sound; exact H4].
Qed.

(* and a complete second session exists, whatever the first one did *)
Example next_session_dx (oa ob : outcome) :
  exists in_a' in_b', closed (next_cfg dx_a oa) (next_cfg dx_b ob) in_a' in_b'.
Proof.
  destruct dx_hypotheses as (H1&H2&H3&H4).
  apply (next_session_resumes dx_a dx_b oa ob H1 (hs_check_sound _ _ H2) (sound_check_sound _ H3) (sound_check_sound _ H4)).
Qed.

Print Assumptions sent_only_if_received.
Print Assumptions next_session_resumes.
Print Assumptions convergence.
Print Assumptions conv_reported.
Print Assumptions conv_rejected.
Print Assumptions conv_deferred.
Print Assumptions conv_delivered.
Print Assumptions conv_delivered_cases.
Print Assumptions genuine_of_delivered.
Print Assumptions hs_compat_next.
Print Assumptions converge_cut_in_transfer.
Print Assumptions converge_cut_before_next_command.
Print Assumptions converge_cut_in_second_transfer.
Print Assumptions converge_after_storage_error.
Print Assumptions convergence_dx.
Print Assumptions next_session_dx.
