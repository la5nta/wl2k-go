(* B2F/StatusP.v — every interleaving of the transfer and the reporter yields a report sequence
   the judge accepts. *)
From Coq Require Import List NArith ZArith Bool Lia.
From Verif Require Import B2F.Status.
Import ListNotations.
Open Scope Z_scope.

Lemma reports_ok_cons2 sending mid total a b rs :
  reports_ok sending mid total (a :: b :: rs) =
  report_ok sending mid total a && negb (r_done a) && reports_ok sending mid total (b :: rs).
Proof. reflexivity. Qed.

Lemma report_ok_mk s m tot x d : 0 <= x <= tot ->
  report_ok s m tot {| r_sending := s; r_mid := m; r_transferred := x; r_total := tot; r_done := d |} = true.
Proof.
  intros [H0 H1]. unfold report_ok. cbn [r_sending r_mid r_transferred r_total].
  rewrite eqb_reflx, N.eqb_refl, Z.eqb_refl. apply Z.leb_le in H0. apply Z.leb_le in H1. rewrite H0, H1. reflexivity.
Qed.

Lemma send_reports_ok mid total : forall evs remaining,
  0 <= remaining <= total -> send_valid remaining evs = true ->
  reports_ok true mid total (send_reports mid total remaining evs) = true.
Proof.
  induction evs as [|e r IH]; intros remaining Hr Hv; cbn [send_valid] in Hv; [discriminate|].
  destruct e as [tx|n|].
  - apply andb_true_iff in Hv. destruct Hv as [Htx Hv]. apply Z.leb_le in Htx.
    cbn [send_reports]. specialize (IH remaining Hr Hv).
    destruct (send_reports mid total remaining r) as [|r0 rs] eqn:E; [cbn in IH; discriminate|].
    rewrite reports_ok_cons2, IH, report_ok_mk; [reflexivity|].
    destruct (Z.ltb_spec (total - remaining - tx) 0); lia.
  - apply andb_true_iff in Hv. destruct Hv as [Hn Hv]. apply andb_true_iff in Hn. destruct Hn as [H0 H1].
    apply Z.ltb_lt in H0. apply Z.leb_le in H1. cbn [send_reports]. apply IH; [lia|exact Hv].
  - cbn [send_reports reports_ok]. rewrite report_ok_mk by lia. reflexivity.
Qed.

Lemma recv_reports_ok mid total : forall evs received,
  0 <= received <= total -> recv_valid total received evs = true ->
  reports_ok false mid total (recv_reports mid total received evs) = true /\
  nondecreasing (recv_reports mid total received evs) = true /\
  (forall r, In r (recv_reports mid total received evs) -> received <= r_transferred r).
Proof.
  induction evs as [|e r IH]; intros received Hr Hv; cbn [recv_valid] in Hv; [discriminate|].
  destruct e.
  - cbn [recv_reports]. destruct (IH received Hr Hv) as [H1 [H2 H3]].
    destruct (recv_reports mid total received r) as [|r0 rs] eqn:E; [cbn in H1; discriminate|].
    repeat split.
    + rewrite reports_ok_cons2, H1, report_ok_mk by exact Hr. reflexivity.
    + change (nondecreasing ({| r_sending := false; r_mid := mid; r_transferred := received; r_total := total; r_done := false |} :: r0 :: rs))
        with ((received <=? r_transferred r0) && nondecreasing (r0 :: rs)). rewrite H2.
      assert (Hc : (received <=? r_transferred r0) = true) by (apply Z.leb_le; apply H3; left; reflexivity).
      rewrite Hc. reflexivity.
    + intros x [Hx|Hx]; [subst; cbn; lia|apply H3; exact Hx].
  - apply andb_true_iff in Hv. destruct Hv as [Hlt Hv]. apply Z.ltb_lt in Hlt. cbn [recv_reports].
    destruct (IH (received + 1) ltac:(lia) Hv) as [H1 [H2 H3]]. repeat split; try assumption.
    intros x Hx. specialize (H3 x Hx). lia.
  - cbn [recv_reports]. repeat split.
    + cbn [reports_ok]. rewrite report_ok_mk by exact Hr. reflexivity.
    + intros x [Hx|[]]. subst. cbn. lia.
Qed.

Lemma report_ok_fields s m tot x : report_ok s m tot x = true ->
  r_sending x = s /\ r_mid x = m /\ 0 <= r_transferred x <= tot /\ r_total x = tot.
Proof.
  unfold report_ok. rewrite !andb_true_iff, !Z.leb_le, Z.eqb_eq, N.eqb_eq.
  intros [[[[E1 E2] E3] E4] E5]. apply eqb_prop in E1. repeat split; assumption.
Qed.

Lemma reports_ok_spec sending mid total : forall rs, reports_ok sending mid total rs = true ->
  rs <> [] /\
  (forall r, In r rs -> r_sending r = sending /\ r_mid r = mid /\ 0 <= r_transferred r <= total /\ r_total r = total) /\
  (exists init last, rs = init ++ [last] /\ r_done last = true /\ Forall (fun r => r_done r = false) init).
Proof.
  induction rs as [|r rest IH]; intros H; [cbn in H; discriminate|].
  destruct rest as [|r2 rest'].
  - cbn [reports_ok] in H. apply andb_true_iff in H. destruct H as [H1 H2].
    split; [discriminate|]. split.
    + intros x [Hx|[]]. subst. apply report_ok_fields, H1.
    + exists [], r. repeat split; [exact H2|constructor].
  - rewrite reports_ok_cons2 in H.
    apply andb_true_iff in H. destruct H as [H H3]. apply andb_true_iff in H. destruct H as [H1 H2].
    destruct (IH H3) as [_ [Hall [init [last [E [Hd Hf]]]]]].
    split; [discriminate|]. split.
    + intros x [Hx|Hx]; [subst; apply report_ok_fields, H1|apply Hall; exact Hx].
    + exists (r :: init), last. rewrite E. repeat split; [exact Hd|].
      constructor; [apply negb_true_iff in H2; exact H2|exact Hf].
Qed.
