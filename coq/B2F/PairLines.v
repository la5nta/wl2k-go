(* B2F/PairLines.v -- inverse lemmas for the two-party development: what one side writes, the
   other side parses.  Proposal block written by handle_outbound -> inbound_loop; answer line
   written by inbound_loop -> read_reply / parse_answers. *)
From Coq Require Import List NArith ZArith Bool Lia ZifyN ZifyNat ZifyBool.
From Verif Require Import Base.Bytes Base.BytesP Base.Utf8 gen.Tables Lzhuf.Dec Msg.Message B2F.Secure B2F.Side B2F.SideP
  B2F.TermP B2F.CodecP B2F.CutP B2F.GrammarP B2F.PairDefs.
Import ListNotations.
Open Scope N_scope.

Lemma read_until_notin c l rest : ~ In c l -> read_until c (l ++ c :: rest) = Some (l, rest).
Proof. intros H. unfold read_until. rewrite split_at_app by exact H. reflexivity. Qed.

(* an ASCII byte that is neither white space nor NUL *)
Definition okb (b : N) : bool := (b <? 128) && negb (is_space_rune b) && negb (b =? 0).
Definition ends_with (y : N) (l : bytes) : Prop := exists m, l = m ++ [y].

Lemma ends_with_app y a b : ends_with y b -> ends_with y (a ++ b).
Proof. intros [m ->]. exists (a ++ m). apply app_assoc. Qed.
Lemma ends_with_cons y x b : ends_with y b -> ends_with y (x :: b).
Proof. intros [m ->]. exists (x :: m). reflexivity. Qed.
Lemma ends_with_one y : ends_with y [y].
Proof. exists []. reflexivity. Qed.

Lemma rev'_involutive {A} (l : list A) : rev' (rev' l) = l.
Proof. rewrite !rev'_rev. apply rev_involutive. Qed.

Lemma okb_ascii b : okb b = true -> b < 128 /\ is_space_rune b = false.
Proof.
  unfold okb. intros H. apply andb_true_iff in H. destruct H as [H _]. apply andb_true_iff in H. destruct H as [H1 H2].
  split; [apply N.ltb_lt, H1|apply negb_true_iff, H2].
Qed.

Lemma trim_space_id x m y : okb x = true -> okb y = true -> ends_with y (x :: m) ->
  trim_space (x :: m) = x :: m.
Proof.
  intros Hx Hy [m0 E]. apply trim_space_go_id.
  - intros a r [= <- _]. apply okb_ascii, Hx.
  - intros i z E2. rewrite E in E2. apply app_inj_tail in E2. destruct E2 as [_ <-]. apply okb_ascii, Hy.
Qed.

Lemma clean_string_id x m y : okb x = true -> okb y = true -> ends_with y (x :: m) ->
  clean_string (x :: m) = x :: m.
Proof.
  intros Hx Hy He. unfold clean_string. rewrite (trim_space_id x m y Hx Hy He).
  unfold okb in Hx, Hy.
  apply andb_true_iff in Hx. destruct Hx as [_ Hx]. apply negb_true_iff in Hx.
  apply andb_true_iff in Hy. destruct Hy as [_ Hy]. apply negb_true_iff in Hy.
  rewrite Hx. destruct He as [m0 E]. rewrite rev'_rev. rewrite E at 1. rewrite rev_app_distr. cbn [rev app].
  destruct y as [|py]; [discriminate|]. reflexivity.
Qed.

Lemma next_line_gen pe s l rest : ~ In 13 l -> clean_string l = l -> (pe = true -> err_line l = false) ->
  s_in s = l ++ 13 :: rest -> next_line pe s = ROk (l, set_in s rest).
Proof.
  intros Hn Hc He Hs. unfold next_line. rewrite Hs, read_until_notin by exact Hn.
  cbv zeta. rewrite Hc. destruct pe; [rewrite (He eq_refl)|]; reflexivity.
Qed.

(* a line that starts with 'F', ends with a clean ASCII byte and contains no CR *)
Definition fline (l : bytes) : Prop := ~ In 13 l /\ exists m y, l = 70 :: m /\ ends_with y l /\ okb y = true.

Lemma fline_clean l : fline l -> clean_string l = l.
Proof. intros [_ [m [y [-> [He Hy]]]]]. apply (clean_string_id 70 m y); [reflexivity|exact Hy|exact He]. Qed.

Lemma fline_err l : fline l -> err_line l = false.
Proof. intros [_ [m [y [-> _]]]]. reflexivity. Qed.

Lemma next_line_fline pe s l rest : fline l -> s_in s = l ++ 13 :: rest ->
  next_line pe s = ROk (l, set_in s rest).
Proof.
  intros H Hs. apply next_line_gen; [exact (proj1 H)|apply fline_clean; exact H|intros _; apply fline_err; exact H|exact Hs].
Qed.

(* holds by conversion; a proof rewrites with it where unfold or cbn would also open dec_of_N and the
   rest (so set_in_set_in below, PairXfer.wire_ev, CutP.finish_res) *)
Lemma proposal_line_eq p :
  proposal_line p = 70 :: 67 :: 32 :: 69 :: 77 :: 32 :: o_mid p ++ 32 :: dec_of_N (o_size p) ++ 32 ::
                    dec_of_N (N.of_nat (length (o_cdata p))) ++ [32; 48].
Proof. reflexivity. Qed.

Lemma proposal_line_fline p : mid_ok (o_mid p) -> fline (proposal_line p).
Proof.
  intros [Hm _]. rewrite proposal_line_eq. split.
  - intros Hi. cbn [In] in Hi.
    repeat (destruct Hi as [Hi|Hi]; [discriminate|]).
    apply in_app_iff in Hi. destruct Hi as [Hi|Hi]; [exact (Hm Hi)|].
    destruct Hi as [Hi|Hi]; [discriminate|].
    apply in_app_iff in Hi. destruct Hi as [Hi|Hi]; [revert Hi; apply dec_notin; reflexivity|].
    destruct Hi as [Hi|Hi]; [discriminate|].
    apply in_app_iff in Hi. destruct Hi as [Hi|Hi]; [revert Hi; apply dec_notin; reflexivity|].
    cbn [In] in Hi. repeat (destruct Hi as [Hi|Hi]; [discriminate|]). exact Hi.
  - eexists. exists 48. split; [reflexivity|]. split; [|reflexivity].
    do 6 apply ends_with_cons. apply ends_with_app. apply ends_with_cons. apply ends_with_app.
    apply ends_with_cons. apply ends_with_app. apply ends_with_cons. apply ends_with_one.
Qed.

Definition ck_line (n : N) : bytes := [70; 62; 32] ++ fmt_02X n.
Definition ck_line_ok (n : N) : bool :=
  beq_bytes (clean_string (ck_line n)) (ck_line n) && negb (in_list 13 (ck_line n)) &&
  Z.eqb (parse_hex_ignore_err (trim_space (32 :: fmt_02X n))) (Z.of_N n).

Lemma ck_line_ok_all : forall n, n < 256 -> ck_line_ok n = true.
Proof. apply byte_sweep. vm_compute. reflexivity. Qed.

Lemma in_list_false c l : in_list c l = false -> ~ In c l.
Proof.
  unfold in_list. intros H Hi. assert (E : existsb (fun y => y =? c) l = true).
  { apply existsb_exists. exists c. split; [exact Hi|apply N.eqb_refl]. }
  congruence.
Qed.

Lemma ck_line_facts n : n < 256 ->
  clean_string (ck_line n) = ck_line n /\ ~ In 13 (ck_line n) /\
  parse_hex_ignore_err (trim_space (32 :: fmt_02X n)) = Z.of_N n.
Proof.
  intros H. pose proof (ck_line_ok_all n H) as Hk. unfold ck_line_ok in Hk.
  apply andb_true_iff in Hk. destruct Hk as [Hk H3]. apply andb_true_iff in Hk. destruct Hk as [H1 H2].
  split; [apply beq_bytes_true; exact H1|]. split; [apply in_list_false, negb_true_iff; exact H2|].
  apply Z.eqb_eq. exact H3.
Qed.

Lemma next_line_ck pe s n rest : n < 256 -> s_in s = ck_line n ++ 13 :: rest ->
  next_line pe s = ROk (ck_line n, set_in s rest).
Proof.
  intros H Hs. destruct (ck_line_facts n H) as [H1 [H2 _]].
  apply next_line_gen; [exact H2|exact H1|intros _; reflexivity|exact Hs].
Qed.

Lemma answer_line_fline answers : answers <> [] -> fline ([70; 83; 32] ++ map answer_byte answers).
Proof.
  intros Hne. split.
  - cbn [app In]. intros Hi. repeat (destruct Hi as [Hi|Hi]; [discriminate|]).
    apply in_map_iff in Hi. destruct Hi as [a [Ha _]]. destruct a; discriminate.
  - destruct (exists_last Hne) as [l [a ->]].
    eexists. exists (answer_byte a). split; [reflexivity|]. split; [|destruct a; reflexivity].
    apply ends_with_app. rewrite map_app. apply ends_with_app. apply ends_with_one.
Qed.

Lemma length2_ltb {A} (a b : A) l : (length (a :: b :: l) <? 2)%nat = false.
Proof. apply Nat.ltb_ge. cbn [length]. lia. Qed.

(* a proposal line "FC ty mid size csize x" (or "FD ..."): what the proposal loop does with it *)
Lemma il_line_shape s1 props lines c rest ty mid us cs zero :
  c = 67 \/ c = 68 -> split_on 32 rest = [ty; mid; us; cs; zero] -> type_ok ty = true ->
  il_line s1 props lines (70 :: c :: 32 :: rest) =
  IlCont ({| i_code := c; i_mid := mid; i_size := atoi_ignore_err us; i_csize := atoi_ignore_err cs; i_answer := ADefer |} :: props)
         ((70 :: c :: 32 :: rest) :: lines).
Proof.
  intros Hc Hs Hty. destruct rest as [|x rest']; [discriminate Hs|].
  assert (E : in_list c [65; 66; 67; 68] = true /\ (c =? BasicProposal) || (c =? AsciiProposal) = false /\
              (c =? Wl2kProposal) || (c =? GzipProposal) = true) by (destruct Hc as [-> | ->]; repeat split).
  destruct E as (E0&E1&E2). unfold il_line, parse_proposal.
  change (prefixb str_PM (70 :: c :: 32 :: x :: rest')) with false. change (70 =? 59) with false. cbv iota.
  rewrite length2_ltb. change (negb (70 =? 70)) with false. cbv iota. rewrite E0, E1, E2.
  change (slice_from 3 (70 :: c :: 32 :: x :: rest')) with (Some (x :: rest')). cbv iota. rewrite Hs, Hty. reflexivity.
Qed.

Lemma proposal_line_split p : mid_ok (o_mid p) ->
  exists rest, proposal_line p = 70 :: 67 :: 32 :: rest /\
    split_on 32 rest = [[69; 77]; o_mid p; dec_of_N (o_size p); dec_of_N (N.of_nat (length (o_cdata p))); [48]].
Proof.
  intros [_ Hm]. rewrite proposal_line_eq. eexists. split; [reflexivity|].
  change (69 :: 77 :: 32 :: ?x) with ([69; 77] ++ 32 :: x).
  rewrite split_on_app by (cbn [In]; intros [H|[H|H]]; [discriminate|discriminate|exact H]).
  rewrite split_on_app by exact Hm.
  rewrite split_on_app by (apply dec_notin; reflexivity).
  change [32; 48] with (32 :: [48]).
  rewrite split_on_app by (apply dec_notin; reflexivity).
  reflexivity.
Qed.

Lemma il_line_proposal s1 props lines p : prop_syn p ->
  il_line s1 props lines (proposal_line p) = IlCont (iprop_of p ADefer :: props) (proposal_line p :: lines).
Proof.
  intros [Hm [_ Hc]]. destruct (proposal_line_split p Hm) as (rest&->&Hs).
  rewrite (il_line_shape _ _ _ _ _ _ _ _ _ _ (or_introl eq_refl) Hs eq_refl).
  unfold iprop_of. rewrite (atoi_dec_of_N (N.of_nat _)) by lia. do 3 f_equal. lia.
Qed.

Lemma il_line_ck s1 props lines n : n < 256 ->
  il_line s1 props lines (ck_line n) =
  if negb (Z.of_N (block_checksum (rev' lines)) =? Z.of_N n)%Z then IlDone (RFail EOther s1)
  else match props with
       | [] => IlDone (ROk (false, [], set_nomsgs s1 true))
       | _ => let '(s2, answered) := answer_props (set_nomsgs s1 false) (rev' props) [] [] in
              IlDone (ROk (false, answered,
                           wr s2 ([70; 83; 32] ++ map (fun p => answer_byte (i_answer p)) answered ++ [13])))
       end.
Proof.
  intros H. destruct (ck_line_facts n H) as [_ [_ Hp]].
  unfold il_line, ck_line. cbn [app]. set (r := fmt_02X n) in *.
  change (prefixb str_PM (70 :: 62 :: 32 :: r)) with false. cbv iota.
  change (70 =? 59) with false. cbv iota.
  rewrite length2_ltb. change (false || negb (70 =? 70)) with false. cbv iota.
  change (in_list 62 [65; 66; 67; 68]) with false. cbv iota.
  change (62 =? 70) with false. change (62 =? 81) with false. change (62 =? 62) with true. cbv iota.
  change (slice_from 2 (70 :: 62 :: 32 :: r)) with (Some (32 :: r)). cbv iota zeta beta.
  rewrite Hp. reflexivity.
Qed.

Definition block_lines (block : list oprop) : bytes :=
  concat (map (fun l => l ++ [13]) (map proposal_line block)).

Lemma set_in_set_in s a b : set_in (set_in s a) b = set_in s b.
Proof. reflexivity. Qed.

Lemma inbound_block_gen : forall todo done s rest f,
  Forall prop_syn todo -> done ++ todo <> [] ->
  s_in s = block_lines todo ++ ck_line (block_checksum (map proposal_line (done ++ todo))) ++ 13 :: rest ->
  (length todo < f)%nat ->
  inbound_loop f s (rev (map (fun p => iprop_of p ADefer) done)) (rev (map proposal_line done)) =
    let '(s2, answered) := answer_props (set_nomsgs (set_in s rest) false)
                             (map (fun p => iprop_of p ADefer) (done ++ todo)) [] [] in
    ROk (false, answered, wr s2 ([70; 83; 32] ++ map (fun p => answer_byte (i_answer p)) answered ++ [13])).
Proof.
  induction todo as [|p todo IH]; intros done s rest f Hsyn Hne Hs Hf; (destruct f as [|f]; [cbn [length] in Hf; lia|]).
  - rewrite app_nil_r in *. cbn [block_lines map concat app] in Hs.
    rewrite inbound_loop_eq.
    rewrite (next_line_ck true s _ rest (block_checksum_lt _) Hs).
    rewrite il_line_ck by apply block_checksum_lt.
    rewrite rev'_rev, rev_involutive, Z.eqb_refl. cbn [negb].
    rewrite rev'_rev, rev_involutive.
    destruct (rev (map (fun p => iprop_of p ADefer) done)) as [|x l] eqn:E.
    + exfalso. apply (f_equal (@length _)) in E. rewrite rev_length, map_length in E.
      destruct done; [congruence|discriminate].
    + destruct (answer_props (set_nomsgs (set_in s rest) false) (map (fun p => iprop_of p ADefer) done) [] []) as [s2 answered].
      reflexivity.
  - inversion Hsyn as [|? ? Hp Hsyn']; subst.
    unfold block_lines in Hs. cbn [map concat] in Hs. fold (block_lines todo) in Hs.
    rewrite <- !app_assoc in Hs. cbn [app] in Hs.
    rewrite inbound_loop_eq.
    rewrite (next_line_fline true s (proposal_line p) _ (proposal_line_fline p (proj1 Hp)) Hs).
    rewrite il_line_proposal by exact Hp.
    specialize (IH (done ++ [p]) (set_in s (block_lines todo ++
                     ck_line (block_checksum (map proposal_line (done ++ p :: todo))) ++ 13 :: rest)) rest f Hsyn').
    rewrite <- app_assoc in IH. cbn [app] in IH.
    rewrite !map_app, !rev_app_distr in IH. cbn [map rev app] in IH.
    rewrite set_in_set_in in IH. rewrite !map_app. cbn [map]. apply IH.
    + exact Hne.
    + reflexivity.
    + cbn [length] in Hf. lia.
Qed.

Lemma block_lines_length block : (length block <= length (block_lines block))%nat.
Proof.
  unfold block_lines. induction block as [|p r IH]; cbn [map concat length]; [lia|].
  rewrite !app_length. cbn [length]. lia.
Qed.

Lemma inbound_block block s rest f :
  block <> [] -> Forall prop_syn block -> s_in s = proposal_bytes block ++ rest -> (length (s_in s) < f)%nat ->
  inbound_loop f s [] [] =
    let '(s2, answered) := answer_props (set_nomsgs (set_in s rest) false) (map (fun p => iprop_of p ADefer) block) [] [] in
    ROk (false, answered, wr s2 ([70; 83; 32] ++ map (fun p => answer_byte (i_answer p)) answered ++ [13])).
Proof.
  intros Hne Hsyn Hs Hf.
  assert (Hs' : s_in s = block_lines block ++ ck_line (block_checksum (map proposal_line ([] ++ block))) ++ 13 :: rest).
  { rewrite Hs. unfold proposal_bytes, block_lines, ck_line. cbv zeta. rewrite <- !app_assoc. reflexivity. }
  apply (inbound_block_gen block [] s rest f Hsyn Hne Hs').
  rewrite Hs' in Hf. rewrite app_length in Hf. pose proof (block_lines_length block). lia.
Qed.

(* answering records the answers and changes nothing else; each answer is "defer" or what the policy
   says; with a handler, and MIDs that are distinct and not yet seen, the answers are the policy *)
Lemma answer_props_zip_pol : forall block s seen acc, exists answers s' E,
  length answers = length block /\
  answer_props s (map (fun p => iprop_of p ADefer) block) seen acc = (s', rev' acc ++ zip_props block answers) /\
  s_ev s' = E ++ s_ev s /\ Forall (fun e => exists m a, e = EvAnswer m a) E /\
  s_in s' = s_in s /\ s_out s' = s_out s /\ s_h s' = s_h s /\ s_remote_nomsgs s' = s_remote_nomsgs s /\
  (forall p a, In (p, a) (combine block answers) -> a = ADefer \/ a = policy_of (s_h s) (o_mid p)) /\
  (h_present (s_h s) = true -> NoDup (map o_mid block) -> (forall p, In p block -> mem_bytes (o_mid p) seen = false) ->
   answers = map (fun p => policy_of (s_h s) (o_mid p)) block).
Proof.
  induction block as [|p r IH]; intros s seen acc.
  { exists [], s, []. cbn [map answer_props zip_props combine]. rewrite app_nil_r. repeat split. constructor. intros ? ? []. }
  cbn [map answer_props]. cbn [iprop_of i_mid i_code].
  change ((Wl2kProposal =? Wl2kProposal) || (Wl2kProposal =? GzipProposal)) with true. cbn [negb]. rewrite orb_false_r.
  destruct (mem_bytes (o_mid p) seen || negb (h_present (s_h s))) eqn:Ec.
  - destruct (IH s (o_mid p :: seen) (with_answer (iprop_of p ADefer) ADefer :: acc)) as (ans&s'&E&Hl&Eq&R).
    exists (ADefer :: ans), s', E. split; [cbn [length]; lia|]. split.
    { rewrite Eq, !rev'_rev. cbn [rev]. rewrite <- app_assoc. reflexivity. }
    destruct R as (V&Fa&I'&O'&H'&N'&Ha&_). repeat (split; [assumption|]).
    split; [intros q a [K|K]; [inversion K; auto|exact (Ha q a K)]|].
    intros Hpr _ Hseen. rewrite (Hseen p (or_introl eq_refl)), Hpr in Ec. discriminate Ec.
  - set (a := policy_of (s_h s) (o_mid p)).
    destruct (IH (ev s (EvAnswer (o_mid p) a)) (o_mid p :: seen) (with_answer (iprop_of p ADefer) a :: acc))
      as (ans&s'&E&Hl&Eq&V&Fa&I'&O'&H'&N'&Ha&Hpol).
    exists (a :: ans), s', (E ++ [EvAnswer (o_mid p) a]). split; [cbn [length]; lia|]. split.
    { rewrite Eq, !rev'_rev. cbn [rev]. rewrite <- app_assoc. reflexivity. }
    split; [rewrite V, <- app_assoc; reflexivity|].
    split; [apply Forall_app; split; [exact Fa|constructor; [exists (o_mid p), a; reflexivity|constructor]]|].
    repeat (split; [assumption|]).
    split; [intros q b [K|K]; [inversion K; subst; right; reflexivity|exact (Ha q b K)]|].
    intros Hpr Hnd Hseen. inversion Hnd as [|? ? Hnot Hnd']; subst. cbn [map]. f_equal. apply Hpol; [exact Hpr|exact Hnd'|].
    intros q Hq. change (mem_bytes (o_mid q) (o_mid p :: seen)) with (beq_bytes (o_mid q) (o_mid p) || mem_bytes (o_mid q) seen).
    rewrite (Hseen q (or_intror Hq)), orb_false_r.
    apply beq_bytes_neq. intros X. apply Hnot. rewrite <- X. apply in_map, Hq.
Qed.

Lemma read_reply_fs answers s rest f :
  answers <> [] -> s_in s = fs_line answers ++ rest -> (length (s_in s) < f)%nat ->
  read_reply f s = ROk ([70; 83; 32] ++ map answer_byte answers, set_in s rest).
Proof.
  intros Hne Hs Hf. destruct f as [|f]; [lia|]. cbn [read_reply].
  assert (Hs' : s_in s = ([70; 83; 32] ++ map answer_byte answers) ++ 13 :: rest).
  { rewrite Hs. unfold fs_line. rewrite <- !app_assoc. reflexivity. }
  rewrite (next_line_fline true s _ rest (answer_line_fline answers Hne) Hs'). reflexivity.
Qed.

Lemma parse_answers_bytes answers : forall f n acc, (length answers < f)%nat -> (length answers <= n)%nat ->
  parse_answers f (map answer_byte answers) n acc = Some (rev' acc ++ map (fun a => PAns a 0%Z) answers).
Proof.
  induction answers as [|a r IH]; intros f n acc Hf Hn; (destruct f as [|f]; [cbn [length] in Hf; lia|]).
  - cbn [map parse_answers]. rewrite app_nil_r. reflexivity.
  - destruct n as [|n]; [cbn [length] in Hn; lia|]. cbn [length] in Hf, Hn.
    cbn [map parse_answers].
    destruct a;
      [change (in_list (answer_byte AAccept) [89; 121; 43]) with true
      |change (in_list (answer_byte AReject) [89; 121; 43]) with false;
       change (in_list (answer_byte AReject) [78; 110; 82; 114; 45]) with true
      |change (in_list (answer_byte ADefer) [89; 121; 43]) with false;
       change (in_list (answer_byte ADefer) [78; 110; 82; 114; 45]) with false;
       change (in_list (answer_byte ADefer) [76; 108; 61; 72; 104]) with true];
      cbv iota; rewrite IH by lia; rewrite !rev'_rev; cbn [rev]; rewrite <- app_assoc; reflexivity.
Qed.

Lemma proposal_bytes_wire block s0 : wire (ho_propose block s0) = wire s0 ++ proposal_bytes block.
Proof. exact (does_wire _ _ _ (ho_propose_does block s0)). Qed.

Lemma inbound_ff s rest f : s_in s = [70;70;13] ++ rest -> (0 < f)%nat ->
  inbound_loop f s [] [] = ROk (false, [], set_nomsgs (set_in s rest) true).
Proof.
  intros Hs Hf. destruct f as [|f]; [lia|]. rewrite inbound_loop_eq.
  rewrite (next_line_gen true s [70; 70] rest); [reflexivity| |reflexivity|intros _; reflexivity|exact Hs].
  cbn [In]. intros [H|[H|H]]; [discriminate|discriminate|exact H].
Qed.

Lemma inbound_fq s rest f : s_in s = [70;81;13] ++ rest -> (0 < f)%nat ->
  inbound_loop f s [] [] = ROk (true, [], set_in s rest).
Proof.
  intros Hs Hf. destruct f as [|f]; [lia|]. rewrite inbound_loop_eq.
  rewrite (next_line_gen true s [70; 81] rest); [reflexivity| |reflexivity|intros _; reflexivity|exact Hs].
  cbn [In]. intros [H|[H|H]]; [discriminate|discriminate|exact H].
Qed.

Print Assumptions inbound_block.
Print Assumptions read_reply_fs.
Print Assumptions parse_answers_bytes.
Print Assumptions proposal_bytes_wire.
Print Assumptions inbound_ff.
Print Assumptions inbound_fq.
