(* B2F/PairXfer.v -- inverse lemmas for the framed message transfers of the two-party development:
   what write_compressed / send_accepted of one side writes (write_compressed_zero, send_accepted_zero, with
   the deferred entries recorded), read_compressed of the other side reads back (read_compressed_xfer) --
   unless the title sent has a NUL, which no receiver accepts (read_compressed_nul_title).  Read from a
   shorter and from a longer input, an accepted transfer is the same payload (read_compressed_agree), also
   when the shorter input ends behind the EOT, the cut that causality (CutP.read_compressed_ext) leaves out.
   mark_sent_events, sent_of_accepted: where a "sent" mark comes from. *)
From Coq Require Import List NArith ZArith Bool Lia ZifyN ZifyNat ZifyBool.
From Verif Require Import Base.Bytes Base.BytesP Base.Utf8 gen.Tables Lzhuf.Dec Msg.Message B2F.Secure B2F.Side B2F.SideP
  B2F.TermP B2F.CodecP B2F.CutP B2F.PairDefs B2F.PairLines.
Import ListNotations.
Open Scope N_scope.

Lemma wire_wr s b : wire (wr s b) = wire s ++ b.
Proof.
  unfold wire. cbn [wr s_out rev]. rewrite concat_app. cbn [concat]. rewrite app_nil_r. reflexivity.
Qed.

Lemma wire_ev s e : wire (ev s e) = wire s.
Proof. reflexivity. Qed.
Lemma wire_mark_gone s m : wire (mark_gone s m) = wire s.
Proof. reflexivity. Qed.

(* the transfer with the parts of the header and the frames separated *)
Lemma xfer_bytes_eq p rest :
  xfer_bytes p ++ rest =
  CHRSOH :: N.of_nat (length (firstn 80 (o_title p)) + 3) :: firstn 80 (o_title p) ++
  CHRNUL :: 48 :: CHRNUL ::
  (data_chunks (S (length (o_cdata p))) (o_cdata p) ++ [CHREOT; (256 - sumN (o_cdata p) mod 256) mod 256] ++ rest).
Proof.
  unfold xfer_bytes. cbv zeta. cbn [app]. rewrite <- !app_assoc. cbn [app]. rewrite <- !app_assoc. reflexivity.
Qed.

Lemma write_compressed_zero s p :
  (6 <= length (o_cdata p))%nat -> exists s', write_compressed s p 0 = ROk s' /\ does (act [] (xfer_bytes p) []) s s'.
Proof.
  intros H. unfold write_compressed.
  change (0 <? 0)%Z with false. cbn [orb].
  destruct (Z.of_nat (length (o_cdata p)) <? 0)%Z eqn:E1; [lia|].
  cbv zeta.
  destruct (Z.of_nat (length (o_cdata p)) <? 6)%Z eqn:E2; [lia|].
  eexists. split; [reflexivity|]. apply (does_eq _ _ _ _ (does_trans _ _ _ _ _ (does_wr s _) (does_wr _ _))).
  unfold andthen, act. cbn [e_rd e_wr e_ev e_rc e_nm app]. f_equal.
  change (Z.to_nat 0) with 0%nat. change (dec_of_Z 0) with [48]. cbn [skipn length].
  pose proof (firstn_le_length 80 (o_title p)) as Hl.
  assert (Hm : N.of_nat (length (firstn 80 (o_title p)) + 1 + 2) mod 256 = N.of_nat (length (firstn 80 (o_title p)) + 3)).
  { rewrite N.mod_small by lia. f_equal. lia. }
  rewrite Hm. unfold xfer_bytes. cbv zeta. cbn [app]. rewrite <- !app_assoc. cbn [app]. reflexivity.
Qed.

Lemma read_compressed_xfer s p ip rest :
  ~ In 0 (firstn 80 (o_title p)) -> i_csize ip = Z.of_nat (length (o_cdata p)) ->
  s_in s = xfer_bytes p ++ rest ->
  read_compressed s ip = ROk (o_cdata p, set_in s rest).
Proof.
  intros Ht Hc Hi. unfold read_compressed. rewrite Hi, xfer_bytes_eq.
  change (CHRSOH =? CHRSOH) with true. cbv iota.
  rewrite (read_until_notin CHRNUL _ _ Ht).
  set (W := data_chunks (S (length (o_cdata p))) (o_cdata p) ++ [CHREOT; (256 - sumN (o_cdata p) mod 256) mod 256] ++ rest).
  change (read_until CHRNUL (48 :: CHRNUL :: W)) with (Some ([48], W)). cbv iota beta.
  cbn [length].
  assert (Hn : (N.to_nat (N.of_nat (length (firstn 80 (o_title p)) + 3)) =? length (firstn 80 (o_title p)) + 1 + 2)%nat = true).
  { apply Nat.eqb_eq. lia. }
  rewrite Hn. cbn [negb]. cbv iota.
  change (num_of_digits [48] 0) with (Some 0).
  cbv iota. change (9223372036854775807 <? 0) with false. cbv iota.
  change (negb (0 =? 0)) with false. cbv iota.
  rewrite Hc. unfold W. rewrite (frames_roundtrip (o_cdata p) rest). reflexivity.
Qed.

(* the same transfer read from a shorter and from a longer input *)
Lemma read_frames_agree i2 f1 f2 i1 buf sum cs d r d' r' :
  (length i1 < f1)%nat -> (length i1 + length i2 < f2)%nat ->
  read_frames f1 i1 buf sum cs = FOk d r -> read_frames f2 (i1 ++ i2) buf sum cs = FOk d' r' ->
  d = d' /\ exists j', r' = r ++ j'.
Proof.
  intros H1 H2 F1 F2. destruct (read_frames_ext i2 f1 f2 i1 buf sum cs H1 H2) as [[_ K]|K].
  - destruct (K d r F1) as [-> K']. rewrite F2 in K'. split; [symmetry; exact K'|exists r'; reflexivity].
  - rewrite F1, F2 in K. destruct K as [K _]. injection K as -> ->. split; [reflexivity|exists i2; reflexivity].
Qed.

Lemma set_in_ext j s r j' : set_in (ext j s) (r ++ j') = ext j' (set_in s r).
Proof. reflexivity. Qed.

Lemma read_compressed_agree s ip j cd s1 cd' s2 :
  read_compressed s ip = ROk (cd, s1) -> read_compressed (ext j s) ip = ROk (cd', s2) ->
  cd = cd' /\ exists j', s2 = ext j' s1.
Proof.
  intros H1 H2.
  destruct (read_compressed_ok _ _ _ _ H1) as (hl&r1&title&r2&offs&r3&Ein&E1&E2&_&F1&Es1).
  destruct (read_compressed_ok _ _ _ _ H2) as (hl'&r1'&title'&r2'&offs'&r3'&Ein'&E1'&E2'&_&F2&Es2).
  change (s_in (ext j s)) with (s_in s ++ j) in Ein'. rewrite Ein in Ein'. cbn [app] in Ein'. injection Ein' as _ <-.
  rewrite (read_until_app _ _ j _ _ E1) in E1'. injection E1' as _ <-.
  rewrite (read_until_app _ _ j _ _ E2) in E2'. injection E2' as _ <-.
  assert (L2 : (length r3 + length j < S (length (r3 ++ j)))%nat) by (rewrite app_length; lia).
  destruct (read_frames_agree j _ _ _ _ _ _ _ _ _ _ (Nat.lt_succ_diag_r _) L2 F1 F2) as [Hd [j' Hr]].
  split; [exact Hd|]. exists j'. rewrite Es2, Hr, Es1. reflexivity.
Qed.

Fixpoint deferred (block : list oprop) (answers : list answer) : list bytes :=
  match block, answers with
  | p :: ps, a :: r => (match a with ADefer => [o_mid p] | _ => [] end) ++ deferred ps r
  | _, _ => []
  end.

(* every answer at offset 0: the accepted proposals are transferred, the deferred ones recorded
   and marked gone *)
Lemma send_accepted_zero block : forall answers s sent, length answers = length block -> Forall prop_syn block ->
  exists s4, send_accepted s block (map (fun a => PAns a 0%Z) answers) sent = ROk (s4, rev (sent_of block answers) ++ sent) /\
    does (act [] (xfers block answers) (rev (map EvSetDeferred (deferred block answers)))) s s4.
Proof.
  induction block as [|p ps IH]; intros answers s sent Hl Hf.
  { destruct answers; [|discriminate]. exists s. split; [reflexivity|apply does_refl]. }
  destruct answers as [|a r]; [discriminate|]. cbn [length] in Hl. injection Hl as Hl.
  inversion Hf as [|? ? Hp Hf']; subst.
  cbn [map send_accepted sent_of xfers deferred]. destruct a; cbn [app].
  - destruct Hp as (_ & Hlen & _).
    destruct (write_compressed_zero s p Hlen) as (s1 & -> & D1).
    destruct (IH r s1 ((o_mid p, false) :: sent) Hl Hf') as (s4 & -> & D4).
    exists s4. split; [cbn [app rev]; rewrite <- app_assoc; reflexivity|].
    apply (does_eq _ _ _ _ (does_trans _ _ _ _ _ D1 D4)). unfold andthen, act. cbn. rewrite app_nil_r. reflexivity.
  - destruct (IH r s ((o_mid p, true) :: sent) Hl Hf') as (s4 & -> & R).
    exists s4. split; [cbn [app rev]; rewrite <- app_assoc; reflexivity|exact R].
  - destruct (IH r (ev (mark_gone s (o_mid p)) (EvSetDeferred (o_mid p))) sent Hl Hf') as (s4 & -> & D4).
    exists s4. split; [reflexivity|]. exact (does_trans _ _ _ _ _ (does_mark s _ (EvSetDeferred (o_mid p)) eq_refl eq_refl) D4).
Qed.

Lemma split_at_len c : forall l a r, split_at c l = (a, Some r) -> (length a <= length l)%nat.
Proof. intros l a r H. apply split_at_Some in H. destruct H as [-> _]. rewrite app_length. lia. Qed.

Lemma read_until_prefix_len c a b o r : read_until c (a ++ c :: b) = Some (o, r) -> (length o <= length a)%nat.
Proof.
  destruct (in_dec N.eq_dec c a) as [Hi|Hn].
  - destruct (In_split_first c a Hi) as (a1&a2&->&Hn). rewrite <- app_assoc. cbn [app].
    rewrite read_until_notin by exact Hn. intros H; inversion H; subst. rewrite app_length. lia.
  - rewrite read_until_notin by exact Hn. intros H; inversion H; subst. lia.
Qed.

(* a title with a NUL among the 80 bytes sent: the receiver finds the two NUL terminated fields
   too early and the header length does not match; whatever initial part of the transfer it is
   given, it does not accept it *)
Lemma read_compressed_nul_title s p ip R cd s1 :
  In 0 (firstn 80 (o_title p)) -> prefix (s_in s) (xfer_bytes p ++ R) ->
  read_compressed s ip = ROk (cd, s1) -> False.
Proof.
  intros Hnul [x Hx] H. rewrite xfer_bytes_eq in Hx.
  destruct (read_compressed_ok _ _ _ _ H) as (hl&r1&title&r2&offs&r3&Ein&E1&E2&Hl&_).
  destruct (In_split_first 0 _ Hnul) as (t1&t2&Et&Hn1). rewrite Et, app_length in Hx. cbn [length] in Hx.
  rewrite Ein in Hx. cbn [app] in Hx. injection Hx as Hhl Hx. rewrite <- app_assoc in Hx. cbn [app] in Hx.
  (* the receiver's two fields end at the first two NULs: the second one inside the title *)
  apply (read_until_app _ _ x) in E1. rewrite <- Hx in E1.
  change CHRNUL with 0 in E1. rewrite read_until_notin in E1 by exact Hn1. injection E1 as <- Hr2.
  apply (read_until_app _ _ x) in E2. rewrite <- Hr2 in E2.
  change CHRNUL with 0 in E2. apply read_until_prefix_len in E2. clear - Hhl Hl E2. lia.
Qed.

Lemma mark_sent_events sent : forall s m, In (EvSetSent m false) (s_ev (mark_sent sent s)) -> In (m, false) sent \/ In (EvSetSent m false) (s_ev s).
Proof.
  intros s m. rewrite (does_ev_eq _ _ _ (mark_sent_does sent s)), in_app_iff. intros [H|H]; [left|right; exact H].
  destruct (proj1 (Forall_forall _ _) (marks_P false sent) _ H) as (m'&E&K). injection E as ->. exact K.
Qed.

Lemma sent_of_accepted block : forall answers m, In (m, false) (sent_of block answers) -> exists p, In (p, AAccept) (combine block answers) /\ o_mid p = m.
Proof.
  induction block as [|p ps IH]; intros answers m H; [destruct H|].
  destruct answers as [|a r]; [destruct H|]. cbn [sent_of combine] in *.
  apply in_app_or in H. destruct H as [H|H].
  - destruct a; cbn in H.
    + destruct H as [E|[]]. inversion E; subst. exists p. split; [left; reflexivity|reflexivity].
    + destruct H as [E|[]]. discriminate E.
    + destruct H.
  - destruct (IH r m H) as (q & Hq & Em). exists q. split; [right; exact Hq|exact Em].
Qed.

Print Assumptions write_compressed_zero.
Print Assumptions read_compressed_xfer.
Print Assumptions read_compressed_agree.
Print Assumptions send_accepted_zero.
Print Assumptions wire_wr.
Print Assumptions mark_sent_events.
Print Assumptions sent_of_accepted.
