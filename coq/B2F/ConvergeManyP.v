(* B2F/ConvergeManyP.v -- C02 over ANY number of faulty sessions followed by a complete one, with the ORIGINAL
   policies: induction on `sessions` (each pair of mailboxes is what the session before `leaves`: next_cfg for
   `history`, with storage faults for ConvergeFaultsP.history_f) with ConvergeOnceP.rest_spec as the statement
   about the remaining sessions.  A cut session in front does with an entry one of the five things of
   ConvergeOnceP.did (step_entry), and nothing with a MID that is not in the outbox (step_absent). *)
From Coq Require Import List NArith ZArith Bool Lia ZifyN ZifyNat ZifyBool Sorting.Permutation.
From Verif Require Import Base.Bytes Base.BytesP gen.Tables Lzhuf.Dec Msg.Message B2F.Secure B2F.Side B2F.SideP
  B2F.TermP B2F.CodecP B2F.CutP B2F.PairDefs B2F.PairLines B2F.PairXfer B2F.PairHs B2F.PairP B2F.PairIter B2F.DeliverP
  B2F.ConvergeP B2F.ConvergeCutP B2F.ConvergeOnceP.
Import ListNotations.
Open Scope N_scope.

(* C02_stored_only_accepted: in a cut session of two sound library sides, whatever a side hands to its handler
   (successfully or not) has a MID its own policy accepts.  Read off ConvergeCutP.cut_log. *)
Theorem stored_only_accepted (a b : side_cfg) (in_a in_b : bytes) :
  c_master a = negb (c_master b) ->
  hs_compat (if c_master a then a else b) (if c_master a then b else a) ->
  side_sound a -> side_sound b ->
  cut_session a b in_a in_b ->
  forall mid d ok, In (EvProcess mid d ok) (x_events (exchange a in_a)) -> policy_of (c_handler a) mid = AAccept.
Proof. intros Hrole Hhs SSa SSb. exact (accepted_if_processed a b in_a in_b (conj Hrole (conj Hhs (conj SSa SSb)))). Qed.

Lemma stored_from_outbox (x y : side_cfg) (in_x in_y : bytes) :
  c_master x = negb (c_master y) ->
  hs_compat (if c_master x then x else y) (if c_master x then y else x) ->
  side_sound x -> side_sound y -> cut_session x y in_x in_y ->
  forall mid d ok, In (EvProcess mid d ok) (x_events (exchange y in_y)) -> In mid (map o_mid (h_outbox (c_handler x))).
Proof.
  intros Hrole Hhs Sx Sy Hcut mid d ok He.
  destruct (roles_swap x y Hrole Hhs) as [Hrole' Hhs'].
  pose proof (cut_events y x in_y in_x Hrole' Hhs' (side_sound_syn _ Sy) (side_sound_syn _ Sx) (cut_session_sym _ _ _ _ Hcut) _ He) as K.
  cbn [Pk fst] in K. destruct K as (q&Hq&Hm).
  pose proof (proj1 (Forall_forall _ _) (side_sound_wf _ Sx) q Hq) as Wq. unfold prop_wf in Wq. rewrite Wq in Hm.
  injection Hm as <- _. apply in_map, Hq.
Qed.

Theorem sent_only_outbox (x : side_cfg) (i : bytes) :
  forall m r, In (EvSetSent m r) (x_events (exchange x i)) -> In m (map o_mid (h_outbox (c_handler x))).
Proof. intros m r He. exact (reported_from_outbox x i _ m He eq_refl). Qed.

(* a sequence of cut sessions, each on the mailboxes the previous one left.  next_cfg resets h_fail, so only
   the first session can have a storage fault (any session: ConvergeFaultsP.history_f) *)
Inductive history : side_cfg -> side_cfg -> list (outcome * outcome) -> side_cfg -> side_cfg -> Prop :=
| h_nil x y : history x y [] x y
| h_cut x y in_x in_y l x' y' :
    cut_session x y in_x in_y ->
    history (next_cfg x (exchange x in_x)) (next_cfg y (exchange y in_y)) l x' y' ->
    history x y ((exchange x in_x, exchange y in_y) :: l) x' y'.

Definition logs_x (l : list (outcome * outcome)) : list event := flat_map (fun oo => x_events (fst oo)) l.
Definition logs_y (l : list (outcome * outcome)) : list event := flat_map (fun oo => x_events (snd oo)) l.


Lemma filter_none {T} (f : T -> bool) l : (forall e, In e l -> f e = true -> False) -> filter f l = [].
Proof.
  intros H. destruct (filter f l) as [|e r] eqn:E; [reflexivity|exfalso].
  assert (K : In e (filter f l)) by (rewrite E; left; reflexivity). apply filter_In in K. exact (H e (proj1 K) (proj2 K)).
Qed.

(* a MID that is not in the outbox: one more cut session in front (sent_only_outbox, stored_from_outbox) *)
Lemma step_absent (x y x1 : side_cfg) (in_x in_y : bytes) (Lx1 Ly1 : list event) :
  sound_pair x y -> cut_session x y in_x in_y -> leaves x (exchange x in_x) x1 ->
  (forall m, ~ In m (map o_mid (h_outbox (c_handler x1))) -> filter (sent_ev m) Lx1 = [] /\ filter (proc m) Ly1 = []) ->
  forall m, ~ In m (map o_mid (h_outbox (c_handler x))) ->
    filter (sent_ev m) (x_events (exchange x in_x) ++ Lx1) = [] /\ filter (proc m) (x_events (exchange y in_y) ++ Ly1) = [].
Proof.
  intros (Hrole&Hhs&Sx&Sy) Hcut Vx IA m Hn. rewrite !filter_app.
  destruct (IA m) as [I1 I2].
  { intros K. apply Hn. apply in_map_iff in K. destruct K as (q&<-&Hq). apply in_map, (leaves_outbox _ _ _ q Vx), Hq. }
  rewrite I1, I2, !app_nil_r. split; apply filter_none; intros e He Hf; apply Hn.
  - destruct e; try discriminate. apply beq_bytes_true in Hf. subst. eapply sent_only_outbox; exact He.
  - destruct e; try discriminate. apply beq_bytes_true in Hf. subst. eapply (stored_from_outbox x y in_x in_y); eassumption.
Qed.

(* ANY NUMBER OF CUT SESSIONS, each on mailboxes that the one before `leaves` (next_cfg for `history`, with
   storage faults installed for ConvergeFaultsP.history_f) *)
Inductive sessions : side_cfg -> side_cfg -> list (outcome * outcome) -> side_cfg -> side_cfg -> Prop :=
| ss_nil x y : sessions x y [] x y
| ss_cut x y in_x in_y x1 y1 l x' y' :
    cut_session x y in_x in_y -> leaves x (exchange x in_x) x1 -> leaves y (exchange y in_y) y1 ->
    sessions x1 y1 l x' y' ->
    sessions x y ((exchange x in_x, exchange y in_y) :: l) x' y'.

Lemma sessions_ok x y l xn yn : sessions x y l xn yn -> sound_pair x y -> sound_pair xn yn.
Proof. induction 1 as [|x y in_x in_y x1 y1 l xn yn _ Vx Vy _ IH]; intros Hok; [exact Hok|]. exact (IH (sound_pair_leaves _ _ _ _ _ _ Hok Vx Vy)). Qed.

(* the marks of a session do not outlive it *)
Lemma sessions_gone x y l xn yn : sessions x y l xn yn -> l <> [] ->
  h_gone (c_handler xn) = [] /\ h_gone (c_handler yn) = [].
Proof.
  induction 1 as [|x y in_x in_y x1 y1 l xn yn _ Vx Vy Hh IH]; intros Hne; [congruence|].
  destruct Hh; [split; [apply Vx|apply Vy]|apply IH; discriminate].
Qed.

Definition swap (oo : outcome * outcome) : outcome * outcome := (snd oo, fst oo).
Lemma sessions_sym x y l xn yn : sessions x y l xn yn -> sessions y x (map swap l) yn xn.
Proof.
  induction 1 as [|x y in_x in_y x1 y1 l xn yn Hcut Vx Vy _ IH]; [constructor|].
  cbn [map swap fst snd]. apply (ss_cut y x in_y in_x y1 x1); [apply cut_session_sym, Hcut|assumption..].
Qed.
Lemma logs_swap l : logs_x (map swap l) = logs_y l /\ logs_y (map swap l) = logs_x l.
Proof.
  induction l as [|oo l [IH1 IH2]]; [split; reflexivity|]. unfold logs_x, logs_y in *. cbn [map flat_map swap fst snd].
  rewrite IH1, IH2. split; reflexivity.
Qed.

(* the outbox at the end: what has not been reported in any of the sessions *)
Lemma sessions_outbox x y l xn yn : sessions x y l xn yn ->
  forall p, In p (h_outbox (c_handler xn)) <-> In p (h_outbox (c_handler x)) /\ sent_in (logs_x l) (o_mid p) = false.
Proof.
  induction 1 as [|x y in_x in_y x1 y1 l xn yn _ Vx _ _ IH]; intros p.
  - split; [intros H; split; [exact H|reflexivity]|intros [H _]; exact H].
  - unfold logs_x, sent_in in *. cbn [flat_map fst]. rewrite existsb_app, orb_false_iff, IH, (leaves_outbox _ _ _ p Vx). tauto.
Qed.

(* the cut sessions of l and a complete one on the mailboxes they leave: ConvergeOnceP.rest_spec over ALL the
   logs of x and ALL the logs of y (failed stores, EvProcess _ _ false, are not counted).  Induction on the
   sessions: the complete one delivers (delivered_spec), a cut one in front does with each entry one of the
   five things of `did` (step_entry) *)
Lemma sessions_spec x y l xn yn : sessions x y l xn yn -> sound_pair x y ->
  side_ready xn yn -> side_ready yn xn -> forall in_x' in_y', closed xn yn in_x' in_y' ->
  rest_spec x y (logs_x l ++ x_events (exchange xn in_x')) (logs_y l ++ x_events (exchange yn in_y')).
Proof.
  induction 1 as [x y|x y in_x in_y x1 y1 l xn yn Hcut Vx Vy Hh IH]; intros Hok Rx Ry ix iy Hc.
  - destruct Hok as (Hrole&Hhs&_). destruct (complete_exchange_delivers x y Hrole Hhs Rx Ry) as [_ Hall].
    destruct (Hall ix iy Hc) as (_&_&D&_). apply delivered_spec, D.
  - specialize (IH (sound_pair_leaves _ _ _ _ _ _ Hok Vx Vy) Rx Ry ix iy Hc).
    change (logs_x ((exchange x in_x, exchange y in_y) :: l)) with (x_events (exchange x in_x) ++ logs_x l).
    change (logs_y ((exchange x in_x, exchange y in_y) :: l)) with (x_events (exchange y in_y) ++ logs_y l).
    rewrite <- !app_assoc. split.
    + apply (step_absent x y x1); [exact Hok|exact Hcut|exact Vx|apply IH].
    + intros p Hp. apply (step_entry x y x1 y1); [exact Hp|exact Vx|exact Vy|apply cut_did; assumption|exact IH].
Qed.

(* both directions; all that is asked of the last, complete session is that no store fails for a MID that
   is still in the peer's outbox.  l <> []: the marks of the first pair (h_gone) are arbitrary and a session
   clears them (sessions_gone); without a session the statement is DeliverP.complete_exchange_delivers, with
   side_ready of x and y *)
Theorem sessions_converge x y l xn yn (in_x' in_y' : bytes) : sound_pair x y -> sessions x y l xn yn -> l <> [] ->
  (forall p, In p (h_outbox (c_handler xn)) -> ~ In (o_mid p) (h_fail (c_handler yn))) ->
  (forall p, In p (h_outbox (c_handler yn)) -> ~ In (o_mid p) (h_fail (c_handler xn))) ->
  closed xn yn in_x' in_y' ->
  let Lx := logs_x l ++ x_events (exchange xn in_x') in let Ly := logs_y l ++ x_events (exchange yn in_y') in
  rest_spec x y Lx Ly /\ rest_spec y x Ly Lx.
Proof.
  intros Hok Hh Hne Fx Fy Hc. destruct (sessions_ok _ _ _ _ _ Hh Hok) as (_&_&Sxn&Syn).
  destruct (sessions_gone _ _ _ _ _ Hh Hne) as [Gx Gy].
  pose proof (ready_of_sound _ _ Sxn Gx Fx) as Rx. pose proof (ready_of_sound _ _ Syn Gy Fy) as Ry.
  split; [exact (sessions_spec _ _ _ _ _ Hh Hok Rx Ry _ _ Hc)|].
  pose proof (sessions_spec _ _ _ _ _ (sessions_sym _ _ _ _ _ Hh) (sound_pair_sym _ _ Hok) Ry Rx in_y' in_x') as H.
  destruct (logs_swap l) as [E1 E2]. rewrite E1, E2 in H. apply H. destruct Hc; split; assumption.
Qed.

Lemma history_sessions x y l xn yn : history x y l xn yn ->
  sessions x y l xn yn /\ (l <> [] -> h_fail (c_handler xn) = [] /\ h_fail (c_handler yn) = []).
Proof.
  induction 1 as [x y|x y in_x in_y l xn yn Hcut Hh [IH1 IH2]]; [split; [constructor|congruence]|].
  split; [exact (ss_cut _ _ _ _ _ _ _ _ _ Hcut (leaves_next _ _) (leaves_next _ _) IH1)|].
  intros _. destruct l; [inversion Hh; subst; split; reflexivity|apply IH2; discriminate].
Qed.

(* C02_many_sessions: in the words of the property, both directions *)
Theorem convergence_many (x y : side_cfg) l xn yn (in_x' in_y' : bytes) :
  c_master x = negb (c_master y) ->
  hs_compat (if c_master x then x else y) (if c_master x then y else x) ->
  side_sound x -> side_sound y ->
  history x y l xn yn -> l <> [] -> closed xn yn in_x' in_y' ->
  let Lx := logs_x l ++ x_events (exchange xn in_x') in let Ly := logs_y l ++ x_events (exchange yn in_y') in
  (forall p, In p (h_outbox (c_handler x)) -> policy_of (c_handler y) (o_mid p) = AAccept ->
     filter (stored_ev (o_mid p)) Ly = [EvProcess (o_mid p) (pm_data p) true] /\
     length (filter (sent_ev (o_mid p)) Lx) = 1%nat) /\
  (forall p, In p (h_outbox (c_handler y)) -> policy_of (c_handler x) (o_mid p) = AAccept ->
     filter (stored_ev (o_mid p)) Lx = [EvProcess (o_mid p) (pm_data p) true] /\
     length (filter (sent_ev (o_mid p)) Ly) = 1%nat).
Proof.
  intros Hrole Hhs Sx Sy Hh Hne Hc. destruct (history_sessions _ _ _ _ _ Hh) as [Hs Hf]. destruct (Hf Hne) as [Fx Fy].
  destruct (sessions_converge x y l xn yn in_x' in_y' (conj Hrole (conj Hhs (conj Sx Sy))) Hs Hne) as [[_ H1] [_ H2]];
    [rewrite Fy; intros p _ []|rewrite Fx; intros p _ []|exact Hc|].
  split; intros p Hp Ha; [specialize (H1 p Hp)|specialize (H2 p Hp)]; rewrite Ha in *; assumption.
Qed.

(* cp_: a cut session by computation: b receives the first k bytes a writes in the complete session, a
   the first j bytes b then writes *)
Definition cp_in_a (a b : side_cfg) (k j : nat) : bytes :=
  firstn j (x_wire (exchange b (firstn k (x_wire (exchange a (cv_in a b)))))).
Definition cp_in_b (a b : side_cfg) (k j : nat) : bytes := firstn k (x_wire (exchange a (cp_in_a a b k j))).
Definition cp_ok (a b : side_cfg) (k j : nat) : bool :=
  beq_bytes (firstn k (x_wire (exchange a (cv_in a b)))) (cp_in_b a b k j).
Lemma cp_session a b k j : cp_ok a b k j = true -> cut_session a b (cp_in_a a b k j) (cp_in_b a b k j).
Proof.
  unfold cp_ok. intros H. apply beq_bytes_true in H. split.
  - rewrite <- H. unfold cp_in_a. apply firstn_prefix.
  - unfold cp_in_b. apply firstn_prefix.
Qed.

(* the same from one evaluation of the session (ConvergeP.cut_run) *)
Lemma cp_run a b k j m h1 h3 oa ob : cut_run a b k j m = (true, (h1, h3, true), oa, ob) ->
  cut_session a b (cp_in_a a b k j) (cp_in_b a b k j) /\
  exchange a (cp_in_a a b k j) = oa /\ exchange b (cp_in_b a b k j) = ob.
Proof.
  intros H. apply cut_run_spec in H. cbv zeta in H. destruct H as (A1&A2&A3). injection A3 as _ _ A3.
  assert (Ea : exchange a (cp_in_a a b k j) = oa) by exact A1.
  assert (Eb : exchange b (cp_in_b a b k j) = ob) by (unfold cp_in_b; rewrite Ea; exact A2).
  split; [|split; assumption]. apply cp_session. unfold cp_ok, cp_in_b. rewrite Ea. symmetry. exact A3.
Qed.
(* a complete session of a and b from one evaluation (ConvergeP.full_run) *)
Lemma cp_full a b m oa ob : full_run a b m = (true, oa, ob) ->
  closed a b (cv_in a b) (x_wire (exchange a (cv_in a b))) /\
  exchange a (cv_in a b) = oa /\ exchange b (x_wire (exchange a (cv_in a b))) = ob.
Proof.
  intros H. apply full_run_spec in H. destruct H as (B1&B2&B3). unfold closed. rewrite B1, B2.
  split; [split; [reflexivity|exact B3]|split; reflexivity].
Qed.

(* cv3_: three sessions of ConvergeP.cv_a2 (slave; A1, A2) and cv_b0 [] (master).  Session 1: the link fails inside
   the transfer of A2 (180 of 213 bytes): A1 stored, nothing reported.  Session 2 (b rejects A1, accepts A2): it
   fails inside the transfer of A2 again (100 of 147 bytes): A1 reported (rejected), nothing stored.  Session 3,
   complete: A2 delivered and reported. *)
Definition cv3_a1 := next_cfg cv_a2 (exchange cv_a2 (cp_in_a cv_a2 (cv_b0 []) 180 1000)).
Definition cv3_b1 := next_cfg (cv_b0 []) (exchange (cv_b0 []) (cp_in_b cv_a2 (cv_b0 []) 180 1000)).
Definition cv3_a2 := next_cfg cv3_a1 (exchange cv3_a1 (cp_in_a cv3_a1 cv3_b1 100 1000)).
Definition cv3_b2 := next_cfg cv3_b1 (exchange cv3_b1 (cp_in_b cv3_a1 cv3_b1 100 1000)).
Definition cv3_ia := cv_in cv3_a2 cv3_b2.
Definition cv3_ib := x_wire (exchange cv3_a2 cv3_ia).
Definition cv3_l : list (outcome * outcome) :=
  [(exchange cv_a2 (cp_in_a cv_a2 (cv_b0 []) 180 1000), exchange (cv_b0 []) (cp_in_b cv_a2 (cv_b0 []) 180 1000));
   (exchange cv3_a1 (cp_in_a cv3_a1 cv3_b1 100 1000), exchange cv3_b1 (cp_in_b cv3_a1 cv3_b1 100 1000))].

(* the three sessions, each evaluated once: the outcomes, and the mailboxes they leave *)
Definition cv3_o1a := Eval vm_compute in exchange cv_a2 (cp_in_a cv_a2 (cv_b0 []) 180 1000).
Definition cv3_o1b := Eval vm_compute in exchange (cv_b0 []) (cp_in_b cv_a2 (cv_b0 []) 180 1000).
Lemma cv3_s1 :
  cut_session cv_a2 (cv_b0 []) (cp_in_a cv_a2 (cv_b0 []) 180 1000) (cp_in_b cv_a2 (cv_b0 []) 180 1000) /\
  exchange cv_a2 (cp_in_a cv_a2 (cv_b0 []) 180 1000) = cv3_o1a /\
  exchange (cv_b0 []) (cp_in_b cv_a2 (cv_b0 []) 180 1000) = cv3_o1b.
Proof. apply (cp_run cv_a2 (cv_b0 []) 180 1000 3 true true). rewrite cv2_cut_eq. reflexivity. Qed.

Definition cv3_a1v := Eval vm_compute in cv3_a1.
Definition cv3_b1v := Eval vm_compute in cv3_b1.
Lemma cv3_a1_eq : cv3_a1 = cv3_a1v.
Proof. unfold cv3_a1. rewrite (proj1 (proj2 cv3_s1)), cv_a2_eq. vm_compute. reflexivity. Qed.
Lemma cv3_b1_eq : cv3_b1 = cv3_b1v.
Proof. unfold cv3_b1. rewrite (proj2 (proj2 cv3_s1)). vm_compute. reflexivity. Qed.

Definition cv3_o2a := Eval vm_compute in exchange cv3_a1 (cp_in_a cv3_a1 cv3_b1 100 1000).
Definition cv3_o2b := Eval vm_compute in exchange cv3_b1 (cp_in_b cv3_a1 cv3_b1 100 1000).
Lemma cv3_s2 :
  cut_session cv3_a1 cv3_b1 (cp_in_a cv3_a1 cv3_b1 100 1000) (cp_in_b cv3_a1 cv3_b1 100 1000) /\
  exchange cv3_a1 (cp_in_a cv3_a1 cv3_b1 100 1000) = cv3_o2a /\
  exchange cv3_b1 (cp_in_b cv3_a1 cv3_b1 100 1000) = cv3_o2b.
Proof. apply (cp_run cv3_a1 cv3_b1 100 1000 3 true true). rewrite cv3_a1_eq, cv3_b1_eq. vm_compute. reflexivity. Qed.

Definition cv3_a2v := Eval vm_compute in cv3_a2.
Definition cv3_b2v := Eval vm_compute in cv3_b2.
Lemma cv3_a2_eq : cv3_a2 = cv3_a2v.
Proof. unfold cv3_a2. rewrite (proj1 (proj2 cv3_s2)), cv3_a1_eq. vm_compute. reflexivity. Qed.
Lemma cv3_b2_eq : cv3_b2 = cv3_b2v.
Proof. unfold cv3_b2. rewrite (proj2 (proj2 cv3_s2)), cv3_b1_eq. vm_compute. reflexivity. Qed.

Definition cv3_o3a := Eval vm_compute in exchange cv3_a2 cv3_ia.
Definition cv3_o3b := Eval vm_compute in exchange cv3_b2 cv3_ib.
Lemma cv3_s3 :
  closed cv3_a2 cv3_b2 cv3_ia cv3_ib /\ exchange cv3_a2 cv3_ia = cv3_o3a /\ exchange cv3_b2 cv3_ib = cv3_o3b.
Proof. unfold cv3_ib, cv3_ia. apply (cp_full cv3_a2 cv3_b2 3). rewrite cv3_a2_eq, cv3_b2_eq. vm_compute. reflexivity. Qed.

Example many_three_sessions_logs :
  (map strip (logs_x cv3_l ++ x_events (exchange cv3_a2 cv3_ia)),
   map strip (logs_y cv3_l ++ x_events (exchange cv3_b2 cv3_ib))) =
  ([EvPrepare; EvGetOutbound; EvBlockEnd;
    EvPrepare; EvGetOutbound; EvSetSent [65;49] true; EvBlockEnd;
    EvPrepare; EvGetOutbound; EvSetSent [65;50] false; EvBlockEnd; EvGetOutbound],
   [EvPrepare; EvAnswer [65;49] AAccept; EvAnswer [65;50] AAccept; EvProcess [65;49] [] true;
    EvPrepare; EvAnswer [65;49] AReject; EvAnswer [65;50] AAccept;
    EvPrepare; EvAnswer [65;50] AAccept; EvProcess [65;50] [] true; EvGetOutbound]).
Proof.
  unfold cv3_l, logs_x, logs_y. cbn [flat_map fst snd].
  rewrite (proj1 (proj2 cv3_s1)), (proj2 (proj2 cv3_s1)), (proj1 (proj2 cv3_s2)), (proj2 (proj2 cv3_s2)),
    (proj1 (proj2 cv3_s3)), (proj2 (proj2 cv3_s3)).
  vm_compute. reflexivity.
Qed.

(* the hypotheses of convergence_many hold for it *)
Example many_three_sessions_history :
  history cv_a2 (cv_b0 []) cv3_l cv3_a2 cv3_b2 /\ cv3_l <> [] /\ closed cv3_a2 cv3_b2 cv3_ia cv3_ib.
Proof.
  split; [|split; [discriminate|exact (proj1 cv3_s3)]].
  unfold cv3_l. apply h_cut; [exact (proj1 cv3_s1)|]. apply (h_cut cv3_a1 cv3_b1); [exact (proj1 cv3_s2)|]. apply h_nil.
Qed.

(* so its conclusion does: by the theorem, not by computation *)
Example many_three_sessions_delivered :
  forall p, In p (h_outbox (c_handler cv_a2)) ->
    filter (stored_ev (o_mid p)) (logs_y cv3_l ++ x_events (exchange cv3_b2 cv3_ib)) = [EvProcess (o_mid p) (pm_data p) true] /\
    length (filter (sent_ev (o_mid p)) (logs_x cv3_l ++ x_events (exchange cv3_a2 cv3_ia))) = 1%nat.
Proof.
  intros p Hp. destruct (cv2_hypotheses []) as (H1&H2&H3&H4).
  destruct many_three_sessions_history as (Hh&Hne&Hc).
  assert (Hhs : hs_compat (if c_master cv_a2 then cv_a2 else cv_b0 []) (if c_master cv_a2 then cv_b0 [] else cv_a2))
    by (apply hs_check_sound; exact H2).
  apply (proj1 (convergence_many cv_a2 (cv_b0 []) cv3_l cv3_a2 cv3_b2 cv3_ia cv3_ib H1 Hhs
                  (sound_check_sound _ H3) (sound_check_sound _ H4) Hh Hne Hc) p Hp).
  reflexivity.
Qed.

(* the theorem for that pair with any storage fault of b, every history, every complete last session *)
Example convergence_many_cv2 fail l an bn (ia ib : bytes) :
  history cv_a2 (cv_b0 fail) l an bn -> l <> [] -> closed an bn ia ib ->
  forall p, In p (h_outbox (c_handler cv_a2)) ->
    filter (stored_ev (o_mid p)) (logs_y l ++ x_events (exchange bn ib)) = [EvProcess (o_mid p) (pm_data p) true] /\
    length (filter (sent_ev (o_mid p)) (logs_x l ++ x_events (exchange an ia))) = 1%nat.
Proof.
  intros Hh Hne Hc p Hp. destruct (cv2_hypotheses fail) as (H1&H2&H3&H4).
  assert (Hhs : hs_compat (if c_master cv_a2 then cv_a2 else cv_b0 fail) (if c_master cv_a2 then cv_b0 fail else cv_a2))
    by (apply hs_check_sound; exact H2).
  apply (proj1 (convergence_many cv_a2 (cv_b0 fail) l an bn ia ib H1 Hhs
                  (sound_check_sound _ H3) (sound_check_sound _ H4) Hh Hne Hc) p Hp).
  reflexivity.
Qed.

Print Assumptions stored_only_accepted.
Print Assumptions stored_from_outbox.
Print Assumptions sent_only_outbox.
Print Assumptions convergence_many.
Print Assumptions many_three_sessions_logs.
Print Assumptions many_three_sessions_history.
Print Assumptions many_three_sessions_delivered.
Print Assumptions convergence_many_cv2.
