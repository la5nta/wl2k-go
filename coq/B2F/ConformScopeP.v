(* C05, one library side against an arbitrary peer, wider scope (one_side_conforms_wide): the secure login of
   a library slave and the MOTD of a library master are inside the theorem.  Nothing is asked of a slave: the
   response to a ";PQ" challenge is eight decimal digits whatever the challenge and the password
   (secure_response_shape), which is all the grammar asks of a "|response" item and of the ";PR: " line.  The
   MOTD of a master must satisfy motd_ok, a condition on the pieces of its lines between CRs (the lines the
   grammar's tokeniser sees); each of its clauses is needed (the motd_..._cx examples). *)
From Coq Require Import List NArith ZArith Bool Lia ZifyN ZifyNat ZifyBool.
From Verif Require Import Base.Bytes Base.BytesP Base.Utf8 gen.Tables Lzhuf.Dec Lzhuf.Canon Msg.Message B2F.Md5 B2F.Secure B2F.SecureP B2F.Side B2F.SideP
  B2F.TermP B2F.CodecP B2F.CutP B2F.PairDefs B2F.PairLines B2F.PairXfer B2F.PairHs B2F.PairP B2F.PairIter B2F.DeliverP
  B2F.Grammar B2F.GrammarP B2F.ConformP B2F.ConformOneP.
Import ListNotations.
Open Scope N_scope.

Lemma secure_response_shape c p :
  length (secure_response c p) = 8%nat /\ forallb is_digit (secure_response c p) = true.
Proof.
  rewrite secure_response_spec. unfold spec_response, spec_of_sum.
  destruct (digits8_shape ((le_to_N (firstn 4 (md5 (c ++ p ++ winlinkSecureSalt))) mod 2 ^ 30) mod 10 ^ 8)) as [Hl Hd].
  split; [exact Hl|]. apply forallb_forall. intros x Hx. rewrite Forall_forall in Hd. specialize (Hd x Hx).
  unfold is_digit. lia.
Qed.

Lemma digits_pr r : forallb is_digit r = true -> Forall pr r.
Proof. apply forallb_Forall. intros x H. unfold is_digit in H. unfold pr. lia. Qed.

Fixpoint fw_itemsL (c : bytes) (cb : list (bytes * bool)) (i : nat) (fw : list bytes) : list bytes :=
  match fw with
  | [] => []
  | a :: r =>
      (match i, c with
       | O, _ | _, [] => a
       | S _, _ :: _ =>
           match nth i cb ([], true) with
           | ([], _) => a
           | (pw, _) => a ++ [124] ++ secure_response c pw
           end
       end) :: fw_itemsL c cb (S i) r
  end.

Lemma fw_items_text c cb fw : forall i, fw_items c cb i fw = fw_text (fw_itemsL c cb i fw).
Proof.
  induction fw as [|a r IH]; intros i; [reflexivity|].
  cbn [fw_items fw_itemsL]. rewrite IH. unfold fw_text. cbn [map concat]. f_equal.
  destruct i as [|i]; [reflexivity|]. destruct c as [|c0 c']; [reflexivity|].
  destruct (nth (S i) cb ([], true)) as [[|p0 pw] e]; reflexivity.
Qed.

Definition item_ok (x : bytes) : Prop :=
  exists a, a <> [] /\ text_ok a /\ ~ In 124 a /\ ~ In 62 a /\
    (x = a \/ exists r, x = a ++ 124 :: r /\ length r = 8%nat /\ forallb is_digit r = true).

Lemma fw_itemsL_ok c cb fw : Forall (fun a => a <> [] /\ text_ok a /\ ~ In 124 a /\ ~ In 62 a) fw ->
  forall i, Forall item_ok (fw_itemsL c cb i fw).
Proof.
  induction 1 as [|a r (A1&A2&A3&A4) _ IH]; intros i; [constructor|].
  cbn [fw_itemsL]. apply Forall_cons; [|apply IH].
  assert (H0 : item_ok a) by (exists a; repeat split; try assumption; left; reflexivity).
  destruct i as [|i]; [exact H0|]. destruct c as [|c0 c']; [exact H0|].
  destruct (nth (S i) cb ([], true)) as [[|p0 pw] e]; [exact H0|].
  destruct (secure_response_shape (c0 :: c') (p0 :: pw)) as [Hl Hd].
  exists a. repeat split; try assumption. right. eexists. split; [reflexivity|]. split; assumption.
Qed.

Lemma fw_itemsL_nonnil c cb fw i : fw <> [] -> fw_itemsL c cb i fw <> [].
Proof. destruct fw; [congruence|discriminate]. Qed.

Lemma item_ok_pr x : item_ok x -> Forall pr x /\ ~ In 32 x /\ x <> [].
Proof.
  intros (a&A1&A2&A3&A4&[->|(r&->&Hl&Hd)]).
  - split; [apply text_pr, A2|]. split; [apply text_notin; [exact A2|reflexivity]|exact A1].
  - split; [|split].
    + apply Forall_app. split; [apply text_pr, A2|]. apply Forall_cons; [unfold pr; lia|apply digits_pr, Hd].
    + intros Hi. apply in_app_or in Hi. destruct Hi as [Hi|[Hi|Hi]]; [|discriminate|].
      * revert Hi. apply text_notin; [exact A2|reflexivity].
      * revert Hi. apply (forallb_notin is_digit); [exact Hd|reflexivity].
    + destruct a; [congruence|discriminate].
Qed.

Lemma item_ok_valid x : item_ok x ->
  match split_on 124 x with
  | [a] => negb (beq_bytes a [])
  | [a; h] => negb (beq_bytes a []) && all_digits h && (length h =? 8)%nat
  | _ => false
  end = true.
Proof.
  intros (a&A1&A2&A3&A4&[->|(r&->&Hl&Hd)]).
  - rewrite (split_on_notin 124 a A3), (beq_bytes_neq _ _ A1). reflexivity.
  - rewrite (split_on_app 124 a r A3).
    rewrite (split_on_notin 124 r) by (apply (forallb_notin is_digit); [exact Hd|reflexivity]).
    rewrite (beq_bytes_neq _ _ A1), Hl. unfold all_digits. destruct r; [discriminate|]. rewrite Hd. reflexivity.
Qed.

Lemma items_pr L : Forall item_ok L -> Forall pr (fw_text L).
Proof.
  induction 1 as [|x r Hx _ IH]; [constructor|].
  unfold fw_text. cbn [map concat]. apply Forall_cons; [unfold pr; lia|].
  apply Forall_app. split; [apply (item_ok_pr _ Hx)|exact IH].
Qed.

Definition line1q (h : hs_cfg) (c : bytes) (cb : list (bytes * bool)) : bytes :=
  59 :: 70 :: 87 :: 58 :: fw_text (fw_itemsL c cb 0 (hs_fw h)).
Definition linePR (r : bytes) : bytes := 59 :: 80 :: 82 :: 58 :: 32 :: r.
Definition hello_q (h : hs_cfg) (c : bytes) (cb : list (bytes * bool)) (pw : bytes) : bytes :=
  line1q h c cb ++ 13 :: line2 h ++ 13 :: linePR (secure_response c pw) ++ 13 :: line3 h ++ [13].

Lemma send_hello_q h c cb pw : c <> [] -> hs_cb h = Some cb -> nth 0 cb ([], true) = (pw, false) ->
  send_handshake h c = Some (hello_q h c cb pw).
Proof.
  intros Hc Hcb H0. unfold send_handshake. rewrite Hcb. destruct c as [|c0 c']; [congruence|]. rewrite H0.
  rewrite fw_items_text, sid_line_eq, de_line_eq. unfold hello_q, line1q, linePR, str_FW, str_PR, CR.
  (* the response and the forwarding text as variables: Qed would otherwise unfold MD5 to compare them *)
  generalize (secure_response (c0 :: c') pw) (fw_text (fw_itemsL (c0 :: c') cb 0 (hs_fw h))). intros R FT.
  repeat (rewrite <- app_assoc; cbn [app]). reflexivity.
Qed.

Lemma line1q_pr h c cb : fw_conf (hs_fw h) -> Forall pr (line1q h c cb).
Proof.
  intros [_ Hf]. unfold line1q. repeat (apply Forall_cons; [unfold pr; lia|]).
  apply items_pr, fw_itemsL_ok, Hf.
Qed.

Lemma line1q_valid h c cb : fw_conf (hs_fw h) -> valid_fw (line1q h c cb) = true.
Proof.
  intros [Hne Hf]. unfold line1q.
  pose proof (fw_itemsL_ok c cb (hs_fw h) Hf 0%nat) as HL.
  pose proof (fw_itemsL_nonnil c cb (hs_fw h) 0%nat Hne) as HLn.
  destruct (fw_itemsL c cb 0 (hs_fw h)) as [|x rest]; [congruence|].
  change (fw_text (x :: rest)) with (32 :: x ++ fw_text rest). unfold valid_fw.
  inversion HL as [|? ? Hx HL']; subst.
  rewrite split_fw_text.
  - apply forallb_forall. intros y Hy. apply item_ok_valid. apply (proj1 (Forall_forall _ _) HL y Hy).
  - apply (item_ok_pr _ Hx).
  - eapply Forall_impl; [|exact HL']. intros y Hy. apply (item_ok_pr _ Hy).
Qed.

Lemma linePR_pr r : forallb is_digit r = true -> Forall pr (linePR r).
Proof. intros H. unfold linePR. repeat (apply Forall_cons; [unfold pr; lia|]). apply digits_pr, H. Qed.

Lemma linePR_valid c pw : valid_pr (linePR (secure_response c pw)) = true.
Proof.
  destruct (secure_response_shape c pw) as [Hl Hd]. unfold linePR, valid_pr, all_digits.
  destruct (secure_response c pw) as [|x r]; [discriminate|]. rewrite Hd, Hl. reflexivity.
Qed.

Lemma hello_q_toks h c cb pw X : hs_cfg_ok h -> fw_conf (hs_fw h) ->
  toks (hello_q h c cb pw ++ X) =
  Line (line1q h c cb) :: Line (line2 h) :: Line (linePR (secure_response c pw)) :: Line (line3 h) :: toks X.
Proof.
  intros H Hfw. unfold hello_q. repeat (rewrite <- app_assoc; cbn [app]).
  rewrite toks_line by (eapply pr_line_ok; [reflexivity|discriminate|apply line1q_pr, Hfw]).
  rewrite toks_line by (eapply pr_line_ok; [reflexivity|discriminate|apply line2_pr, H]).
  rewrite toks_line by (eapply pr_line_ok; [reflexivity|discriminate|apply linePR_pr, secure_response_shape]).
  rewrite toks_line by (eapply pr_line_ok; [reflexivity|discriminate|apply line3_pr, H]).
  reflexivity.
Qed.

Lemma slave_hs_ok_q h c cb pw l rest gmv f a : hs_conf h ->
  slave_handshake (S (S (S (S (S f)))))
    {| gm := gmv; gs := Line (line1q h c cb) :: Line (line2 h) :: Line (linePR (secure_response c pw)) :: Line (line3 h) :: Line (70 :: l) :: rest;
       nm := a; ns := 0 |} 0 =
  inl {| gm := gmv; gs := Line (70 :: l) :: rest; nm := a; ns := 4 |}.
Proof.
  intros (Hok&Hfw&Hsid).
  rewrite slave_hs_skip; [|reflexivity|reflexivity|reflexivity|intros _; exact (line1q_valid h c cb Hfw)|discriminate].
  rewrite slave_hs_sid; [|reflexivity|apply line2_bracketed|exact (sid_line_valid h Hsid)].
  rewrite slave_hs_skip; [|reflexivity|reflexivity|reflexivity|discriminate|intros _; apply linePR_valid].
  rewrite slave_hs_skip; [|reflexivity|reflexivity|reflexivity|discriminate|discriminate].
  rewrite slave_hs_S. reflexivity.
Qed.

(* either the plain greeting (no challenge was received) or the greeting with the responses (a challenge
   was received, a password callback is registered and gave the password of the first address without
   an error); in every other case the handshake fails *)
Definition slave_greeting (h : hs_cfg) (g : bytes) : Prop :=
  g = hello h \/
  exists c cb pw, c <> [] /\ hs_cb h = Some cb /\ nth 0 cb ([], true) = (pw, false) /\ g = hello_q h c cb pw.

Lemma send_handshake_cases h c g : send_handshake h c = Some g -> slave_greeting h g.
Proof.
  destruct c as [|c0 ch]; [rewrite send_hello; intros H; injection H as <-; left; reflexivity|].
  destruct (hs_cb h) as [cb|] eqn:Hcb.
  2:{ rewrite (send_handshake_no_callback _ (c0 :: ch)) by (first [discriminate|exact Hcb]). discriminate. }
  destruct (nth 0 cb ([], true)) as [pw [|]] eqn:H0.
  - rewrite (send_handshake_callback_error _ (c0 :: ch) cb pw) by (first [discriminate|assumption]). discriminate.
  - rewrite (send_hello_q _ (c0 :: ch) cb pw) by (first [discriminate|assumption]).
    intros H. injection H as <-. right. exists (c0 :: ch), cb, pw. repeat split; try assumption. discriminate.
Qed.

Lemma slave_greeting_ok h g : hs_conf h -> slave_greeting h g -> exists ES, greets g ES.
Proof.
  intros Hhs [->|(c&cb&pw&Hc&Hcb&H0&->)].
  - eexists. apply hello_greets, Hhs.
  - exists [Line (line1q h c cb); Line (line2 h); Line (linePR (secure_response c pw)); Line (line3 h)]. split.
    + intros X. rewrite hello_q_toks by apply Hhs. reflexivity.
    + intros gmv a l rest f. cbn [length Nat.add app]. apply slave_hs_ok_q, Hhs.
Qed.

Theorem slave_conforms : forall (cfg : side_cfg) (peer : bytes),
  side_conf cfg -> c_master cfg = false -> peer_ok cfg peer ->
  x_res (exchange cfg peer) = XNil ->
  notblame false (validate peer (x_wire (exchange cfg peer))).
Proof.
  intros cfg peer Hsc Mc Hpeer Hx. apply (slave_conforms_greets cfg peer Hsc Mc Hpeer); [|exact Hx].
  intros c g Hg. apply (slave_greeting_ok (c_hs cfg)); [apply Hsc|exact (send_handshake_cases _ c g Hg)].
Qed.

(* the master writes every MOTD line followed by CR; the grammar's tokeniser therefore sees the PIECES
   of the MOTD lines between CRs as the lines of the master's greeting *)
Definition motd_bytes (ls : list bytes) : bytes := concat (map (fun l => l ++ [13]) ls).
Definition motd_lines (motd : list bytes) : list bytes := flat_map (split_on 13) motd.

Lemma split_cr c : forall l, l ++ [c] = concat (map (fun p => p ++ [c]) (split_on c l)).
Proof.
  induction l as [|x r IH]; [reflexivity|].
  destruct (N.eq_dec x c) as [->|Hx].
  - rewrite split_on_cons_sep. cbn [map concat app]. rewrite <- IH. reflexivity.
  - rewrite split_on_other by exact Hx. pose proof (split_on_nonempty c r) as Hn.
    destruct (split_on c r) as [|h t]; [congruence|]. cbn [map concat app] in *. rewrite IH. reflexivity.
Qed.

Lemma motd_bytes_app a b : motd_bytes (a ++ b) = motd_bytes a ++ motd_bytes b.
Proof. unfold motd_bytes. rewrite map_app, concat_app. reflexivity. Qed.

Lemma motd_bytes_lines motd : motd_bytes motd = motd_bytes (motd_lines motd).
Proof.
  induction motd as [|l r IH]; [reflexivity|].
  change (motd_lines (l :: r)) with (split_on 13 l ++ motd_lines r). rewrite motd_bytes_app, <- IH.
  unfold motd_bytes at 1. cbn [map concat]. rewrite (split_cr 13 l). reflexivity.
Qed.

Lemma motd_lines_no_cr motd : Forall (fun p => ~ In 13 p) (motd_lines motd).
Proof.
  induction motd as [|l r IH]; [constructor|].
  change (motd_lines (l :: r)) with (split_on 13 l ++ motd_lines r). apply Forall_app. split; [apply split_on_pieces|exact IH].
Qed.

(* the condition on a line of the MOTD (as the grammar sees it): it does not begin with SOH (the tokeniser
   would take it for a transfer), it is not bracketed like a SID, if it begins with ";FW" it is a valid
   ";FW" line, and it does not end with '>' (the end of the greeting) *)
Definition motd_lineb (l : bytes) : bool :=
  negb (prefixb [1] l) && negb (prefixb [91] l && suffixb [93] l) &&
  (negb (prefixb [59; 70; 87] l) || valid_fw l) && negb (suffixb [62] l).
Definition motd_ok (motd : list bytes) : Prop := forallb motd_lineb (motd_lines motd) = true.

Lemma motd_lineb_inv l : motd_lineb l = true ->
  (forall r, l <> 1 :: r) /\ prefixb [91] l && suffixb [93] l = false /\
  prefixb [59; 70; 87] l && negb (valid_fw l) = false /\ suffixb [62] l = false.
Proof.
  unfold motd_lineb. intros H.
  apply andb_true_iff in H. destruct H as [H H4]. apply andb_true_iff in H. destruct H as [H H3].
  apply andb_true_iff in H. destruct H as [H1 H2].
  apply negb_true_iff in H1, H2, H4. split; [|split; [exact H2|split; [|exact H4]]].
  - intros r ->. discriminate H1.
  - destruct (prefixb [59; 70; 87] l); [|reflexivity]. cbn [negb orb] in H3. rewrite H3. reflexivity.
Qed.

Lemma motd_pass ls : forallb motd_lineb ls = true -> Forall mh_pass ls.
Proof.
  intros H. apply Forall_forall. intros l Hl. apply (motd_lineb_inv l), (proj1 (forallb_forall _ _) H l Hl).
Qed.

Theorem master_conforms : forall (cfg : side_cfg) (peer : bytes),
  side_conf cfg -> c_master cfg = true -> hs_master (c_hs cfg) = true -> motd_ok (c_motd cfg) ->
  Forall elem_off (toks peer) ->
  x_res (exchange cfg peer) = XNil ->
  notblame true (validate (x_wire (exchange cfg peer)) peer).
Proof.
  intros cfg peer Hsc Mc Hhm Hmotd Hel Hx.
  apply (master_conforms_lines cfg peer (motd_lines (c_motd cfg)) Hsc Mc Hhm (motd_bytes_lines (c_motd cfg))); try assumption.
  - apply Forall_forall. intros l Hl. split.
    + apply (proj1 (Forall_forall _ _) (motd_lines_no_cr (c_motd cfg)) l Hl).
    + apply (motd_lineb_inv l), (proj1 (forallb_forall _ _) Hmotd l Hl).
  - apply motd_pass, Hmotd.
Qed.

(* what is asked of the configuration of the library side beyond side_conf: a MASTER ends its greeting
   with the prompt (ConformOneP.cx_no_prompt) and the lines of its MOTD are acceptable to the grammar
   (motd_ok).  Nothing is asked of a slave: with or without a password callback, whatever the callback
   returns. *)
Definition cfg_scope' (cfg : side_cfg) : Prop :=
  c_master cfg = true -> hs_master (c_hs cfg) = true /\ motd_ok (c_motd cfg).

(* what is asked of the peer is ConformOneP.peer_ok: in particular nothing is asked of the
   challenge of a ";PQ" line (the response is eight digits whatever the challenge: secure_response_shape);
   a ";PQ" line of the peer is subject to greet_agree like every other line of its greeting (pq_prompt_cx) *)
Definition peer_ok' (cfg : side_cfg) (peer : bytes) : Prop := peer_ok cfg peer.

Theorem one_side_conforms_wide : forall (cfg : side_cfg) (peer_stream : bytes),
  side_conf cfg -> cfg_scope' cfg -> peer_ok' cfg peer_stream ->
  let o := exchange cfg peer_stream in
  x_res o = XNil ->
  let '(m, s) := if c_master cfg then (x_wire o, peer_stream) else (peer_stream, x_wire o) in
  match validate m s with VOk => True | VBad who _ _ => who <> c_master cfg end.
Proof.
  intros cfg peer Hsc Hscope Hpeer. cbv zeta. intros Hx.
  destruct (c_master cfg) eqn:Mc.
  - destruct (Hscope Mc) as [Hhm Hmotd].
    exact (master_conforms cfg peer Hsc Mc Hhm Hmotd (proj1 Hpeer) Hx).
  - exact (slave_conforms cfg peer Hsc Mc Hpeer Hx).
Qed.

(* the same with the role of the library side as a parameter: the form in which the theorem is applied to
   a closed configuration (there the verdict must not be evaluated to find the role) *)
Corollary one_side_conforms_role cfg peer r :
  side_conf cfg -> cfg_scope' cfg -> peer_ok' cfg peer -> x_res (exchange cfg peer) = XNil -> c_master cfg = r ->
  notblame r (if r then validate (x_wire (exchange cfg peer)) peer else validate peer (x_wire (exchange cfg peer))).
Proof.
  intros H1 H2 H3 Hx Hr. pose proof (one_side_conforms_wide cfg peer H1 H2 H3 Hx) as H. rewrite Hr in H. destruct r; exact H.
Qed.

(* cfg_scope implies cfg_scope': ConformOneP.one_side_conforms is a special case *)
Lemma cfg_scope_wide cfg : cfg_scope cfg -> cfg_scope' cfg.
Proof. intros [H _] Hm. destruct (H Hm) as [Hmotd Hhm]. split; [exact Hhm|]. unfold motd_ok. rewrite Hmotd. reflexivity. Qed.

Corollary one_side_conforms_again : forall (cfg : side_cfg) (peer_stream : bytes),
  side_conf cfg -> cfg_scope cfg -> peer_ok cfg peer_stream ->
  let o := exchange cfg peer_stream in
  x_res o = XNil ->
  let '(m, s) := if c_master cfg then (x_wire o, peer_stream) else (peer_stream, x_wire o) in
  match validate m s with VOk => True | VBad who _ _ => who <> c_master cfg end.
Proof. intros cfg peer H1 H2 H3. exact (one_side_conforms_wide cfg peer H1 (cfg_scope_wide cfg H2) H3). Qed.

(* a sufficient condition for motd_ok *)
Definition motd_plain (l : bytes) : Prop :=
  ~ In 13 l /\ prefixb [1] l = false /\ prefixb [91] l = false /\ prefixb [59] l = false /\ suffixb [62] l = false.

Lemma motd_plain_ok motd : Forall motd_plain motd -> motd_ok motd.
Proof.
  unfold motd_ok. induction 1 as [|l r (H1&H2&H3&H4&H5) _ IH]; [reflexivity|].
  change (motd_lines (l :: r)) with (split_on 13 l ++ motd_lines r). rewrite forallb_app, IH, andb_true_r.
  rewrite (split_on_notin 13 l H1). cbn [forallb]. rewrite andb_true_r. unfold motd_lineb. rewrite H2, H3, H5.
  assert (E : prefixb [59; 70; 87] l = false).
  { destruct l as [|x m]; [reflexivity|]. cbn [prefixb] in *. rewrite andb_true_r in H4. rewrite H4. reflexivity. }
  rewrite E. reflexivity.
Qed.

(* wx_: the closed sides and peer streams of this file.  A slave with three forwarding addresses and a password
   callback *)
Definition wx_slave (cb : option (list (bytes * bool))) : side_cfg :=
  {| c_master := false; c_motd := [];
     c_hs := {| hs_fw := [[76;65;49;66]; [65]; [66]]; hs_name := [119]; hs_version := [49]; hs_target := [88];
                hs_mycall := [76;65;49;66]; hs_locator := []; hs_master := false; hs_gzip := false; hs_cb := cb |};
     c_handler := {| h_present := true; h_prepare_err := false; h_outbox := []; h_gone := []; h_policy := []; h_fail := [] |} |}.
Definition wx_cb : list (bytes * bool) := [([112;119], false); ([113], false); ([], false)].
Definition wx_sid : bytes := [91;82;45;49;45;66;50;70;36;93;13].                          (* "[R-1-B2F$]" *)
(* the master: SID, ";PQ: 23753528", "X>", then "FQ" in answer to the slave's "FF" *)
Definition wx_master_pq : bytes :=
  wx_sid ++ [59;80;81;58;32;50;51;55;53;51;53;50;56;13] ++ [88;62;13] ++ [70;81;13].

(* the session (with its two MD5 digests) is evaluated here only; wire, result and verdict are read off the outcome *)
Definition wx_slave_out : outcome := Eval vm_compute in exchange (wx_slave (Some wx_cb)) wx_master_pq.
Lemma wx_slave_out_eq : exchange (wx_slave (Some wx_cb)) wx_master_pq = wx_slave_out.
Proof. vm_compute. reflexivity. Qed.

(* the session ends with nil and the grammar accepts it; the slave's stream has the ";FW:" line with one
   response, the SID, the ";PR: 66500972" line, the "; X DE LA1B ()" line and "FF" *)
Example wide_slave_wire : x_wire (exchange (wx_slave (Some wx_cb)) wx_master_pq) =
  [59;70;87;58;32;76;65;49;66;32;65;124;50;51;50;54;56;56;57;54;32;66;13] ++ [91;119;45;49;45;66;50;70;72;77;36;93;13] ++
  [59;80;82;58;32;54;54;53;48;48;57;55;50;13] ++ [59;32;88;32;68;69;32;76;65;49;66;32;40;41;13] ++ [70;70;13].
Proof. rewrite wx_slave_out_eq. reflexivity. Qed.
Lemma wide_slave_nil : x_res (exchange (wx_slave (Some wx_cb)) wx_master_pq) = XNil.
Proof. rewrite wx_slave_out_eq. reflexivity. Qed.
Example wide_slave_run : kx_verdict (wx_slave (Some wx_cb)) wx_master_pq = (XNil, VOk).
Proof. unfold kx_verdict. cbv zeta. rewrite wx_slave_out_eq. vm_compute. reflexivity. Qed.

Lemma wx_slave_conf cb : side_conf (wx_slave cb).
Proof.
  assert (H : hs_conf (c_hs (wx_slave cb))).
  { apply kx_hs_conf; try reflexivity. split; [discriminate|].
    constructor; [|constructor; [|constructor; [|constructor]]]; (apply alnum_addr; [discriminate|reflexivity]). }
  split; [exact H|constructor].
Qed.

Example wx_master_pq_ok : peer_ok' (wx_slave (Some wx_cb)) wx_master_pq.
Proof.
  split; [toks_compute wx_master_pq; elem_off_lines|]. intros _. toks_compute wx_master_pq. cbn [greet_agree].
  split; [vm_compute; reflexivity|]. intros _. split; [vm_compute; reflexivity|]. intros _.
  split; [vm_compute; reflexivity|discriminate].
Qed.

(* the theorem applies to this instance (its hypotheses are satisfiable with a callback and a challenge) *)
Example wide_slave_instance : notblame false (validate wx_master_pq (x_wire (exchange (wx_slave (Some wx_cb)) wx_master_pq))).
Proof.
  exact (one_side_conforms_role (wx_slave (Some wx_cb)) wx_master_pq false (wx_slave_conf _) ltac:(discriminate) wx_master_pq_ok
           wide_slave_nil eq_refl).
Qed.

(* nothing is asked of the CHALLENGE: blanks, '|', a byte above 127 and NUL inside it; ";PQ:x" (an empty
   challenge: the plain greeting is sent, with or without a callback) *)
Definition wx_master_odd : bytes :=
  wx_sid ++ [59;80;81;58;32;97;32;124;32;200;0;98;13] ++ [88;62;13] ++ [70;81;13].
Example odd_challenge_run : kx_verdict (wx_slave (Some wx_cb)) wx_master_odd = (XNil, VOk).
Proof. vm_compute. reflexivity. Qed.
Definition wx_master_empty : bytes := wx_sid ++ [59;80;81;58;120;13] ++ [88;62;13] ++ [70;81;13].
Example empty_challenge_run :
  kx_verdict (wx_slave (Some wx_cb)) wx_master_empty = (XNil, VOk) /\ kx_verdict (wx_slave None) wx_master_empty = (XNil, VOk).
Proof. split; vm_compute; reflexivity. Qed.

(* nothing is asked of the CALLBACK: when it is missing, or returns an error for the first address, the
   handshake fails and the session does not end with nil *)
Example no_callback_run : fst (kx_verdict (wx_slave None) wx_master_pq) = XOther.
Proof. vm_compute. reflexivity. Qed.
Example callback_error_run : fst (kx_verdict (wx_slave (Some [([112;119], true)])) wx_master_pq) = XOther.
Proof. vm_compute. reflexivity. Qed.

(* a ";PQ" line of the peer is a line of its greeting like any other: when it ends with '>' the grammar
   ends the greeting there and the library does not (greet_agree is violated); the library is blamed
   (as ConformP.greeting_desync_cx, with a callback) *)
Definition wx_master_pq_prompt : bytes :=
  wx_sid ++ [59;80;81;58;32;49;62;13] ++ [70;70;13] ++ [90;62;13] ++ [70;81;13].
Example pq_prompt_cx : kx_verdict (wx_slave (Some wx_cb)) wx_master_pq_prompt = (XNil, VBad false 2 5).
Proof. vm_compute. reflexivity. Qed.
Example pq_prompt_not_agree : ~ greet_agree (toks wx_master_pq_prompt).
Proof. toks_compute wx_master_pq_prompt. apply second_line_not_agree; vm_compute; [reflexivity|discriminate]. Qed.

Definition wx_master (motd : list bytes) : side_cfg := kx_side true [119] [[76;65;49;66]] motd [].
(* two MOTD lines, "Hi" and "; news", against the conforming slave stream of ConformOneP *)
Definition wx_motd2 : list bytes := [[72;105]; [59;32;110;101;119;115]].
Definition wx_master_out : outcome := Eval vm_compute in exchange (wx_master wx_motd2) cx_slave_stream.
Lemma wx_master_out_eq : exchange (wx_master wx_motd2) cx_slave_stream = wx_master_out.
Proof. vm_compute. reflexivity. Qed.
Example wide_master_run : kx_verdict (wx_master wx_motd2) cx_slave_stream = (XNil, VOk).
Proof. unfold kx_verdict. cbv zeta. rewrite wx_master_out_eq. vm_compute. reflexivity. Qed.
Example wide_master_wire : x_wire (exchange (wx_master wx_motd2) cx_slave_stream) =
  [72;105;13] ++ [59;32;110;101;119;115;13] ++ [59;70;87;58;32;76;65;49;66;13] ++ [91;119;45;49;45;66;50;70;72;77;36;93;13] ++
  [59;32;88;32;68;69;32;76;65;49;66;32;40;41;62;13] ++ [70;81;13].
Proof. rewrite wx_master_out_eq. reflexivity. Qed.

Lemma wx_master_conf motd : side_conf (wx_master motd).
Proof. exact (proj2 (kx_good_conf true)). Qed.

Example wide_master_instance : notblame true (validate (x_wire (exchange (wx_master wx_motd2) cx_slave_stream)) cx_slave_stream).
Proof.
  apply (one_side_conforms_role (wx_master wx_motd2) cx_slave_stream true (wx_master_conf _)); [| | |reflexivity].
  - intros _. split; reflexivity.
  - exact cx_slave_stream_peer_ok.
  - rewrite wx_master_out_eq. reflexivity.
Qed.

(* harmless lines that satisfy motd_ok: a valid ";FW" line, the empty line, "[x" (not bracketed), a ";PQ"
   line; a line with a CR inside whose pieces are harmless *)
Definition wx_motd5 : list bytes := [[72;105]; [59;70;87;58;32;97]; []; [91;120]; [59;80;81;58;32;49]; [97;13;98]].
Example motd5_ok : motd_ok wx_motd5. Proof. reflexivity. Qed.
Example motd5_run : kx_verdict (wx_master wx_motd5) cx_slave_stream = (XNil, VOk).
Proof. vm_compute. reflexivity. Qed.

(* each clause of motd_lineb is needed: the session ends with nil, the master is blamed *)
(* (1) a line that begins with SOH: the tokeniser does not see a line *)
Example motd_soh_cx : kx_verdict (wx_master [[1; 65]]) cx_slave_stream = (XNil, VBad true 24 0) /\ ~ motd_ok [[1; 65]].
Proof. split; [vm_compute; reflexivity|discriminate]. Qed.
(* (2) a bracketed line: "[x]" is no SID; "[a-b-B2$]" is a second SID *)
Example motd_sid_cx : kx_verdict (wx_master [[91;120;93]]) cx_slave_stream = (XNil, VBad true 21 0) /\ ~ motd_ok [[91;120;93]].
Proof. split; [vm_compute; reflexivity|discriminate]. Qed.
Example motd_sid2_cx : kx_verdict (wx_master [[91;97;45;98;45;66;50;36;93]]) cx_slave_stream = (XNil, VBad true 23 3) /\
  ~ motd_ok [[91;97;45;98;45;66;50;36;93]].
Proof. split; [vm_compute; reflexivity|discriminate]. Qed.
(* (3) a malformed ";FW" line: ConformOneP.cx_motd (";FW: a|b"), and the bare ";FW" *)
Example motd_fw_cx : kx_verdict (wx_master [[59;70;87]]) cx_slave_stream = (XNil, VBad true 22 0) /\ ~ motd_ok [[59;70;87]].
Proof. split; [vm_compute; reflexivity|discriminate]. Qed.
Example motd_fw2_cx : ~ motd_ok [[59;70;87;58;32;97;124;98]].
Proof. discriminate. Qed.
(* (4) a line that ends with '>': the greeting ends before the SID *)
Example motd_prompt_cx : kx_verdict (wx_master [[104;105;62]]) cx_slave_stream = (XNil, VBad true 23 0) /\ ~ motd_ok [[104;105;62]].
Proof. split; [vm_compute; reflexivity|discriminate]. Qed.
(* the condition is on the PIECES between CRs: "a<CR>hi>" is harmful, "a<CR>b" (in wx_motd5) is not *)
Example motd_cr_cx : kx_verdict (wx_master [[97;13;104;105;62]]) cx_slave_stream = (XNil, VBad true 23 1) /\ ~ motd_ok [[97;13;104;105;62]].
Proof. split; [vm_compute; reflexivity|discriminate]. Qed.
(* a second SID followed by a line ending with '>': the grammar's greeting ends correctly (one SID, a
   prompt) before the real greeting, whose SID line is then read as a malformed proposal *)
Example motd_sid_prompt_cx :
  kx_verdict (wx_master [[91;97;45;98;45;66;50;36;93]; [104;105;62]]) cx_slave_stream = (XNil, VBad true 5 4).
Proof. vm_compute. reflexivity. Qed.

Lemma soh_head b Y : exists e rest, toks ((1 :: b) ++ 13 :: Y) = e :: rest /\ forall l, e <> Line l.
Proof.
  assert (E : exists hl r, b ++ 13 :: Y = hl :: r) by (destruct b as [|x b']; cbn [app]; eauto).
  destruct E as (hl&r&E). cbn [app]. rewrite E. unfold toks. cbn [length]. rewrite tokens_soh.
  destruct (take_until 0 r []) as [[title r1]|]; [|eexists; eexists; split; [reflexivity|discriminate]].
  destruct (take_until 0 r1 []) as [[offs r2]|]; [|eexists; eexists; split; [reflexivity|discriminate]].
  destruct (blocks (S (length r2)) r2 [] 0) as [[[[dd bok] cok] r3]|]; eexists; eexists; (split; [reflexivity|discriminate]).
Qed.

(* the first piece of the MOTD that violates motd_lineb is where the grammar blames the master, whatever
   follows and whatever the peer sends -- except when that piece is a well-formed SID: then the master is
   blamed later, at the real prompt or, after a MOTD line ending with '>', at the real SID line
   (motd_sid2_cx, motd_sid_prompt_cx); there is no general statement for that case *)
Theorem motd_first_bad good bad Y peer :
  forallb motd_lineb good = true -> Forall (fun p => ~ In 13 p) good -> ~ In 13 bad ->
  motd_lineb bad = false -> prefixb [91] bad && suffixb [93] bad && valid_sid bad = false ->
  exists k, validate (motd_bytes good ++ bad ++ 13 :: Y) peer = VBad true k (length good).
Proof.
  intros Hg Hcr Hcrb Hbad Hsid. unfold validate. cbv zeta.
  change (tokens (S (length (motd_bytes good ++ bad ++ 13 :: Y))) (motd_bytes good ++ bad ++ 13 :: Y))
    with (toks (motd_bytes good ++ bad ++ 13 :: Y)).
  assert (HLo : Forall line_ok good).
  { apply Forall_forall. intros l Hl. split; [apply (proj1 (Forall_forall _ _) Hcr l Hl)|].
    apply (motd_lineb_inv l). apply (proj1 (forallb_forall _ _) Hg l Hl). }
  unfold motd_bytes. rewrite toks_lines by exact HLo.
  assert (Hstep : exists k e rest, toks (bad ++ 13 :: Y) = e :: rest /\
            forall F gsv a, master_handshake (S F) {| gm := e :: rest; gs := gsv; nm := a; ns := 0 |} 0 = inr (VBad true k a)).
  { destruct (prefixb [1] bad) eqn:E1.
    - destruct (prefixb_head _ _ _ E1) as (b&->&_).
      destruct (soh_head b Y) as (e&rest&Et&Hne). exists 24%N, e, rest. split; [exact Et|].
      intros F gsv a. apply master_hs_bad, Hne.
    - assert (Hlo : line_ok bad) by (split; [exact Hcrb|intros r ->; discriminate E1]).
      unfold motd_lineb in Hbad. rewrite E1 in Hbad. cbn [negb andb] in Hbad.
      destruct (prefixb [91] bad && suffixb [93] bad) eqn:P2.
      + cbn [andb] in Hsid. exists 21%N, (Line bad), (toks Y). split; [apply toks_line, Hlo|].
        intros F gsv a. rewrite master_hs_S. cbv zeta. rewrite P2, Hsid. reflexivity.
      + cbn [negb andb] in Hbad. destruct (prefixb [59; 70; 87] bad && negb (valid_fw bad)) eqn:P3.
        * exists 22%N, (Line bad), (toks Y). split; [apply toks_line, Hlo|].
          intros F gsv a. rewrite master_hs_S. cbv zeta. rewrite P2, P3. reflexivity.
        * assert (P4 : suffixb [62] bad = true).
          { destruct (prefixb [59; 70; 87] bad); destruct (valid_fw bad); destruct (suffixb [62] bad); try reflexivity; discriminate. }
          exists 23%N, (Line bad), (toks Y). split; [apply toks_line, Hlo|].
          intros F gsv a. rewrite master_hs_S. cbv zeta. rewrite P2, P3, P4. reflexivity. }
  destruct Hstep as (k&e&rest&Et&Hm). exists k. rewrite Et, app_length, map_length. cbn [length].
  rewrite master_hs_passes by exact (motd_pass _ Hg). rewrite Hm, Nat.add_0_r. reflexivity.
Qed.

(* the theorem is about streams of this shape, not about `exchange`: that a master with good ++ bad :: more =
   motd_lines motd writes one (motd_bytes_lines; Y = motd_bytes more ++ hello ++ the turns) is not proved *)

Print Assumptions secure_response_shape.
Print Assumptions motd_first_bad.
Print Assumptions slave_conforms.
Print Assumptions master_conforms.
Print Assumptions one_side_conforms_wide.
Print Assumptions one_side_conforms_again.
Print Assumptions motd_plain_ok.
Print Assumptions wide_slave_instance.
Print Assumptions wide_master_instance.
Print Assumptions pq_prompt_cx.
Print Assumptions motd_cr_cx.
