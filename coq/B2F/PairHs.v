(* B2F/PairHs.v -- two sides whose handshake configuration consists of plain printable text accept
   each other's greeting: hs_compat (B2F/PairDefs.v) holds for every such pair of configurations. *)
From Coq Require Import List NArith ZArith Bool Lia ZifyN ZifyNat ZifyBool.
From Verif Require Import Base.Bytes Base.BytesP Base.Utf8 gen.Tables Lzhuf.Dec Msg.Message B2F.Secure B2F.Side B2F.SideP
  B2F.TermP B2F.CodecP B2F.CutP B2F.GrammarP B2F.PairDefs B2F.PairLines.
Import ListNotations.
Open Scope N_scope.

(* printable ASCII without the space *)
Definition text_ok (l : bytes) : Prop := Forall (fun b => 33 <= b /\ b <= 126) l.
Definition hs_cfg_ok (h : hs_cfg) : Prop :=
  hs_fw h <> [] /\ Forall (fun a => a <> [] /\ text_ok a) (hs_fw h) /\
  text_ok (hs_name h) /\ text_ok (hs_version h) /\ text_ok (hs_target h) /\ text_ok (hs_mycall h) /\ text_ok (hs_locator h).

(* printable ASCII, the space included *)
Definition pr (b : N) : Prop := 32 <= b /\ b <= 126.

Lemma okb_text b : 33 <= b /\ b <= 126 -> okb b = true.
Proof. intros H. unfold okb, is_space_rune. lia. Qed.

Lemma text_pr l : text_ok l -> Forall pr l.
Proof. apply Forall_impl. intros a H. unfold pr. lia. Qed.

Lemma pr_notin c l : c < 32 -> Forall pr l -> ~ In c l.
Proof. intros Hc H Hi. rewrite Forall_forall in H. specialize (H c Hi). unfold pr in H. lia. Qed.

Lemma fw_pr fw : Forall (fun a => a <> [] /\ text_ok a) fw -> Forall pr (fw_text fw).
Proof.
  induction 1 as [|a r [_ Ha] _ IH]; [constructor|].
  unfold fw_text. cbn [map concat]. apply Forall_cons; [unfold pr; lia|].
  apply Forall_app. split; [apply text_pr; exact Ha|exact IH].
Qed.

Lemma fw_head fw : fw <> [] -> exists m, fw_text fw = 32 :: m.
Proof. destruct fw as [|a r]; [congruence|]. intros _. eexists. reflexivity. Qed.

Lemma fw_last fw : fw <> [] -> Forall (fun a => a <> [] /\ text_ok a) fw ->
  exists y, (33 <= y /\ y <= 126) /\ ends_with y (fw_text fw).
Proof.
  intros Hne H. destruct (exists_last Hne) as [fw' [a ->]].
  apply Forall_app in H. destruct H as [_ H]. inversion H as [|? ? [Ha Ht] _]; subst.
  destruct (exists_last Ha) as [a' [y ->]].
  apply Forall_app in Ht. destruct Ht as [_ Ht]. inversion Ht as [|? ? Hy _]; subst.
  exists y. split; [exact Hy|].
  unfold fw_text. rewrite map_app, concat_app. apply ends_with_app. cbn [map concat].
  rewrite app_nil_r. apply ends_with_cons, ends_with_app, ends_with_one.
Qed.

Ltac prs :=
  repeat first [ apply Forall_nil | apply Forall_cons; [unfold pr; lia|] | apply Forall_app; split
               | apply text_pr; assumption | apply fw_pr; assumption ].

Lemma line1_pr cfg : hs_cfg_ok cfg -> Forall pr (line1 cfg).
Proof. intros [_ [H _]]. unfold line1. prs. Qed.

Lemma sid_pr cfg : Forall pr (sid_of cfg).
Proof. unfold sid_of. destruct (hs_gzip cfg); prs. Qed.

Lemma line2_pr cfg : hs_cfg_ok cfg -> Forall pr (line2 cfg).
Proof. intros [_ [_ [H1 [H2 _]]]]. unfold line2. prs. apply sid_pr. Qed.

Lemma line3_pr cfg : hs_cfg_ok cfg -> Forall pr (line3 cfg).
Proof. intros [_ [_ [_ [_ [H1 [H2 H3]]]]]]. unfold line3. destruct (hs_master cfg); prs. Qed.

Lemma line1_clean cfg : hs_cfg_ok cfg -> clean_string (line1 cfg) = line1 cfg.
Proof.
  intros [Hne [H _]]. destruct (fw_last _ Hne H) as [y [Hy He]]. unfold line1.
  apply (clean_string_id 59 _ y); [reflexivity|apply okb_text; exact Hy|].
  do 4 apply ends_with_cons. exact He.
Qed.

Lemma line2_clean cfg : clean_string (line2 cfg) = line2 cfg.
Proof.
  unfold line2. apply (clean_string_id 91 _ 93); [reflexivity|reflexivity|].
  apply ends_with_cons, ends_with_app, ends_with_cons, ends_with_app, ends_with_one.
Qed.

Lemma line3_ends cfg : ends_with (if hs_master cfg then 62 else 41) (line3 cfg).
Proof.
  unfold line3. do 2 apply ends_with_cons. apply ends_with_app. do 4 apply ends_with_cons.
  apply ends_with_app. do 2 apply ends_with_cons. apply ends_with_app.
  destruct (hs_master cfg); [apply ends_with_cons|]; apply ends_with_one.
Qed.

Lemma line3_clean cfg : clean_string (line3 cfg) = line3 cfg.
Proof.
  pose proof (line3_ends cfg) as He. unfold line3 in *.
  apply (clean_string_id 59 _ (if hs_master cfg then 62 else 41)); [reflexivity|destruct (hs_master cfg); reflexivity|exact He].
Qed.

Lemma rh_step f s d x m rest :
  s_in s = (x :: m) ++ 13 :: rest -> Forall pr (x :: m) -> clean_string (x :: m) = x :: m -> x <> 70 ->
  read_handshake (S f) s d =
  match rh_line d (x :: m) with
  | RhGo d' => read_handshake f (set_in s rest) d'
  | RhStop => ROk (d, set_in s rest)
  | RhBad => RFail EOther (set_in s rest)
  end.
Proof.
  intros Hs Hp Hc Hx. rewrite read_handshake_eq.
  rewrite (next_line_gen false s (x :: m) rest (pr_notin 13 _ eq_refl Hp) Hc) by (discriminate || exact Hs).
  rewrite Hs. cbn [app]. apply N.eqb_neq in Hx. rewrite Hx. reflexivity.
Qed.

Lemma suffixb_one y z l : ends_with z l -> suffixb [y] l = (y =? z).
Proof. intros [m ->]. unfold suffixb. rewrite rev_app_distr. cbn [rev app prefixb]. apply andb_true_r. Qed.

Lemma take_until_lf_id l : ~ In 10 l -> take_until_lf l = l.
Proof.
  induction l as [|x l IH]; intros H; [reflexivity|]. cbn [take_until_lf].
  assert (E : (x =? 10) = false) by (apply N.eqb_neq; intros ->; apply H; left; reflexivity).
  rewrite E, IH; [reflexivity|]. intros Hi. apply H. right. exact Hi.
Qed.

Lemma sid_at_gen pre sid : ~ In 10 (pre ++ 45 :: sid ++ [93]) -> ~ In 45 sid ->
  sid_at (pre ++ 45 :: sid ++ [93]) = Some (upper sid).
Proof.
  intros H10 H45. unfold sid_at. rewrite take_until_lf_id by exact H10. rewrite rev'_rev.
  assert (E : rev (pre ++ 45 :: sid ++ [93]) = 93 :: rev sid ++ 45 :: rev pre).
  { rewrite rev_app_distr. cbn [rev]. rewrite rev_app_distr. cbn [rev app]. rewrite <- !app_assoc. reflexivity. }
  rewrite E. cbn [split_at]. change (93 =? 93) with true. cbv iota.
  rewrite split_at_app by (intros Hi; apply H45, in_rev; exact Hi).
  rewrite rev'_rev, rev_involutive. reflexivity.
Qed.

Lemma parse_sid_line2 cfg : hs_cfg_ok cfg -> parse_sid (line2 cfg) = Some (sid_of cfg).
Proof.
  intros H. pose proof (line2_pr cfg H) as Hp. unfold line2 in *. cbn [parse_sid].
  change (91 =? 91) with true. cbv iota.
  rewrite sid_at_gen.
  - unfold sid_of. destruct (hs_gzip cfg); reflexivity.
  - inversion Hp; subst. apply pr_notin; [reflexivity|assumption].
  - unfold sid_of. destruct (hs_gzip cfg); cbn [In]; intros Hi;
      repeat (destruct Hi as [Hi|Hi]; [discriminate|]); exact Hi.
Qed.

Lemma rh_line1 f s d cfg rest : hs_cfg_ok cfg -> s_in s = line1 cfg ++ 13 :: rest ->
  read_handshake (S f) s d = read_handshake f (set_in s rest) d.
Proof.
  intros H Hs. pose proof (line1_pr cfg H) as Hp. pose proof (line1_clean cfg H) as Hc.
  destruct (fw_head (hs_fw cfg) (proj1 H)) as [m Em]. unfold line1 in *. rewrite Em in *.
  rewrite (rh_step f s d _ _ rest Hs Hp Hc) by discriminate. reflexivity.
Qed.

Lemma rh_line2 f s d cfg rest : hs_cfg_ok cfg -> s_in s = line2 cfg ++ 13 :: rest ->
  read_handshake (S f) s d =
  read_handshake f (set_in s rest) {| hd_sid := sid_of cfg; hd_have_sid := true; hd_challenge := hd_challenge d |}.
Proof.
  intros H Hs. pose proof (line2_pr cfg H) as Hp. pose proof (line2_clean cfg) as Hc.
  pose proof (parse_sid_line2 cfg H) as Hq.
  assert (He : ends_with 93 (line2 cfg)).
  { unfold line2. apply ends_with_cons, ends_with_app, ends_with_cons, ends_with_app, ends_with_one. }
  pose proof (suffixb_one 93 93 _ He) as Hsf.
  unfold line2 in *.
  rewrite (rh_step f s d _ _ rest Hs Hp Hc) by discriminate. unfold rh_line.
  rewrite Hsf, Hq. change (93 =? 93) with true.
  cbn [prefixb]. change (91 =? 91) with true. cbn [andb].
  unfold sid_of. destruct (hs_gzip cfg); reflexivity.
Qed.

Lemma rh_line3 f s d cfg rest : hs_cfg_ok cfg -> s_in s = line3 cfg ++ 13 :: rest ->
  read_handshake (S f) s d =
  if hs_master cfg then ROk (d, set_in s rest) else read_handshake f (set_in s rest) d.
Proof.
  intros H Hs. pose proof (line3_pr cfg H) as Hp. pose proof (line3_clean cfg) as Hc.
  pose proof (suffixb_one 62 _ _ (line3_ends cfg)) as Hsf.
  unfold line3 in *.
  rewrite (rh_step f s d _ _ rest Hs Hp Hc) by discriminate. unfold rh_line.
  rewrite Hsf. destruct (hs_master cfg); reflexivity.
Qed.

Definition d_of (cfg : hs_cfg) : hsdata := {| hd_sid := sid_of cfg; hd_have_sid := true; hd_challenge := [] |}.

Lemma read_master_hello f s cfg rest :
  hs_cfg_ok cfg -> hs_master cfg = true -> s_in s = hello cfg ++ rest ->
  read_handshake (S (S (S f))) s d0 = ROk (d_of cfg, set_in s rest).
Proof.
  intros H Hm Hs. unfold hello in Hs. repeat (rewrite <- app_assoc in Hs; cbn [app] in Hs).
  rewrite (rh_line1 _ s d0 cfg _ H Hs).
  rewrite (rh_line2 _ _ d0 cfg (line3 cfg ++ 13 :: rest) H)
    by reflexivity.
  rewrite set_in_set_in.
  rewrite (rh_line3 _ _ _ cfg rest H) by reflexivity.
  rewrite Hm, set_in_set_in. reflexivity.
Qed.

Lemma read_slave_hello f s cfg r :
  hs_cfg_ok cfg -> hs_master cfg = false -> s_master s = true -> s_in s = hello cfg ++ 70 :: r ->
  read_handshake (S (S (S (S f)))) s d0 = ROk (d_of cfg, set_in s (70 :: r)).
Proof.
  intros H Hm Hms Hs. unfold hello in Hs. repeat (rewrite <- app_assoc in Hs; cbn [app] in Hs).
  rewrite (rh_line1 _ s d0 cfg _ H Hs).
  rewrite (rh_line2 _ _ d0 cfg (line3 cfg ++ 13 :: 70 :: r) H)
    by reflexivity.
  rewrite set_in_set_in.
  rewrite (rh_line3 _ _ _ cfg (70 :: r) H) by reflexivity.
  rewrite Hm, set_in_set_in. cbn [read_handshake set_in s_in s_master]. rewrite Hms. reflexivity.
Qed.

Lemma d_of_good cfg : hs_good (d_of cfg) = true.
Proof. unfold hs_good, d_of, sid_of. cbn [hd_have_sid hd_sid]. destruct (hs_gzip cfg); reflexivity. Qed.

Lemma hello_length cfg rest : exists f, length (hello cfg ++ rest) = S (S (S (S f))).
Proof. unfold hello, line1. cbn [app length]. eexists. reflexivity. Qed.

Lemma handshake_master st cfgS r :
  s_master st = true -> s_motd st = [] -> s_in st = hello cfgS ++ 70 :: r ->
  hs_cfg_ok cfgS ->
  handshake st = ROk (set_in (wr st (hello (s_cfg st))) (70 :: r)).
Proof.
  intros Hm Hmo Hs H. rewrite handshake_eq. unfold greeted. rewrite Hm, Hmo. cbn [fold_left].
  destruct (hello_length cfgS (70 :: r)) as [f Ef]. rewrite Hs, Ef.
  destruct (hs_master cfgS) eqn:Hc.
  - (* the peer's greeting ends with the prompt as well: the master stops there *)
    rewrite (read_master_hello (S (S f)) (wr st (hello (s_cfg st))) cfgS (70 :: r) H Hc Hs), d_of_good. reflexivity.
  - rewrite (read_slave_hello (S f) (wr st (hello (s_cfg st))) cfgS r H Hc), d_of_good; [reflexivity|exact Hm|exact Hs].
Qed.

Lemma handshake_slave st cfgM :
  s_master st = false -> s_in st = hello cfgM -> hs_cfg_ok cfgM -> hs_master cfgM = true ->
  handshake st = ROk (wr (set_in st []) (hello (s_cfg st))).
Proof.
  intros Hm Hs H Hc. rewrite handshake_eq. unfold greeted. rewrite Hm.
  rewrite <- (app_nil_r (hello cfgM)) in Hs.
  destruct (hello_length cfgM []) as [f Ef]. rewrite Hs, Ef.
  rewrite (read_master_hello (S (S f)) st cfgM [] H Hc Hs), d_of_good. cbn [d_of hd_challenge]. rewrite send_hello. reflexivity.
Qed.

Lemma init_state_out cfg i : s_out (init_state cfg i) = [].
Proof. unfold init_state. destruct (h_present (c_handler cfg)); reflexivity. Qed.
Lemma init_state_h cfg i : s_h (init_state cfg i) = c_handler cfg.
Proof. unfold init_state. destruct (h_present (c_handler cfg)); reflexivity. Qed.
Lemma init_state_master cfg i : s_master (init_state cfg i) = c_master cfg.
Proof. unfold init_state. destruct (h_present (c_handler cfg)); reflexivity. Qed.
Lemma init_state_motd cfg i : s_motd (init_state cfg i) = c_motd cfg.
Proof. unfold init_state. destruct (h_present (c_handler cfg)); reflexivity. Qed.
Lemma init_state_hs cfg i : s_cfg (init_state cfg i) = c_hs cfg.
Proof. unfold init_state. destruct (h_present (c_handler cfg)); reflexivity. Qed.

(* the greetings themselves.  The slave's own hs_master flag is irrelevant: with it set its greeting
   ends with the prompt too, and the master stops reading there, in front of the same byte *)
Theorem hs_compat_text_wire (m s : side_cfg) :
  c_master m = true -> c_master s = false -> c_motd m = [] ->
  hs_master (c_hs m) = true -> hs_cfg_ok (c_hs m) -> hs_cfg_ok (c_hs s) ->
  exists sm ss,
    handshake (init_state m (hello (c_hs s) ++ [70])) = ROk sm /\ s_in sm = [70] /\ wire sm = hello (c_hs m) /\
    handshake (init_state s (hello (c_hs m))) = ROk ss /\ s_in ss = [] /\ wire ss = hello (c_hs s).
Proof.
  intros Hm Hs Hmo Hhm Hom Hos.
  eexists. eexists.
  split; [apply (handshake_master _ (c_hs s) []);
          [rewrite init_state_master; exact Hm|rewrite init_state_motd; exact Hmo|apply init_state_in|exact Hos]|].
  split; [reflexivity|].
  split; [unfold wire; cbn [set_in wr s_out rev]; rewrite init_state_out, init_state_hs; cbn [rev app concat]; apply app_nil_r|].
  split; [apply (handshake_slave _ (c_hs m)); [rewrite init_state_master; exact Hs|apply init_state_in|exact Hom|exact Hhm]|].
  split; [reflexivity|].
  unfold wire. cbn [set_in wr s_out rev]. rewrite init_state_out, init_state_hs. cbn [rev app concat]. apply app_nil_r.
Qed.

Theorem hs_compat_text_gen (m s : side_cfg) :
  c_master m = true -> c_master s = false -> c_motd m = [] ->
  hs_master (c_hs m) = true ->
  hs_cfg_ok (c_hs m) -> hs_cfg_ok (c_hs s) ->
  hs_compat m s.
Proof.
  intros Hm Hs Hmo Hhm Hom Hos. destruct (hs_compat_text_wire m s Hm Hs Hmo Hhm Hom Hos) as (sm&ss&H).
  exists (hello (c_hs m)), (hello (c_hs s)), sm, ss. exact H.
Qed.

(* the hypothesis on the master's forwarding list is needed: with an empty list its first line is
   ";FW:" without the space the reader insists on, and the slave refuses the greeting *)
Example hs_empty_fw_refused :
  let m := {| c_master := true; c_motd := [];
              c_hs := {| hs_fw := []; hs_name := [119]; hs_version := [49]; hs_target := [88];
                         hs_mycall := [76;65;49;66]; hs_locator := []; hs_master := true; hs_gzip := false;
                         hs_cb := None |};
              c_handler := c_handler (CutP.cx_side true [] [] []) |} in
  match handshake (init_state m []) with
  | RFail _ sm =>
      wire sm = [59;70;87;58;13; 91;119;45;49;45;66;50;70;72;77;36;93;13; 59;32;88;32;68;69;32;76;65;49;66;32;40;41;62;13] /\
      match handshake (init_state (CutP.cx_side false [] [] []) (wire sm)) with
      | RFail EOther _ => True
      | _ => False
      end
  | _ => False
  end.
Proof. vm_compute. split; [reflexivity|exact I]. Qed.

Example hs_compat_cx_text : hs_compat (CutP.cx_side true [] [] []) (CutP.cx_side false [] [] []).
Proof.
  apply hs_compat_text_gen; try reflexivity;
    repeat split; try discriminate; repeat constructor; try discriminate; try (cbv; discriminate).
Qed.

Print Assumptions hs_compat_text_gen.
Print Assumptions hs_compat_text_wire.
