(* Catalog/PosReportP.v — C20: through the two roundings of decToMinDec (the binary64 product
   |x| * 600000.0, then math.Round) t stays within half a unit plus the binary64 error of the
   exact value, and a bound that is a whole number of units survives both; hence the
   DD-MM.MMMMH layout for |x| <= 90 / 180.  Also Course.String and the optional body fields. *)
From Coq Require Import Lia ZifyN ZifyNat ZifyBool.
From Verif Require Import Base.Bytes Catalog.PosReport.
(* exported: Properties/C20 takes digitsk_shape from BytesP through this file *)
From Verif Require Export Base.BytesP.
Open Scope N_scope.

Theorem course_string_spec d mag :
  (0 <= d <= 360)%Z ->
  course_string d mag =
  Some (digitsk 3 (Z.to_N (d mod 360)) ++ [if mag then 77 else 84]).
Proof.
  intros Hd. unfold course_string.
  destruct (d <? 0)%Z eqn:E1; [lia|]. destruct (360 <? d)%Z eqn:E2; [lia|]. cbn [orb].
  destruct (d =? 360)%Z eqn:E3.
  - apply Z.eqb_eq in E3. subst d. reflexivity.
  - apply Z.eqb_neq in E3.
    rewrite Z.mod_small by lia.
    replace d with (Z.of_N (Z.to_N d)) at 1 by lia.
    rewrite (fmt_0wd_N 3) by (change (10 ^ N.of_nat 3) with 1000; lia).
    reflexivity.
Qed.

Lemma pow2_pred_double j : 0 < j -> 2 ^ j = 2 * 2 ^ (j - 1).
Proof.
  intros H. replace j with (N.succ (j - 1)) at 1 by lia. apply N.pow_succ_r'.
Qed.

Lemma pow2_pos j : 0 < 2 ^ j.
Proof. apply N.neq_0_lt_0. apply N.pow_nonzero. discriminate. Qed.

Lemma pow2_split a b : b <= a -> 2 ^ a = 2 ^ (a - b) * 2 ^ b.
Proof. intros H. rewrite <- N.pow_add_r. f_equal. lia. Qed.

(* Both roundings are taken apart by one division with remainder; the products with the
   quotient are then atoms and the rest is linear. *)
Lemma rne_shift_err P j :
  0 < j ->
  rne_shift P j * 2 ^ j <= P + 2 ^ (j - 1) /\ P <= rne_shift P j * 2 ^ j + 2 ^ (j - 1).
Proof.
  intros Hj. pose proof (pow2_pred_double j Hj) as HJ.
  assert (HJ0 : 2 ^ j <> 0) by (apply N.pow_nonzero; discriminate).
  pose proof (N.div_mod P (2 ^ j) HJ0) as Hdm. pose proof (N.mod_upper_bound P (2 ^ j) HJ0) as Hmod.
  unfold rne_shift. set (q := P / 2 ^ j) in *. set (r := P mod 2 ^ j) in *.
  destruct ((2 ^ (j - 1) <? r) || ((r =? 2 ^ (j - 1)) && N.odd q)) eqn:E;
    rewrite ?N.mul_add_distr_r, ?N.mul_1_l, (N.mul_comm q); [|lia].
  apply orb_true_iff in E. destruct E as [E|E]; [lia|]. apply andb_true_iff in E. lia.
Qed.

(* a bound that is a whole number of units survives any rounding to nearest: r is within half
   a unit (2^j) of P, and P is at most c units *)
Lemma nearest_le r P j c : 0 < j -> r * 2 ^ j <= P + 2 ^ (j - 1) -> P <= c * 2 ^ j -> r <= c.
Proof.
  intros Hj Hr Hc. pose proof (pow2_pred_double j Hj) as HJ. pose proof (pow2_pos (j - 1)) as Hh.
  apply N.lt_succ_r, (N.mul_lt_mono_pos_r (2 ^ j)); [apply pow2_pos|]. rewrite N.mul_succ_l. lia.
Qed.

(* when rounding happens the product has at least 53+j bits *)
Lemma size_ge P j : N.size P - 53 = j -> 0 < j -> 2 ^ (52 + j) <= P.
Proof.
  intros Hs Hj.
  destruct P as [|p]; [cbn in Hs; lia|].
  assert (Hsz : N.size (N.pos p) = 53 + j) by lia.
  rewrite N.size_log2 in Hsz by discriminate.
  assert (Hl : N.log2 (N.pos p) = 52 + j) by lia.
  rewrite <- Hl. apply N.log2_spec. reflexivity.
Qed.

(* math.Round of q / 2^d for d > 0, scaled by 2^d *)
Lemma half_up_err q d : 0 < d ->
  let t := (q + 2 ^ (d - 1)) / 2 ^ d in
  t * 2 ^ d <= q + 2 ^ (d - 1) /\ q <= t * 2 ^ d + 2 ^ (d - 1).
Proof.
  intros Hd t. pose proof (pow2_pred_double d Hd) as HD.
  assert (HD0 : 2 ^ d <> 0) by (apply N.pow_nonzero; discriminate).
  pose proof (N.div_mod (q + 2 ^ (d - 1)) (2 ^ d) HD0) as Hdm.
  pose proof (N.mod_upper_bound (q + 2 ^ (d - 1)) (2 ^ d) HD0) as Hmod.
  fold t in Hdm. rewrite (N.mul_comm t). lia.
Qed.

(* error of math.Round on q * 2^sh / 2^k, scaled by 2^k (case k > sh) *)
Lemma round_half_up_err q sh k :
  sh < k ->
  let t := round_half_up q sh k in
  t * 2 ^ k <= q * 2 ^ sh + 2 ^ (k - 1) /\ q * 2 ^ sh <= t * 2 ^ k + 2 ^ (k - 1).
Proof.
  intros Hk t. unfold t, round_half_up.
  destruct (k <=? sh) eqn:E; [apply N.leb_le in E; lia|].
  rewrite (pow2_split k sh), (pow2_split (k - 1) sh) by lia.
  replace (k - 1 - sh) with (k - sh - 1) by lia.
  destruct (half_up_err q (k - sh) ltac:(lia)) as [H1 H2].
  rewrite !N.mul_assoc, <- !N.mul_add_distr_r. split; apply N.mul_le_mono_r; assumption.
Qed.

Lemma round_half_up_le q sh k c : q * 2 ^ sh <= c * 2 ^ k -> round_half_up q sh k <= c.
Proof.
  intros Hc. destruct (N.le_gt_cases k sh) as [E|E].
  - unfold round_half_up. rewrite (proj2 (N.leb_le _ _) E). rewrite (pow2_split sh k E), N.mul_assoc in Hc.
    exact (proj2 (N.mul_le_mono_pos_r _ _ _ (pow2_pos k)) Hc).
  - apply (nearest_le _ (q * 2 ^ sh) k); [lia|apply round_half_up_err, E|exact Hc].
Qed.

(* |t - P / 2^k| <= 1/2 + P / 2^k * 2^-53, multiplied through by 2 * 2^k * 2^53 *)
Theorem t_of_value m k :
  let P := m * 600000 in
  let t := t_of m k in
  2 * (t * 2 ^ k) * 2 ^ 53 <= 2 * P * 2 ^ 53 + 2 ^ k * 2 ^ 53 + 2 * P /\
  2 * P * 2 ^ 53 <= 2 * (t * 2 ^ k) * 2 ^ 53 + 2 ^ k * 2 ^ 53 + 2 * P.
Proof.
  intros P t. unfold t, t_of, fmul_600000. fold P.
  pose proof (pow2_pos k) as HK. change (2 ^ 53) with 9007199254740992.
  destruct (N.size P - 53 =? 0) eqn:Ej.
  - (* exact product *)
    destruct (N.eq_dec k 0) as [->|Hk0].
    + unfold round_half_up. cbn [N.leb N.compare N.sub]. change (2 ^ 0) with 1. lia.
    + pose proof (round_half_up_err P 0 k ltac:(lia)) as [H1 H2].
      change (2 ^ 0) with 1 in *. rewrite N.mul_1_r in *.
      pose proof (pow2_pred_double k ltac:(lia)) as HD. lia.
  - apply N.eqb_neq in Ej. set (j := N.size P - 53) in *.
    assert (Hj : 0 < j) by lia.
    pose proof (rne_shift_err P j Hj) as [R1 R2].
    pose proof (size_ge P j eq_refl Hj) as Hsz.
    replace (52 + j) with (j - 1 + 53) in Hsz by lia. rewrite N.pow_add_r in Hsz.
    change (2 ^ 53) with 9007199254740992 in Hsz.
    set (q := rne_shift P j) in *.
    destruct (N.le_gt_cases k j) as [Hkj|Hkj].
    + unfold round_half_up. destruct (k <=? j) eqn:E; [|apply N.leb_gt in E; lia].
      rewrite <- !(N.mul_assoc q), <- (pow2_split j k Hkj). lia.
    + pose proof (round_half_up_err q j k Hkj) as [H1 H2].
      pose proof (pow2_pred_double k ltac:(lia)) as HD. lia.
Qed.

(* a bound that is a whole number of units survives both roundings *)
Theorem t_of_le m k c :
  c < 2 ^ 52 -> m * 600000 <= c * 2 ^ k -> t_of m k <= c.
Proof.
  intros Hc HP. unfold t_of, fmul_600000. set (P := m * 600000) in *.
  destruct (N.size P - 53 =? 0) eqn:Ej.
  - apply round_half_up_le. change (2 ^ 0) with 1. rewrite N.mul_1_r. exact HP.
  - apply N.eqb_neq in Ej. set (j := N.size P - 53) in *.
    assert (Hj : 0 < j) by lia.
    (* the product has 53 + j bits and is below 2^52 * 2^k, so the rounded bits lie below the point *)
    assert (Hkj : j <= k).
    { apply N.lt_le_incl. apply (N.pow_lt_mono_r_iff 2); [reflexivity|].
      apply (N.mul_lt_mono_pos_l (2 ^ 52)); [apply pow2_pos|]. rewrite <- N.pow_add_r.
      apply N.le_lt_trans with (1 := size_ge P j eq_refl Hj). apply N.le_lt_trans with (1 := HP).
      apply N.mul_lt_mono_pos_r; [apply pow2_pos|exact Hc]. }
    apply round_half_up_le. rewrite (pow2_split k j Hkj), N.mul_assoc. apply N.mul_le_mono_r.
    apply (nearest_le _ P j); [exact Hj|apply rne_shift_err, Hj|]. rewrite <- N.mul_assoc, <- (pow2_split k j Hkj). exact HP.
Qed.

(* |x| <= L degrees gives t <= L * 600000 (L up to 180) *)
Theorem t_of_bound m k L :
  L <= 180 -> m <= L * 2 ^ k -> t_of m k <= L * 600000.
Proof.
  intros HL Hm. apply t_of_le; [change (2 ^ 52) with 4503599627370496; lia|].
  rewrite (N.mul_comm L), <- N.mul_assoc, (N.mul_comm m). apply N.mul_le_mono_l. exact Hm.
Qed.

(* degrees, whole minutes and 1/10000 minutes of a count of 1/10000 minutes *)
Lemma min_dec_parts t L : t <= L * 600000 ->
  t / 600000 <= L /\ (t mod 600000) / 10000 < 60 /\ (t mod 600000) mod 10000 < 10000
  /\ t = t / 600000 * 600000 + (t mod 600000) / 10000 * 10000 + (t mod 600000) mod 10000.
Proof.
  intros Ht.
  pose proof (N.div_mod t 600000 ltac:(discriminate)) as E1.
  pose proof (N.mod_upper_bound t 600000 ltac:(discriminate)) as B1.
  pose proof (N.div_mod (t mod 600000) 10000 ltac:(discriminate)) as E2.
  pose proof (N.mod_upper_bound (t mod 600000) 10000 ltac:(discriminate)) as B2.
  set (a := t / 600000) in *. set (b := t mod 600000) in *.
  set (c := b / 10000) in *. set (d := b mod 10000) in *. clearbody a b c d. lia.
Qed.

Theorem dec_to_min_dec_format neg m k (lat : bool) :
  let L := if lat then 90 else 180 in
  m <= L * 2 ^ k ->
  let t := t_of m k in
  let deg := t / 600000 in
  let mi := (t mod 600000) / 10000 in
  let fr := (t mod 600000) mod 10000 in
  dec_to_min_dec neg m k lat =
    digitsk (if lat then 2 else 3) deg ++ [45] ++ digitsk 2 mi ++ [46] ++ digitsk 4 fr
    ++ [hemisphere neg m lat]
  /\ deg <= L /\ mi < 60 /\ fr < 10000
  /\ t = deg * 600000 + mi * 10000 + fr.
Proof.
  intros L Hm t deg mi fr.
  assert (Ht : t <= L * 600000) by (apply t_of_bound; [destruct lat; discriminate|exact Hm]).
  split; [|exact (min_dec_parts t L Ht)].
  pose proof (min_dec_parts t L Ht : deg <= L /\ mi < 60 /\ fr < 10000 /\ _) as [Hdeg [Hmi [Hfr _]]].
  unfold dec_to_min_dec. fold t deg mi fr.
  clearbody deg mi fr. clear - Hdeg Hmi Hfr.
  rewrite (fmt_0wd_N 2 mi) by (change (10 ^ N.of_nat 2) with 100; lia).
  rewrite (fmt_0wd_N 4 fr) by (change (10 ^ N.of_nat 4) with 10000; lia).
  destruct lat; [rewrite (fmt_0wd_N 2 deg) by (change (10 ^ N.of_nat 2) with 100; lia)
                |rewrite (fmt_0wd_N 3 deg) by (change (10 ^ N.of_nat 3) with 1000; lia)]; reflexivity.
Qed.

Theorem posrep_body_fields p :
  posrep_body p =
  str_DATE ++ pr_date p ++ CRLF
  ++ (match pr_lat p, pr_lon p with
      | Some (n1, m1, k1), Some (n2, m2, k2) =>
          str_LATITUDE ++ dec_to_min_dec n1 m1 k1 true ++ CRLF
          ++ str_LONGITUDE ++ dec_to_min_dec n2 m2 k2 false ++ CRLF
      | _, _ => []
      end)
  ++ (match pr_speed p with Some s => str_SPEED ++ s ++ CRLF | None => [] end)
  ++ (match pr_course p with Some c => str_COURSE ++ c ++ CRLF | None => [] end)
  ++ (match pr_comment p with [] => [] | c => str_COMMENT ++ c ++ CRLF end).
Proof. reflexivity. Qed.
